(* C11 — the archiver with parents produces the tree of the backup that reads every file: for any
   parent state whose nodes are usable (`good`), hence for parents written by correct backups
   whenever every change is visible; reuse only if indexed; the unchanged-tree short-cut. *)
From Verif.Base Require Import Tactics.
From Verif.C11 Require Import Extracted Model Proofs Spec Proofs2.
Local Open Scope N_scope.

Lemma set_content_same : forall nd, set_content nd (n_content nd) = nd.
Proof. intros []; reflexivity. Qed.

Section Main.
  Variable D : Type.
  Variable chunks : D -> list id.
  Variable tid : list node -> id.
  Variable o : popts.
  Variable st : store.
  Variable ix : index.

  Notation read_all := (read_all D chunks tid).
  Notation good := (good D chunks o st).
  Notation visible := (visible D chunks o).
  Notation stored := (stored D chunks tid st).
  Notation wf := (wf D).
  Notation leaf_read := (leaf_read D chunks).
  Notation arch := (arch D chunks tid o st ix).
  Notation arch_list := (arch_list D chunks tid o st ix).
  Notation arch_leaf := (arch_leaf D chunks o ix).
  Notation arch_dir := (arch_dir tid o st).

  Lemma leaf_read_reuse : forall nd d, set_content nd (n_content (leaf_read nd d)) = leaf_read nd d.
  Proof.
    intros nd d. unfold Model.leaf_read. destruct (n_type nd); try apply set_content_same.
    reflexivity.
  Qed.

  Lemma leaf_read_type : forall nd d, n_type (leaf_read nd d) = n_type nd.
  Proof. intros nd d. rewrite <- leaf_read_reuse. reflexivity. Qed.
  Lemma leaf_read_meta : forall nd d, n_meta (leaf_read nd d) = n_meta nd.
  Proof. intros nd d. rewrite <- leaf_read_reuse. reflexivity. Qed.
  Lemma leaf_read_name : forall nd d, n_name (leaf_read nd d) = n_name nd.
  Proof. intros nd d. rewrite <- leaf_read_reuse. reflexivity. Qed.
  Lemma leaf_read_subtree : forall nd d, n_subtree (leaf_read nd d) = n_subtree nd.
  Proof. intros nd d. rewrite <- leaf_read_reuse. reflexivity. Qed.

  Lemma read_all_name : forall e, n_name (read_all e) = sname e.
  Proof. intros [nd d|nd cs]; cbn [Spec.read_all sname]; [apply leaf_read_name|reflexivity]. Qed.

  Lemma process_other_lemma : forall P nd P' nd' r,
    process_other o ix P nd = (P', nd', r) ->
    match r with
    | Matched _ => exists pn t, In t (trees P) /\ In pn (fst t) /\ n_name pn = n_name nd /\ meta_match o pn nd = true /\
                                nd' = set_content nd (n_content pn) /\ forall c, In c (content_ids pn) -> ix c = true
    | _ => nd' = nd
    end.
  Proof.
    intros P nd P' nd' r H. unfold process_other in H.
    destruct (is_parent o (trees P) nd (n_name nd)) as [ts r0] eqn:IP.
    destruct r0 as [pn| |]; [destruct (forallb ix (content_ids pn)) eqn:F|..];
      injection H as <- <- <-; try reflexivity.
    destruct (is_parent_matched _ _ _ _ _ _ IP) as [[t [Ht Hp]] [Hn Hm]].
    exists pn, t. repeat split; try assumption. exact (proj1 (forallb_forall _ _) F).
  Qed.

  Lemma process_other_same : forall P nd, same_trees P (fst (fst (process_other o ix P nd))).
  Proof.
    intros P nd. unfold process_other.
    pose proof (is_parent_trees o (trees P) nd (n_name nd)) as T.
    destruct (is_parent o (trees P) nd (n_name nd)) as [ts r]. specialize (T ts r eq_refl).
    destruct r as [pn| |]; [destruct (forallb ix (content_ids pn))|..]; (split; [exact T|reflexivity]).
  Qed.

  Lemma process_newtree_state : forall P nd name ts r, is_parent o (trees P) nd name = (ts, r) ->
    (forall pn, r = Matched pn -> n_subtree pn <> None) ->
    exists r', process_newtree o st P nd name = Some (set_dir st {| trees := ts; stack := stack P |} name, r').
  Proof.
    intros P nd name ts r IP H. unfold process_newtree. rewrite IP.
    destruct r as [pn| |]; [|eexists; reflexivity..].
    specialize (H pn eq_refl). destruct (n_subtree pn); [eexists; reflexivity|contradiction].
  Qed.

  (* about whole trees, not from the cursors on: so it survives whatever moves cursors only *)
  Definition usable (P : pstate) (e : src D) : Prop :=
    forall T q, In T (map fst (trees P)) -> In q T -> n_name q = sname e -> good e q.

  Lemma usable_same : forall P P' e, same_trees P P' -> usable P e -> usable P' e.
  Proof. intros P P' e [Ht _] H T q HT. apply H. rewrite <- Ht. exact HT. Qed.

  Lemma arch_SDir : forall nd cs P, arch (SDir nd cs) P = arch_dir P nd (arch_list cs).
  Proof. reflexivity. Qed.

  Lemma arch_leaf_ok : forall nd d P, usable P (SLeaf nd d) ->
    exists P', arch_leaf P nd d = (P', leaf_read nd d) /\ same_trees P P'.
  Proof.
    intros nd d P H. unfold Model.arch_leaf.
    pose proof (process_other_lemma P nd) as C. pose proof (process_other_same P nd) as S.
    destruct (process_other o ix P nd) as [[P' nd'] r]. specialize (C P' nd' r eq_refl).
    exists P'. split; [|exact S].
    destruct r; [|rewrite C; reflexivity..].
    destruct C as [pn [t [Ht [Hp [Hn [Hm [-> _]]]]]]].
    rewrite (H (fst t) pn (in_map fst _ _ Ht) Hp Hn Hm), leaf_read_reuse. reflexivity.
  Qed.

  Lemma arch_list_ok : forall cs,
    allP (fun c => forall P, usable P c -> exists P', arch c P = Some (P', read_all c) /\ same_trees P P') cs ->
    forall P, (forall c, In c cs -> usable P c) ->
    exists P', arch_list cs P = Some (P', map read_all cs) /\ same_trees P P'.
  Proof.
    induction cs as [|c cs IH]; intros HA P H.
    - exists P. split; [reflexivity|split; reflexivity].
    - destruct HA as [Hc Hrest]. cbn [Model.arch_list].
      destruct (Hc P (H c (or_introl eq_refl))) as [P1 [E1 S1]]. rewrite E1.
      destruct (IH Hrest P1) as [P2 [E2 S2]].
      { intros x Hx. eapply usable_same; [exact S1|]. apply H. right; exact Hx. }
      rewrite E2. exists P2. split; [reflexivity|eapply same_trees_trans; eassumption].
  Qed.

  Lemma arch_ok : forall e P, usable P e -> exists P', arch e P = Some (P', read_all e) /\ same_trees P P'.
  Proof.
    induction e as [nd d|nd cs IHcs] using src_ind2; intros P H.
    - destruct (arch_leaf_ok nd d P H) as [P' [E S]]. exists P'. cbn [Model.arch]. rewrite E. split; [reflexivity|exact S].
    - rewrite arch_SDir. unfold Model.arch_dir.
      destruct (is_parent o (trees P) nd (n_name nd)) as [ts r] eqn:IP.
      destruct (process_newtree_state P nd (n_name nd) ts r IP) as [r' ->].
      { (* a matched parent node is usable, so it has a subtree *)
        intros pn ->. destruct (is_parent_matched _ _ _ _ _ _ IP) as [[t [Ht Hp]] [Hn Hm]].
        exact (proj1 (H (fst t) pn (in_map fst _ _ Ht) Hp Hn) Hm). }
      set (Q := {| trees := ts; stack := stack P |}).
      assert (SQ : same_trees P Q) by (split; [exact (is_parent_trees _ _ _ _ _ _ IP)|reflexivity]).
      (* the children are usable w.r.t. the trees installed by set_dir *)
      destruct (arch_list_ok cs IHcs (set_dir st Q (n_name nd))) as [P2 [-> S2]].
      { intros c Hc T q HT Hq Hn. apply in_map_iff in HT. destruct HT as [t [<- Ht]].
        destruct (set_dir_trees st Q _ t Ht) as [t0 [pn [i [Ht0 [Hp [Hpn [Hsub Hst]]]]]]].
        destruct (usable_same _ _ _ SQ H (fst t0) pn (in_map fst _ _ Ht0) Hp Hpn) as [_ G].
        exact (allP_elim (G i (fst t) Hsub Hst) c Hc q Hq Hn). }
      destruct (finish_set_dir _ _ _ _ S2) as [P3 [-> S3]].
      exists P3. split; [reflexivity|exact (same_trees_trans _ _ _ SQ S3)].
  Qed.

  Lemma arch_list_full : forall cs P, (forall c, In c cs -> usable P c) ->
    exists P', arch_list cs P = Some (P', map read_all cs) /\ same_trees P P'.
  Proof. intros cs P. apply arch_list_ok, (allP_all arch_ok). Qed.

  Lemma good_list : forall cs1 cs0,
    allP (fun e1 => forall e0, wf e1 -> wf e0 -> stored e0 -> visible e1 e0 -> good e1 (read_all e0)) cs1 ->
    allP wf cs1 -> allP wf cs0 -> allP stored cs0 ->
    allP (fun x1 => forall x0, In x0 cs0 -> sname x0 = sname x1 -> visible x1 x0) cs1 ->
    forall c, In c cs1 -> forall q, In q (map read_all cs0) -> n_name q = sname c -> good c q.
  Proof.
    intros cs1 cs0 HA W1 W0 S0 V c Hc q Hq Hn.
    apply in_map_iff in Hq. destruct Hq as [x0 [<- Hx0]]. rewrite read_all_name in Hn.
    exact (allP_elim HA c Hc x0 (allP_elim W1 c Hc) (allP_elim W0 x0 Hx0) (allP_elim S0 x0 Hx0)
             (allP_elim V c Hc x0 Hx0 Hn)).
  Qed.

  Lemma good_of_visible : forall e1 e0, wf e1 -> wf e0 -> stored e0 -> visible e1 e0 -> good e1 (read_all e0).
  Proof.
    induction e1 as [n1 d1|n1 c1 IH] using src_ind2; intros e0 W1 W0 S0 V; destruct e0 as [n0 d0|n0 c0];
      cbn [Spec.good Spec.read_all Spec.wf Spec.visible Spec.stored] in *.
    - intros Hm. apply V. apply meta_match_core in Hm. unfold core_match in *.
      rewrite leaf_read_type, leaf_read_meta in Hm. exact Hm.
    - (* a file against a parent directory: the types differ *)
      intros Hm. apply meta_match_type in Hm. cbn [set_subtree n_type] in Hm.
      destruct W1 as [T1 _]. rewrite <- Hm in T1. contradiction (T1 (proj1 W0)).
    - destruct W0 as [T0 Sub0]. split.
      + intros Hm. apply meta_match_type in Hm. rewrite leaf_read_type, (proj1 W1) in Hm. contradiction.
      + intros i T Hs. rewrite leaf_read_subtree, Sub0 in Hs. discriminate.
    - split; [intros _; discriminate|].
      (* the subtree that loads is the one written for c0 *)
      intros i T Hs Hst. cbn [set_subtree n_subtree] in Hs. injection Hs as <-.
      rewrite (proj1 S0 T Hst). apply allP_In.
      exact (good_list c1 c0 IH (proj2 W1) (proj2 W0) (proj2 S0) V).
  Qed.

  (* with `force` no parent tree is loaded, so nothing is asked of the source or the repository *)
  Lemma parents_arch_list : forall (parents : list id) (cs1 : list (src D)) (force : bool),
    (force = false -> allP wf cs1 /\
       forall pid T, In pid parents -> st pid = Some T ->
       exists cs0, T = map read_all cs0 /\ allP wf cs0 /\ allP stored cs0 /\
                   allP (fun x1 => forall x0, In x0 cs0 -> sname x0 = sname x1 -> visible x1 x0) cs1) ->
    exists P', arch_list cs1 {| trees := load_trees st (if force then [] else parents); stack := [] |}
               = Some (P', map read_all cs1).
  Proof.
    intros parents cs1 force H.
    destruct (arch_list_full cs1 {| trees := load_trees st (if force then [] else parents); stack := [] |})
      as [P' [E _]]; [|exists P'; exact E].
    intros c Hc T q HT. cbn [trees] in HT. apply in_map_iff in HT. destruct HT as [t [<- Ht]].
    apply In_load_trees in Ht. destruct Ht as [pid [Hpid [Hst _]]].
    destruct force; [destruct Hpid|]. destruct (H eq_refl) as [W1 HP].
    destruct (HP pid (fst t) Hpid Hst) as [cs0 [-> [W0 [S0 V]]]].
    exact (good_list cs1 cs0 (allP_all good_of_visible cs1) W1 W0 S0 V c Hc q).
  Qed.

  Lemma archive_root : forall (parents : list id) (force skip : bool) cs P' ns,
    arch_list cs {| trees := load_trees st (if force then [] else parents); stack := [] |} = Some (P', ns) ->
    exists w, archive D chunks tid o st ix parents force skip cs = Some (tid ns, w).
  Proof. intros parents force skip cs P' ns H. unfold archive, parent_new. rewrite H. eexists; reflexivity. Qed.
End Main.

Lemma shortcut_lemma : forall parent id has,
  backup_tree_action parent id has = Shortcut <->
  parent = Matched id /\ (shortcut_requires_has_tree = true -> has = true).
Proof.
  intros parent i has. unfold backup_tree_action.
  destruct parent as [p| |]; [|destruct has; (split; [discriminate|intros [E _]; discriminate E])..].
  destruct ((i =? p) && (negb shortcut_requires_has_tree || has)) eqn:G.
  - apply andb_true_iff in G. destruct G as [E G]. apply N.eqb_eq in E. subst p.
    split; [intros _|reflexivity]. split; [reflexivity|]. intros R. rewrite R in G. exact G.
  - split; [destruct has; discriminate|]. intros [E H]. injection E as ->.
    rewrite N.eqb_refl in G. destruct shortcut_requires_has_tree; [rewrite (H eq_refl) in G|]; discriminate G.
Qed.
