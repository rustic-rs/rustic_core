(* C11 — the property theorems.  In their statements (Model.v / Spec.v):
     src D            the source after TreeIterator: leaves (node, data) and directories with children
     arch / arch_list the archiver on such a source, threading the real Parent state (trees with cursors, stack)
     archive          get_parent (force) + Parent::new + arch_list + root id + skip_if_unchanged
     read_all         the backup that reads every file (no Parent at all)
     good e pn        parent node pn is usable for entry e
     visible e1 e0    the property's premise for entries of equal name
     stored e0        what the repository still holds of e0's trees is what was written (trees may be missing)
   chunks, tid, the store and the index are universally quantified. *)
From Verif.Base Require Import Tactics.
From Verif.C11 Require Import Extracted Model Proofs Spec Proofs2 Proofs3 ModelIter ProofsIter ProofsPipe ProofsBracket ModelSelect ProofsSelect Examples.
Local Open Scope N_scope.

(* Core: for ANY parent state — any number of trees, any cursor positions, any stack — and any
   top-level entries in any arrival order: if every parent node carrying the name of an entry is
   usable for it, the archiver returns exactly the nodes of the backup that reads every file. *)
Theorem parent_equals_full_core : forall D chunks tid o st ix (cs : list (src D)) (P : pstate),
  (forall c T q, In c cs -> In T (map fst (trees P)) -> In q T -> n_name q = sname c ->
                 good D chunks o st c q) ->
  exists P', arch_list D chunks tid o st ix cs P = Some (P', map (read_all D chunks tid) cs).
Proof.
  intros D chunks tid o st ix cs P H.
  destruct (arch_list_full D chunks tid o st ix cs P) as [P' [E _]]; [|exists P'; exact E].
  intros c Hc T q. apply H. exact Hc.
Qed.
Print Assumptions parent_equals_full_core.

(* The property: every list of parent snapshots, each of whose loadable root trees was produced by
   a correct backup of some earlier state cs0 (sub-trees possibly pruned from the repository, any
   index), and every current state cs1 such that each entry with equal type, size, mtime and
   (unless ignored) ctime has equal content: the backup with parents and the forced backup both
   produce the tree of read_all. *)
Theorem parent_equals_full : forall D chunks tid o st ix (parents : list id) (cs1 : list (src D)) skip skip',
  allP (wf D) cs1 ->
  (forall pid T, In pid parents -> st pid = Some T ->
     exists cs0, T = map (read_all D chunks tid) cs0 /\ allP (wf D) cs0 /\
                 allP (stored D chunks tid st) cs0 /\
                 allP (fun x1 => forall x0, In x0 cs0 -> sname x0 = sname x1 -> visible D chunks o x1 x0) cs1) ->
  exists w w',
    archive D chunks tid o st ix parents false skip cs1 = Some (tid (map (read_all D chunks tid) cs1), w) /\
    archive D chunks tid o st ix parents true skip' cs1 = Some (tid (map (read_all D chunks tid) cs1), w').
Proof.
  intros D chunks tid o st ix parents cs1 skip skip' W1 HP.
  destruct (parents_arch_list D chunks tid o st ix parents cs1 false (fun _ => conj W1 HP)) as [P' E].
  destruct (parents_arch_list D chunks tid o st ix parents cs1 true) as [P'' E']; [discriminate|].
  destruct (archive_root D chunks tid o st ix parents false skip cs1 P' _ E) as [w Ew].
  destruct (archive_root D chunks tid o st ix parents true skip' cs1 P'' _ E') as [w' Ew'].
  exists w, w'. split; assumption.
Qed.
Print Assumptions parent_equals_full.

Theorem options_reach_parent_under_their_names : forall po, opts_passed po = po.
Proof. intros [a b]. reflexivity. Qed.
Print Assumptions options_reach_parent_under_their_names.

(* The same for the backup COMMAND: the options of ParentOptions travel through get_parent into
   Parent::new (argument order regenerated from commands/backup.rs); the premise is the one of the
   options the user set (ignore_ctime of ParentOptions decides whether ctime counts). *)
Theorem parent_equals_full_for_the_command : forall D chunks tid po st ix (parents : list id) (cs1 : list (src D)) skip skip',
  allP (wf D) cs1 ->
  (forall pid T, In pid parents -> st pid = Some T ->
     exists cs0, T = map (read_all D chunks tid) cs0 /\ allP (wf D) cs0 /\
                 allP (stored D chunks tid st) cs0 /\
                 allP (fun x1 => forall x0, In x0 cs0 -> sname x0 = sname x1 -> visible D chunks po x1 x0) cs1) ->
  exists w w',
    backup_cmd D chunks tid po st ix parents false skip cs1 = Some (tid (map (read_all D chunks tid) cs1), w) /\
    backup_cmd D chunks tid po st ix parents true skip' cs1 = Some (tid (map (read_all D chunks tid) cs1), w').
Proof.
  intros. unfold backup_cmd. rewrite options_reach_parent_under_their_names.
  apply parent_equals_full; assumption.
Qed.
Print Assumptions parent_equals_full_for_the_command.

Theorem parent_equals_full_hypotheses_satisfiable :
  allP (wf D_ex) cs1 /\
  (forall pid T, In pid [root0] -> st_ex pid = Some T ->
     exists c0, T = map ra c0 /\ allP (wf D_ex) c0 /\ allP (stored D_ex chunks_ex tid_ex st_ex) c0 /\
                allP (fun x1 => forall x0, In x0 c0 -> sname x0 = sname x1 -> visible D_ex chunks_ex o_ex x1 x0) cs1).
Proof. exact hypotheses_satisfiable. Qed.
Print Assumptions parent_equals_full_hypotheses_satisfiable.

(* The premise cannot be dropped: same type, size, mtime, ctime but other bytes => the trees differ. *)
Theorem parent_equals_full_needs_its_premise :
  exists r1 r2 w1 w2,
    archive D_ex chunks_ex tid_ex o_ex st_ex ix_all [root0] false false cs1_stealth = Some (r1, w1) /\
    archive D_ex chunks_ex tid_ex o_ex st_ex ix_all [root0] true false cs1_stealth = Some (r2, w2) /\ r1 <> r2.
Proof. exact premise_is_needed. Qed.
Print Assumptions parent_equals_full_needs_its_premise.

(* force (no parent): every file is read, whatever the repository holds. *)
Theorem force_reads_every_file : forall D chunks tid o st ix parents skip (cs : list (src D)),
  exists w, archive D chunks tid o st ix parents true skip cs = Some (tid (map (read_all D chunks tid) cs), w).
Proof.
  intros D chunks tid o st ix parents skip cs.
  destruct (parents_arch_list D chunks tid o st ix parents cs true) as [P' E]; [discriminate|].
  exact (archive_root D chunks tid o st ix parents true skip cs P' _ E).
Qed.
Print Assumptions force_reads_every_file.

(* A file's content list is taken from the parent only if the parent node matches and ALL its
   chunk ids are in the index; in every other case the entry is read again. *)
Theorem reuse_only_if_indexed : forall D chunks o ix P nd (d : D) P' n,
  arch_leaf D chunks o ix P nd d = (P', n) ->
  n = leaf_read D chunks nd d \/
  exists pn t, In t (trees P) /\ In pn (fst t) /\ n_name pn = n_name nd /\ meta_match o pn nd = true /\
               n = set_content nd (n_content pn) /\ forall c, In c (content_ids pn) -> ix c = true.
Proof.
  intros D chunks o ix P nd d P' n H. unfold arch_leaf in H.
  pose proof (process_other_lemma o ix P nd) as C.
  destruct (process_other o ix P nd) as [[P1 nd'] r]. specialize (C P1 nd' r eq_refl).
  destruct r; injection H as <- <-; [right; exact C|left; rewrite C; reflexivity..].
Qed.
Print Assumptions reuse_only_if_indexed.

(* The same at the interface the hook drives (Parent::process, arm Other). *)
Theorem process_other_classification : forall o ix P nd P' nd' r,
  process_other o ix P nd = (P', nd', r) ->
  match r with
  | Matched _ => exists pn t, In t (trees P) /\ In pn (fst t) /\ n_name pn = n_name nd /\ meta_match o pn nd = true /\
                              nd' = set_content nd (n_content pn) /\ forall c, In c (content_ids pn) -> ix c = true
  | _ => nd' = nd
  end.
Proof. exact process_other_lemma. Qed.
Print Assumptions process_other_classification.

(* A match is a node of a parent tree, of the queried name, equal in type, size, mtime and (unless
   ignored; None matches) ctime — whatever the inode clause says. *)
Theorem is_parent_match_is_sound : forall o ts nd name ts' pn,
  is_parent o ts nd name = (ts', Matched pn) ->
  (exists t, In t ts /\ In pn (fst t)) /\ n_name pn = name /\ core_match o pn nd = true.
Proof.
  intros o ts nd name ts' pn H. destruct (is_parent_matched _ _ _ _ _ _ H) as [A [B C]].
  exact (conj A (conj B (meta_match_core _ _ _ C))).
Qed.
Print Assumptions is_parent_match_is_sound.

(* Searching moves cursors only: the parent trees themselves never change. *)
Theorem is_parent_moves_cursors_only : forall o ts nd name ts' r,
  is_parent o ts nd name = (ts', r) -> map fst ts' = map fst ts.
Proof. exact is_parent_trees. Qed.
Print Assumptions is_parent_moves_cursors_only.

(* The unchanged-tree short-cut of backup_tree is taken exactly when the serialised id equals the
   matched parent's subtree id and (guard regenerated from the source) the index still has the tree. *)
Theorem shortcut_iff_equal_id : forall parent id has,
  backup_tree_action parent id has = Shortcut <->
  parent = Matched id /\ (shortcut_requires_has_tree = true -> has = true).
Proof. exact shortcut_lemma. Qed.
Print Assumptions shortcut_iff_equal_id.

(* Every directory tree the new snapshot refers to is handed to the packer or is in the index —
   also when the matched parent's subtree was pruned from the repository.  (Unprovable for the
   source as found: there the short-cut did not test the index; see NOTES.md, finding.) *)
Theorem every_tree_saved_or_indexed : forall parent id has,
  backup_tree_action parent id has <> Save -> has = true.
Proof.
  intros parent i [|] H; [reflexivity|]. exfalso. apply H. unfold backup_tree_action.
  destruct parent as [p| |]; [|reflexivity..].
  (* the guard of the current source: without the tree in the index the short-cut is not taken *)
  unfold shortcut_requires_has_tree. cbn [negb orb]. rewrite andb_false_r. reflexivity.
Qed.
Print Assumptions every_tree_saved_or_indexed.

(* skip_if_unchanged influences only whether the snapshot file is written, never the tree. *)
Theorem skip_if_unchanged_does_not_change_the_tree : forall D chunks tid o st ix parents force skip skip' (cs : list (src D)),
  option_map fst (archive D chunks tid o st ix parents force skip cs) =
  option_map fst (archive D chunks tid o st ix parents force skip' cs).
Proof.
  intros. unfold archive. destruct (parent_new st (if force then [] else parents)) as [P0 tids].
  destruct (arch_list D chunks tid o st ix cs P0) as [[P' nodes]|]; reflexivity.
Qed.
Print Assumptions skip_if_unchanged_does_not_change_the_tree.

(* Observation (not a violation): the inode clause is `!ignore_inode || ...`: without the option the
   inode is not compared at all, with the option a changed inode blocks reuse. *)
Theorem inode_clause_is_inverted_wrt_its_name : forall pi i,
  match_inode_clause false pi i = true /\
  match_inode_clause true pi i = ((pi =? 0) || (i =? 0) || (pi =? i)).
Proof. intros pi i. unfold match_inode_clause. cbn [negb orb]. split; reflexivity. Qed.
Print Assumptions inode_clause_is_inverted_wrt_its_name.

(* From the path stream of the source (ModelIter.v).  `titer` = TreeIterator (archiver/tree.rs) as a
   function from the item list Archiver::archive feeds in to NewTree / EndTree / Other items, with at
   most `fuel` calls of next(); `wsrc` = the walked source as a forest whose directories are explicit
   (the walker yields an item) or implicit (common path prefixes: root components above the backup
   paths, common parents of several backup paths); `stream_of` = its directory walk; `arun` = the
   items one by one through Parent::process, FileArchiver::process, TreeArchiver::add;
   `backup_stream` = titer, arun, finalize. *)

(* TreeIterator flattens: on the walk of a well-formed forest located at an anchor without Normal
   component (nothing, `/`, `.`) it yields exactly NewTree .. EndTree around every directory —
   synthesising the implicit ones once — and Other for everything else, in walk order. *)
Theorem tree_iterator_is_flattening : forall D anchor (ws : list (wsrc D)) fuel,
  nonnormal anchor = true -> allP (wfw D) ws -> NoDup (dir_comps D ws) ->
  (length (flat_map (events_of D) ws) < fuel)%nat ->
  titer D fuel (flat_map (stream_of D anchor) ws) = Some (flat_map (events_of D) ws).
Proof.
  intros D anchor ws fuel Ha HW ND Hf. unfold titer. rewrite (ti_run_anchor D anchor fuel _ Ha).
  - apply run_steps with (s' := (anchor, [])); [|cbn [ti_next]; rewrite (pop_nonnormal anchor Ha); reflexivity|exact Hf].
    rewrite <- (app_nil_r (flat_map (stream_of D anchor) ws)).
    apply flat_list; [exact (allP_all (flat_one D) ws)|exact HW|exact ND|exact I].
  - (* the first item lies below the anchor *)
    destruct ws as [|w ws']; [exact I|]. destruct (stream_head D w (proj1 HW) anchor) as [it [tl [E HP]]].
    cbn [flat_map]. rewrite E. cbn [app].
    destruct w; [exists []; rewrite app_nil_r; exact (proj1 HP)|destruct HP as [more Em]; eauto].
Qed.
Print Assumptions tree_iterator_is_flattening.

(* ... hence its items are well bracketed: no EndTree without an open NewTree, nothing left open. *)
Theorem tree_iterator_well_bracketed : forall D anchor (ws : list (wsrc D)) fuel,
  nonnormal anchor = true -> allP (wfw D) ws -> NoDup (dir_comps D ws) ->
  (length (flat_map (events_of D) ws) < fuel)%nat ->
  exists evs, titer D fuel (flat_map (stream_of D anchor) ws) = Some evs /\ balanced D 0 evs = true.
Proof.
  intros. eexists. split; [apply tree_iterator_is_flattening; assumption|apply forest_balanced].
Qed.
Print Assumptions tree_iterator_well_bracketed.

(* Well bracketed on EVERY item stream whose paths share one anchor (anchor ++ Normal components) —
   sorted or not, repeated entries, any nodes — whenever the iterator is exhausted within the fuel.
   (Neither hypothesis is used: `titer_balanced` holds of every stream; the anchor matters for
   termination only.) *)
Theorem tree_iterator_well_bracketed_on_any_stream : forall D anchor, nonnormal anchor = true ->
  forall (items : list (item D)) fuel evs, anchored D anchor items ->
  titer D fuel items = Some evs -> balanced D 0 evs = true.
Proof.
  intros D anchor _ items fuel evs _. apply titer_balanced.
Qed.
Print Assumptions tree_iterator_well_bracketed_on_any_stream.

(* The common anchor is needed for the iterator to end: after `/1`, an item with the relative path `2`
   makes it yield EndTree for ever (pop() fails, the path stays `/`); each surplus EndTree fails in
   Parent::process and is dropped with a warning (`astep`), so the backup does not end either. *)
Theorem tree_iterator_mixed_anchors_do_not_end :
  titer D_ex 50 [{| i_path := [CRoot; CNormal 1]; i_node := d2; i_open := None |};
                 {| i_path := [CNormal 2]; i_node := d5; i_open := None |}] = None.
Proof. exact (mixed_anchors_never_end 50). Qed.
Print Assumptions tree_iterator_mixed_anchors_do_not_end.

(* The item-by-item pipeline on the bracketed items of a forest does what `arch_list` does by
   structural recursion (whenever that does not panic): same Parent state, same nodes, stack empty. *)
Theorem pipeline_refines_arch : forall D chunks tid o st ix (ws : list (wsrc D)) P0 P' ns,
  arch_list D chunks tid o st ix (map (to_src D) ws) P0 = Some (P', ns) ->
  arun D chunks tid o st ix {| a_parent := P0; a_tree := []; a_stack := [] |} (flat_map (events_of D) ws)
  = Some {| a_parent := P'; a_tree := ns; a_stack := [] |}.
Proof.
  intros D chunks tid o st ix ws P0 P' ns H.
  exact (arun_events D chunks tid o st ix ws {| a_parent := P0; a_tree := []; a_stack := [] |} P' ns H).
Qed.
Print Assumptions pipeline_refines_arch.

(* The property from the path stream: TreeIterator, then every item through Parent::process,
   FileArchiver::process and TreeArchiver::add, then finalize — with parents and forced give the
   tree of the backup that reads every file. *)
Theorem parent_equals_full_from_path_stream : forall D chunks tid o st ix anchor (ws : list (wsrc D)) fuel (parents : list id),
  nonnormal anchor = true -> allP (wfw D) ws -> NoDup (dir_comps D ws) ->
  (length (flat_map (events_of D) ws) < fuel)%nat ->
  allP (wf D) (map (to_src D) ws) ->
  (forall pid T, In pid parents -> st pid = Some T ->
     exists cs0, T = map (read_all D chunks tid) cs0 /\ allP (wf D) cs0 /\ allP (stored D chunks tid st) cs0 /\
                 allP (fun x1 => forall x0, In x0 cs0 -> sname x0 = sname x1 -> visible D chunks o x1 x0) (map (to_src D) ws)) ->
  backup_stream D chunks tid o st ix fuel parents false (flat_map (stream_of D anchor) ws)
    = Some (tid (map (read_all D chunks tid) (map (to_src D) ws))) /\
  backup_stream D chunks tid o st ix fuel parents true (flat_map (stream_of D anchor) ws)
    = Some (tid (map (read_all D chunks tid) (map (to_src D) ws))).
Proof.
  intros D chunks tid o st ix anchor ws fuel parents Ha HW ND Hf W1 HP.
  pose proof (tree_iterator_is_flattening D anchor ws fuel Ha HW ND Hf) as T.
  destruct (parents_arch_list D chunks tid o st ix parents _ false (fun _ => conj W1 HP)) as [P' E].
  destruct (parents_arch_list D chunks tid o st ix parents (map (to_src D) ws) true) as [P'' E']; [discriminate|].
  split; [exact (backup_stream_root D chunks tid o st ix fuel parents false _ ws P' _ T E)
         |exact (backup_stream_root D chunks tid o st ix fuel parents true _ ws P'' _ T E')].
Qed.
Print Assumptions parent_equals_full_from_path_stream.

Theorem path_stream_examples :
  (titer D_ex 20 (flat_map (stream_of D_ex [CRoot]) ws_two_paths)
   = Some [EvNew (synth 1) 1; EvNew d2 2; EvOther f3 (Some [43]); EvEnd;
           EvNew d5 5; EvOther f4 (Some [44]); EvNew (mk 6 TDir 0 10 10 76) 6; EvEnd; EvEnd; EvEnd]) /\
  (allP (wfw D_ex) ws_two_paths /\ NoDup (dir_comps D_ex ws_two_paths)) /\
  (map (to_src D_ex) ws1 = cs1 /\
   backup_stream D_ex chunks_ex tid_ex o_ex st_ex ix_all 20 [root0] false (flat_map (stream_of D_ex [CRoot]) ws1) = Some (tid_ex (map ra cs1)) /\
   backup_stream D_ex chunks_ex tid_ex o_ex st_ex ix_all 20 [root0] true (flat_map (stream_of D_ex [CRoot]) ws1) = Some (tid_ex (map ra cs1))).
Proof. exact (conj two_paths_items (conj two_paths_wellformed stream_backup_equals_full)). Qed.
Print Assumptions path_stream_examples.

(* Parent selection (ModelSelect.v): `select_with pick force ids crit me repo` = get_parent for the
   request forms of the backup command; `pick` = any function returning a snapshot of maximal time
   (k_smallest_by leaves ties open); the executable `select` uses the first one. *)

(* Whatever is selected is a snapshot of the repository; without explicit ids it belongs to the
   group of the new snapshot and no snapshot of that group is newer; with ids it is a requested one.
   (The code has no upper bound on the time: a snapshot newer than the backup's own time can be chosen.) *)
Theorem selected_parent_is_eligible : forall pick, (forall l, latest_ok l (pick l)) ->
  forall force ids c me repo s, In s (select_with pick force ids c me repo) ->
    force = false /\ In s repo /\
    match ids with
    | [] => group_matches c me s = true /\
            forall s', In s' repo -> group_matches c me s' = true -> s_time s' <= s_time s
    | _ => In (s_id s) ids
    end.
Proof.
  intros pick Hp force ids c me repo s H. unfold select_with in H.
  destruct force; [destruct H|]. split; [reflexivity|].
  destruct ids as [|i r].
  - specialize (Hp (filter (group_matches c me) repo)).
    destruct (pick (filter (group_matches c me) repo)) as [m|]; [|destruct H].
    destruct H as [<-|[]]. cbn [latest_ok] in Hp. destruct Hp as [Hin Hmax].
    apply filter_In in Hin. destruct Hin as [Hin Hg]. split; [exact Hin|]. split; [exact Hg|].
    intros s' Hs' Hg'. apply Hmax. apply filter_In. split; assumption.
  - destruct (lookup_all (i :: r) repo) as [l|] eqn:LA; [|destruct H].
    destruct (lookup_all_In _ _ _ LA s H) as [A B]. split; assumption.
Qed.
Print Assumptions selected_parent_is_eligible.

Theorem executable_latest_is_a_latest : forall l, latest_ok l (latest_first l).
Proof.
  induction l as [|s l IH]; cbn [latest_first latest_ok]; [reflexivity|].
  destruct (latest_first l) as [m|]; cbn [latest_ok] in IH.
  - destruct IH as [Hm Hmax]. destruct (s_time s <? s_time m) eqn:E; cbn [latest_ok].
    + apply N.ltb_lt in E. split; [right; exact Hm|].
      intros s' [<-|H]; [exact (N.lt_le_incl _ _ E)|exact (Hmax s' H)].
    + apply N.ltb_ge in E. split; [left; reflexivity|].
      intros s' [<-|H]; [apply N.le_refl|exact (N.le_trans _ _ _ (Hmax s' H) E)].
  - subst l. cbn [latest_ok]. split; [left; reflexivity|]. intros s' [<-|[]]. apply N.le_refl.
Qed.
Print Assumptions executable_latest_is_a_latest.

(* No selection can change the tree: if every snapshot of the repository whose tree loads was
   produced by a correct backup of a state w.r.t. which the source satisfies the premise, then for
   every force / explicit ids / group criterion / tie-break the command yields the tree of the
   backup that reads every file. *)
Theorem selection_never_affects_tree : forall D chunks tid po st ix pick, (forall l, latest_ok l (pick l)) ->
  forall anchor (ws : list (wsrc D)) fuel force ids c me repo,
  nonnormal anchor = true -> allP (wfw D) ws -> NoDup (dir_comps D ws) ->
  (length (flat_map (events_of D) ws) < fuel)%nat ->
  allP (wf D) (map (to_src D) ws) ->
  repo_premise D chunks tid po st repo (map (to_src D) ws) ->
  backup_selected D chunks tid po st ix pick force ids c me repo fuel (flat_map (stream_of D anchor) ws)
  = Some (tid (map (read_all D chunks tid) (map (to_src D) ws))).
Proof.
  intros D chunks tid po st ix pick Hp anchor ws fuel force ids c me repo Ha HW ND Hf W1 HR.
  unfold backup_selected. rewrite options_reach_parent_under_their_names.
  apply (parent_equals_full_from_path_stream D chunks tid po st ix anchor ws fuel); try assumption.
  intros pid T Hpid HT. apply in_map_iff in Hpid. destruct Hpid as [s [<- Hs]].
  destruct (selected_parent_is_eligible pick Hp _ _ _ _ _ _ Hs) as [_ [Hin _]].
  exact (HR s T Hin HT).
Qed.
Print Assumptions selection_never_affects_tree.

(* What a backup writes: directory entries carry a subtree, regular files a content list.  Parent
   entries violating this (matched directory without subtree: `unwrap` panics; file with
   `content: null`: handed on without content) therefore never stem from a backup by the library. *)
Theorem library_trees_have_subtrees_and_contents : forall D chunks tid (e : src D), wf D e ->
  (n_type (read_all D chunks tid e) = TDir -> n_subtree (read_all D chunks tid e) <> None) /\
  (n_type (read_all D chunks tid e) = TFile -> n_content (read_all D chunks tid e) <> None).
Proof.
  intros D chunks tid [nd d|nd cs] [Hty _]; cbn [read_all].
  - rewrite leaf_read_type. split; [contradiction|].
    intros H. unfold leaf_read. rewrite H. cbn [set_content n_content]. discriminate.
  - cbn [set_subtree n_subtree n_type]. split; [discriminate|]. rewrite Hty. discriminate.
Qed.
Print Assumptions library_trees_have_subtrees_and_contents.

