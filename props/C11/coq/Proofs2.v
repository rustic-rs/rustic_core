(* C11 — entering and leaving a directory (set_dir, finish_dir): the trees installed for a directory
   are loadable subtrees of parent nodes of its name; leaving it restores the trees that were there. *)
From Verif.Base Require Import Tactics.
From Verif.C11 Require Import Extracted Model Proofs.
Local Open Scope N_scope.

Lemma In_insert_sorted : forall x y l, In y (insert_sorted x l) -> y = x \/ In y l.
Proof.
  induction l as [|a l IH]; cbn [insert_sorted]; intros H.
  - destruct H as [H|[]]; left; symmetry; exact H.
  - destruct (x <=? a).
    + destruct H as [H|H]; [left; symmetry; exact H|right; exact H].
    + destruct H as [H|H]; [right; left; exact H|].
      destruct (IH H) as [E|Hi]; [left; exact E|right; right; exact Hi].
Qed.

Lemma In_sort_ids : forall y l, In y (sort_ids l) -> In y l.
Proof.
  induction l as [|a l IH]; cbn [sort_ids fold_right]; intros H; [exact H|].
  apply In_insert_sorted in H. destruct H as [E|H]; [left; symmetry; exact E|right; apply IH; exact H].
Qed.

Lemma In_dedup : forall y l, In y (dedup l) -> In y l.
Proof.
  induction l as [|a l IH]; cbn [dedup]; intros H; [exact H|].
  destruct l as [|b l'].
  - exact H.
  - destruct (a =? b).
    + right. apply IH. exact H.
    + destruct H as [E|H]; [left; exact E|right; apply IH; exact H].
Qed.

Lemma In_load_trees : forall st ids t, In t (load_trees st ids) ->
  exists i, In i ids /\ st i = Some (fst t) /\ snd t = 0%nat.
Proof.
  intros st ids t H. unfold load_trees in H. apply in_flat_map in H. destruct H as [i [Hi Ht]].
  exists i. destruct (st i) as [T|] eqn:S; [|destruct Ht].
  destruct Ht as [E|[]]. subst t. split; [exact Hi|split; reflexivity].
Qed.

Lemma load_trees_nil : forall st, load_trees st [] = [].
Proof. reflexivity. Qed.

(* the invariant of everything the archiver does between a NewTree and its EndTree: tree lists and
   stack unchanged, only cursors moved *)
Definition same_trees (P P' : pstate) : Prop :=
  map fst (trees P') = map fst (trees P) /\ stack P' = stack P.

Lemma same_trees_trans : forall P1 P2 P3, same_trees P1 P2 -> same_trees P2 P3 -> same_trees P1 P3.
Proof. intros P1 P2 P3 [A B] [C E]. split; [rewrite C; exact A|rewrite E; exact B]. Qed.

Lemma set_dir_trees : forall st P name t, In t (trees (set_dir st P name)) ->
  exists t0 pn i, In t0 (trees P) /\ In pn (fst t0) /\ n_name pn = name /\
                  n_subtree pn = Some i /\ st i = Some (fst t).
Proof.
  intros st P name t H. unfold set_dir in H. cbn [trees] in H.
  apply In_load_trees in H. destruct H as [i [Hi [Hs _]]].
  apply In_dedup, In_sort_ids in Hi. apply in_flat_map in Hi. destruct Hi as [a [Ha Hi]].
  apply in_map_iff in Ha. destruct Ha as [t0 [Ea Ht0]].
  destruct a as [t1 x]. cbn [snd] in Hi. destruct x as [pn|]; [|destruct Hi].
  destruct (n_subtree pn) as [j|] eqn:Sj; [|destruct Hi]. destruct Hi as [->|[]].
  destruct (p_node_one_sound t0 name pn) as [Hp Hn]; [rewrite Ea; reflexivity|].
  exists t0, pn, i. repeat split; assumption.
Qed.

Lemma finish_set_dir : forall st P name P2, same_trees (set_dir st P name) P2 ->
  exists P3, finish_dir P2 = Some P3 /\ same_trees P P3.
Proof.
  intros st P name P2 [_ S]. unfold finish_dir. rewrite S. cbn [set_dir stack].
  eexists; split; [reflexivity|]. split; [|reflexivity]. cbn [trees].
  rewrite !map_map. apply map_ext. intros t. apply p_node_one_tree.
Qed.
