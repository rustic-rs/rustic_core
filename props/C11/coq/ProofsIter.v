(* C11 — TreeIterator flattens the walk of a well-formed forest into its bracketed items. *)
From Verif.Base Require Import Tactics.
From Verif.C11 Require Import Extracted Model Spec ModelIter.
Local Open Scope N_scope.

Lemma comp_eqb_refl : forall c, comp_eqb c c = true.
Proof. destruct c; cbn [comp_eqb]; try reflexivity. apply N.eqb_refl. Qed.

Lemma comp_eqb_eq : forall a b, comp_eqb a b = true -> a = b.
Proof.
  destruct a, b; cbn [comp_eqb]; intros H; try discriminate; try reflexivity.
  apply N.eqb_eq in H. subst. reflexivity.
Qed.

Lemma path_eqb_refl : forall p, path_eqb p p = true.
Proof. induction p as [|c p IH]; cbn [path_eqb]; [reflexivity|]. rewrite comp_eqb_refl, IH. reflexivity. Qed.

Lemma path_eqb_eq : forall p q, path_eqb p q = true -> p = q.
Proof.
  induction p as [|a p IH]; destruct q as [|b q]; cbn [path_eqb]; intros H; try discriminate; [reflexivity|].
  apply andb_true_iff in H. destruct H as [H1 H2]. apply comp_eqb_eq in H1. apply IH in H2. subst. reflexivity.
Qed.

Lemma path_eqb_app_head : forall p a b, path_eqb (p ++ a) (p ++ b) = path_eqb a b.
Proof. induction p as [|c p IH]; intros a b; cbn [app path_eqb]; [reflexivity|]. rewrite comp_eqb_refl. apply IH. Qed.

Lemma strip_prefix_app : forall p m, strip_prefix (p ++ m) p = Some m.
Proof. induction p as [|c p IH]; intros m; cbn [strip_prefix app]; [reflexivity|]. rewrite comp_eqb_refl. apply IH. Qed.

Lemma strip_prefix_refl : forall p, strip_prefix p p = Some [].
Proof. intros p. pose proof (strip_prefix_app p []) as H. rewrite app_nil_r in H. exact H. Qed.

Lemma strip_prefix_Some : forall q x m, strip_prefix x q = Some m -> x = q ++ m.
Proof.
  induction q as [|c q IH]; intros x m H; cbn [strip_prefix] in H.
  - injection H as <-. reflexivity.
  - destruct x as [|d x]; [discriminate|]. destruct (comp_eqb c d) eqn:E; [|discriminate].
    apply comp_eqb_eq in E. subst d. apply IH in H. subst x. reflexivity.
Qed.

Lemma pop_snoc : forall p c, pop (p ++ [CNormal c]) = Some p.
Proof. intros p c. unfold pop. rewrite rev_app_distr. cbn [rev app pop_rev]. rewrite rev_involutive. reflexivity. Qed.

Definition nonnormal (s : list comp) : bool := forallb (fun c => negb (is_normal c)) s.

Lemma pop_rev_nonnormal : forall r, nonnormal r = true -> pop_rev r = None.
Proof.
  induction r as [|c r IH]; intros H; [reflexivity|]. cbn [nonnormal forallb] in H.
  apply andb_true_iff in H. destruct H as [H1 H2]. destruct c; cbn [pop_rev]; try (apply IH; exact H2). discriminate.
Qed.

Lemma nonnormal_rev : forall s, nonnormal s = true -> nonnormal (rev s) = true.
Proof.
  intros s H. unfold nonnormal in *. rewrite forallb_forall in *. intros x Hx. apply H. apply in_rev. exact Hx.
Qed.

Lemma pop_nonnormal : forall s, nonnormal s = true -> pop s = None.
Proof. intros s H. unfold pop. rewrite pop_rev_nonnormal; [reflexivity|]. apply nonnormal_rev. exact H. Qed.

Lemma walk_silent : forall s cur m full nd, nonnormal s = true ->
  walk_missing cur (s ++ m) full nd = walk_missing (cur ++ s) m full nd.
Proof.
  induction s as [|c s IH]; intros cur m full nd H.
  - rewrite app_nil_r. reflexivity.
  - cbn [nonnormal forallb] in H. apply andb_true_iff in H. destruct H as [H1 H2].
    cbn [app walk_missing]. destruct c; try discriminate;
      (rewrite IH by exact H2; rewrite <- app_assoc; reflexivity).
Qed.

Section Flatten.
  Variable D : Type.
  Notation item := (item D).
  Notation wsrc := (wsrc D).
  Notation ev := (ev D).
  Notation stream_of := (stream_of D).
  Notation events_of := (events_of D).
  Notation ti_next := (ti_next D).
  Notation ti_run := (ti_run D).

  Definition not_under (p : path) (rest : list item) : Prop :=
    match rest with [] => True | it :: _ => strip_prefix (i_path D it) p = None end.

  Lemma not_under_weaken : forall p q rest, not_under p rest -> not_under (p ++ q) rest.
  Proof.
    intros p q [|it rest] H; [exact I|]. cbn [not_under] in *.
    destruct (strip_prefix (i_path D it) (p ++ q)) as [m|] eqn:E; [|reflexivity].
    apply strip_prefix_Some in E. rewrite <- app_assoc in E. rewrite E, strip_prefix_app in H. discriminate.
  Qed.

  Lemma ti_next_other : forall cur it rest, i_path D it = cur ->
    ti_next (cur, it :: rest) = Some (EvOther (i_node D it) (i_open D it), (cur, rest)).
  Proof.
    intros cur it rest E. cbn [ModelIter.ti_next]. rewrite E, strip_prefix_refl. reflexivity.
  Qed.

  (* `node.is_dir() && path == self.path` holds only of an item lying exactly at the pushed directory *)
  Lemma ti_next_new : forall cur c more it rest, i_path D it = cur ++ CNormal c :: more ->
    ti_next (cur, it :: rest) =
    Some (if node_is_dir (i_node D it) && match more with [] => true | _ :: _ => false end
          then (EvNew (i_node D it) (n_name (i_node D it)), (cur ++ [CNormal c], rest))
          else (EvNew (synth c) c, (cur ++ [CNormal c], it :: rest))).
  Proof.
    intros cur c more [pth nd od] rest E. cbn [i_path i_node i_open] in *. subst pth.
    cbn [ModelIter.ti_next i_path i_node i_open]. rewrite strip_prefix_app. cbn [walk_missing].
    rewrite path_eqb_app_head. cbn [path_eqb comp_eqb]. rewrite N.eqb_refl.
    destruct more; cbn [path_eqb andb]; [destruct (node_is_dir nd)|rewrite andb_false_r]; reflexivity.
  Qed.

  Lemma ti_next_end : forall p c rest, not_under (p ++ [CNormal c]) rest ->
    ti_next (p ++ [CNormal c], rest) = Some (EvEnd, (p, rest)).
  Proof.
    intros p c [|it rest] H; cbn [ModelIter.ti_next]; [|cbn [not_under] in H; rewrite H];
      rewrite pop_snoc; reflexivity.
  Qed.

  (* a step does not depend on silent components the path still lacks: `next` pushes them first *)
  Lemma ti_next_silent : forall cur s more it rest, nonnormal s = true -> i_path D it = cur ++ s ++ more ->
    ti_next (cur, it :: rest) = ti_next (cur ++ s, it :: rest).
  Proof.
    intros cur s more [pth nd od] rest Hs E. cbn [i_path] in E. subst pth.
    cbn [ModelIter.ti_next i_path i_node]. rewrite strip_prefix_app, walk_silent by exact Hs.
    rewrite (app_assoc cur s more), strip_prefix_app. reflexivity.
  Qed.

  (* from the empty path the first call pushes the anchor; nothing else distinguishes the two starts *)
  Lemma ti_run_anchor : forall anchor fuel items, nonnormal anchor = true ->
    match items with [] => True | it :: _ => exists more, i_path D it = anchor ++ more end ->
    ti_run fuel ([], items) = ti_run fuel (anchor, items).
  Proof.
    intros anchor [|f] items Ha H; [reflexivity|]. cbn [ModelIter.ti_run].
    replace (ti_next ([], items)) with (ti_next (anchor, items)); [reflexivity|].
    destruct items as [|it rest].
    - cbn [ModelIter.ti_next]. rewrite (pop_nonnormal anchor Ha). reflexivity.
    - destruct H as [more E]. symmetry. exact (ti_next_silent [] anchor more it rest Ha E).
  Qed.

  Inductive steps : tstate D -> list ev -> tstate D -> Prop :=
  | steps_nil : forall s, steps s [] s
  | steps_cons : forall s e s' evs s'', ti_next s = Some (e, s') -> steps s' evs s'' -> steps s (e :: evs) s''.

  Lemma steps_app : forall s1 e1 s2 e2 s3, steps s1 e1 s2 -> steps s2 e2 s3 -> steps s1 (e1 ++ e2) s3.
  Proof. induction 1; intros H2; cbn [app]; [exact H2|]. econstructor; [eassumption|]. apply IHsteps. exact H2. Qed.

  Lemma steps_one : forall s e s', ti_next s = Some (e, s') -> steps s [e] s'.
  Proof. intros. econstructor; [eassumption|constructor]. Qed.

  Lemma run_steps : forall s evs s', steps s evs s' -> ti_next s' = None ->
    forall fuel, (length evs < fuel)%nat -> ti_run fuel s = Some evs.
  Proof.
    induction 1 as [s|s e s' evs s'' N _ IH]; intros End [|f] Hf;
      try (exfalso; exact (Nat.nlt_0_r _ Hf)); cbn [ModelIter.ti_run].
    - rewrite End. reflexivity.
    - rewrite N, (IH End f (proj2 (Nat.succ_lt_mono _ _) Hf)). reflexivity.
  Qed.

  Lemma steps_none : forall s evs s', steps s evs s' -> (forall fuel, ti_run fuel s' = None) ->
    forall fuel, ti_run fuel s = None.
  Proof.
    induction 1 as [s|s e s' evs s'' N _ IH]; intros H [|f]; [apply H..|reflexivity|].
    cbn [ModelIter.ti_run]. rewrite N, (IH H f). reflexivity.
  Qed.

  (* well-formed source trees: what a directory walk yields *)
  Fixpoint wfw (w : wsrc) : Prop :=
    match w with
    | WLeaf nd _ => node_is_dir nd = false
    | WDir ex c nd cs =>
      (if ex then node_is_dir nd = true else nd = synth c /\ cs <> []) /\
      NoDup (dir_comps D cs) /\ allP wfw cs
    end.

  Section WInd.
    Variable P : wsrc -> Prop.
    Hypothesis Hl : forall nd d, P (WLeaf nd d).
    Hypothesis Hd : forall ex c nd cs, allP P cs -> P (WDir ex c nd cs).
    Fixpoint wsrc_ind2 (w : wsrc) : P w :=
      match w with
      | WLeaf nd d => Hl nd d
      | WDir ex c nd cs =>
        Hd ex c nd cs ((fix go (cs : list wsrc) : allP P cs :=
                          match cs with [] => I | x :: r => conj (wsrc_ind2 x) (go r) end) cs)
      end.
  End WInd.

  Lemma stream_head : forall w, wfw w -> forall pre, exists it tl, stream_of pre w = it :: tl /\
    match w with
    | WLeaf _ _ => i_path D it = pre /\ node_is_dir (i_node D it) = false
    | WDir _ c _ _ => exists more, i_path D it = pre ++ CNormal c :: more
    end.
  Proof.
    induction w as [nd d|ex c nd cs IH] using wsrc_ind2; intros W pre; cbn [ModelIter.stream_of].
    - eexists _, _. split; [reflexivity|]. split; [reflexivity|exact W].
    - destruct ex.
      + eexists _, _. split; [reflexivity|]. exists []. reflexivity.
      + destruct W as [[_ Hne] [_ Wc]]. destruct cs as [|x cs']; [contradiction|].
        destruct (proj1 IH (proj1 Wc) (pre ++ [CNormal c])) as [it [tl [E Hs]]].
        cbn [flat_map app]. rewrite E. eexists _, _. split; [reflexivity|].
        destruct x as [? ?|? c' ? ?].
        * exists []. exact (proj1 Hs).
        * destruct Hs as [more Hm]. exists (CNormal c' :: more). rewrite Hm, <- app_assoc. reflexivity.
  Qed.

  Lemma dir_comps_cons : forall w cs, dir_comps D (w :: cs) = dir_comps D [w] ++ dir_comps D cs.
  Proof. intros w cs. unfold dir_comps. cbn [flat_map]. rewrite app_nil_r. reflexivity. Qed.

  (* the siblings that follow a directory do not continue it: their component differs *)
  Lemma not_under_siblings : forall cs pre c rest, allP wfw cs -> ~ In c (dir_comps D cs) ->
    not_under (pre ++ [CNormal c]) rest -> not_under (pre ++ [CNormal c]) (flat_map (stream_of pre) cs ++ rest).
  Proof.
    intros [|w cs] pre c rest HW Hc HR; [exact HR|]. destruct HW as [Ww _]. cbn [flat_map].
    destruct (stream_head w Ww pre) as [it [tl [-> HP]]]. cbn [app not_under]. destruct (strip_prefix (i_path D it) (pre ++ [CNormal c])) as [m|] eqn:SP; [exfalso|reflexivity].
    apply strip_prefix_Some in SP. rewrite <- app_assoc in SP. destruct w as [? ?|? c' ? ?].
    - rewrite (proj1 HP), <- (app_nil_r pre) in SP at 1. apply app_inv_head in SP. discriminate.
    - destruct HP as [more E]. rewrite E in SP. apply app_inv_head in SP. injection SP as -> _. apply Hc. left. reflexivity.
  Qed.

  (* statement for one tree: the iterator, standing at the tree's directory, yields exactly the tree's
     bracketed items and stands there again, provided what follows does not continue the tree *)
  Definition flat_stmt (w : wsrc) : Prop :=
    wfw w -> forall pre rest,
    match w with WDir _ c _ _ => not_under (pre ++ [CNormal c]) rest | WLeaf _ _ => True end ->
    steps (pre, stream_of pre w ++ rest) (events_of w) (pre, rest).

  Lemma flat_list : forall cs, allP flat_stmt cs -> allP wfw cs -> NoDup (dir_comps D cs) ->
    forall pre rest, not_under pre rest ->
    steps (pre, flat_map (stream_of pre) cs ++ rest) (flat_map events_of cs) (pre, rest).
  Proof.
    induction cs as [|w cs IH]; intros HA HW ND pre rest HR; [constructor|].
    destruct HA as [Hw HA]. destruct HW as [Ww HW]. cbn [flat_map]. rewrite <- app_assoc.
    rewrite dir_comps_cons in ND.
    apply steps_app with (s2 := (pre, flat_map (stream_of pre) cs ++ rest)).
    - apply (Hw Ww). destruct w as [? ?|? c ? ?]; [exact I|].
      apply not_under_siblings; [exact HW|exact (proj1 (proj1 (NoDup_cons_iff _ _) ND))|apply not_under_weaken, HR].
    - apply IH; [exact HA|exact HW| |exact HR].
      destruct w; [exact ND|exact (proj2 (proj1 (NoDup_cons_iff _ _) ND))].
  Qed.

  Lemma flat_one : forall w, flat_stmt w.
  Proof.
    induction w as [nd d|ex c nd cs IH] using wsrc_ind2; intros W pre rest T.
    - apply steps_one, ti_next_other. reflexivity.
    - destruct W as [Wex [ND Wc]].
      set (p := pre ++ [CNormal c]) in *. cbn [ModelIter.stream_of ModelIter.events_of]. fold p.
      (* NewTree, the children, EndTree *)
      apply (steps_app _ [EvNew nd (n_name nd)] (p, flat_map (stream_of p) cs ++ rest));
        [|apply steps_app with (s2 := (p, rest))].
      + apply steps_one. destruct ex.
        * cbn [app]. rewrite (ti_next_new pre c []) by reflexivity. cbn [i_node]. rewrite Wex. reflexivity.
        * (* implicit directory: synthesised when its first descendant arrives, which lies at p and is
             no directory, or below p *)
          destruct Wex as [-> Hne]. destruct cs as [|x cs']; [contradiction|].
          destruct (stream_head x (proj1 Wc) p) as [it [tl [E HP]]].
          cbn [app flat_map synth n_name]. rewrite E. cbn [app]. destruct x as [? ?|? c' ? ?].
          -- rewrite (ti_next_new pre c [] it) by exact (proj1 HP). rewrite (proj2 HP). reflexivity.
          -- destruct HP as [more Ep].
             rewrite (ti_next_new pre c (CNormal c' :: more) it) by (rewrite Ep; unfold p; rewrite <- app_assoc; reflexivity).
             rewrite andb_false_r. reflexivity.
      + apply flat_list; assumption.
      + apply steps_one, ti_next_end. exact T.
  Qed.

  Lemma balanced_app : forall (a b : list ev) d d', (forall r, balanced D d (a ++ r) = balanced D d' r) ->
    forall r, balanced D d (a ++ b ++ r) = balanced D d' (b ++ r).
  Proof. intros a b d d' H r. apply H. Qed.

  Lemma forest_balanced_app : forall ws,
    allP (fun w => forall d r, balanced D d (events_of w ++ r) = balanced D d r) ws ->
    forall d r, balanced D d (flat_map events_of ws ++ r) = balanced D d r.
  Proof.
    induction ws as [|w ws IH]; intros HA d r; [reflexivity|].
    cbn [flat_map]. rewrite <- app_assoc, (proj1 HA). exact (IH (proj2 HA) d r).
  Qed.

  Lemma events_balanced : forall w d r, balanced D d (events_of w ++ r) = balanced D d r.
  Proof.
    induction w as [nd x|ex c nd cs IH] using wsrc_ind2; intros d r; [reflexivity|].
    cbn [ModelIter.events_of app balanced]. rewrite <- app_assoc, (forest_balanced_app cs IH). reflexivity.
  Qed.

  Lemma forest_balanced : forall ws, balanced D 0 (flat_map events_of ws) = true.
  Proof.
    intros ws. rewrite <- (app_nil_r (flat_map events_of ws)), forest_balanced_app; [reflexivity|].
    exact (allP_all events_balanced ws).
  Qed.
End Flatten.
