(* C11 — searching the parent trees (p_node, is_parent): cursors only move, trees never change,
   whatever is found is a node of a parent tree with the queried name, a match satisfies the closure. *)
From Verif.Base Require Import Tactics.
From Verif.C11 Require Import Extracted Model.
Local Open Scope N_scope.

Lemma scan_sound : forall l name pn, snd (scan l name) = Some pn -> In pn l /\ n_name pn = name.
Proof.
  induction l as [|a l IH]; intros name pn; cbn [scan]; [discriminate|].
  destruct (N.compare (n_name a) name) eqn:C; [|specialize (IH name pn); destruct (scan l name)|discriminate].
  - intros H. injection H as <-. split; [left; reflexivity|exact (N.compare_eq _ _ C)].
  - intros H. destruct (IH H) as [Hi Hn]. split; [right; exact Hi|exact Hn].
Qed.

Lemma p_node_one_tree : forall t name, fst (fst (p_node_one t name)) = fst t.
Proof.
  intros [T i] name. unfold p_node_one. cbn [fst snd].
  destruct (scan (skipn i T) name) as [k x]. reflexivity.
Qed.

Lemma p_node_one_sound : forall t name pn, snd (p_node_one t name) = Some pn ->
  In pn (fst t) /\ n_name pn = name.
Proof.
  intros [T i] name pn. unfold p_node_one. cbn [fst snd].
  pose proof (scan_sound (skipn i T) name pn) as S. destruct (scan (skipn i T) name) as [k x].
  intros H. destruct (S H) as [Hi Hn]. split; [|exact Hn].
  rewrite <- (firstn_skipn i T). apply in_or_app. right. exact Hi.
Qed.

Lemma is_parent_go_spec : forall o ts nd name f,
  map fst (fst (is_parent_go o ts nd name f)) = map fst ts /\
  forall pn, snd (is_parent_go o ts nd name f) = Matched pn ->
    (exists t, In t ts /\ In pn (fst t)) /\ n_name pn = name /\ meta_match o pn nd = true.
Proof.
  induction ts as [|t ts IH]; intros nd name f; cbn [is_parent_go].
  - split; [reflexivity|]. intros pn E. destruct f; discriminate.
  - destruct (p_node_one t name) as [t1 x] eqn:P.
    assert (Ht : fst t1 = fst t) by (rewrite <- (p_node_one_tree t name), P; reflexivity).
    (* no match in this tree: the answer is the one of the remaining trees *)
    assert (Rec : forall f',
      map fst (t1 :: fst (is_parent_go o ts nd name f')) = map fst (t :: ts) /\
      forall pn, snd (is_parent_go o ts nd name f') = Matched pn ->
        (exists t0, In t0 (t :: ts) /\ In pn (fst t0)) /\ n_name pn = name /\ meta_match o pn nd = true).
    { intros f'. destruct (IH nd name f') as [Et Hm]. split; [cbn [map]; rewrite Ht, Et; reflexivity|].
      intros pn E. destruct (Hm pn E) as [[t0 [Ht0 Hp]] Hr].
      split; [exists t0; split; [right; exact Ht0|exact Hp]|exact Hr]. }
    destruct x as [q|]; [destruct (meta_match o q nd) eqn:M|].
    + cbn [fst snd]. split; [cbn [map]; rewrite Ht; reflexivity|]. intros pn E. injection E as <-.
      destruct (p_node_one_sound t name q) as [Hi Hn]; [rewrite P; reflexivity|].
      split; [exists t; split; [left; reflexivity|exact Hi]|split; [exact Hn|exact M]].
    + specialize (Rec true). destruct (is_parent_go o ts nd name true). exact Rec.
    + specialize (Rec f). destruct (is_parent_go o ts nd name f). exact Rec.
Qed.

Lemma is_parent_trees : forall o ts nd name ts' r, is_parent o ts nd name = (ts', r) -> map fst ts' = map fst ts.
Proof.
  intros o ts nd name ts' r H. pose proof (proj1 (is_parent_go_spec o ts nd name false)) as S.
  fold (is_parent o ts nd name) in S. rewrite H in S. exact S.
Qed.

Lemma is_parent_matched : forall o ts nd name ts' pn, is_parent o ts nd name = (ts', Matched pn) ->
  (exists t, In t ts /\ In pn (fst t)) /\ n_name pn = name /\ meta_match o pn nd = true.
Proof.
  intros o ts nd name ts' pn H. apply (proj2 (is_parent_go_spec o ts nd name false)).
  fold (is_parent o ts nd name). rewrite H. reflexivity.
Qed.

(* the four comparisons the property names: the closure without its inode clause *)
Definition core_match (o : popts) (p n : node) : bool :=
  ntype_eqb (n_type p) (n_type n) && (m_size (n_meta p) =? m_size (n_meta n))
  && optN_eqb (m_mtime (n_meta p)) (m_mtime (n_meta n))
  && (ignore_ctime o || match m_ctime (n_meta p), m_ctime (n_meta n) with Some x, Some y => x =? y | _, _ => true end).

Lemma meta_match_core : forall o p n, meta_match o p n = true -> core_match o p n = true.
Proof.
  intros o p n H. unfold meta_match, is_parent_conj, match_ctime_clause in H. unfold core_match.
  repeat (apply andb_true_iff in H; destruct H as [H ?]).
  repeat (apply andb_true_iff; split); assumption.
Qed.

Lemma meta_match_ext : forall o p p' n, n_type p' = n_type p -> n_meta p' = n_meta p ->
  meta_match o p' n = meta_match o p n.
Proof. intros o p p' n Ht Hm. unfold meta_match. rewrite Ht, Hm. reflexivity. Qed.

Lemma ntype_eqb_eq : forall a b, ntype_eqb a b = true -> a = b.
Proof.
  intros a b H; destruct a, b; cbn [ntype_eqb] in H; try discriminate; try reflexivity;
  apply N.eqb_eq in H; subst; reflexivity.
Qed.

Lemma meta_match_type : forall o p n, meta_match o p n = true -> n_type p = n_type n.
Proof.
  intros o p n H. apply meta_match_core in H. unfold core_match in H.
  repeat (apply andb_true_iff in H; destruct H as [H ?]). apply ntype_eqb_eq. exact H.
Qed.
