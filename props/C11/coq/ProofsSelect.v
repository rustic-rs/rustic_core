(* C11 — parent selection: what a tie-break among the latest snapshots must satisfy (`latest_ok`),
   explicit ids name snapshots of the repository, and the property's premise over a whole repository. *)
From Verif.Base Require Import Tactics.
From Verif.C11 Require Import Extracted Model Spec ModelSelect.
Local Open Scope N_scope.

Definition latest_ok (l : list snap) (r : option snap) : Prop :=
  match r with
  | None => l = []
  | Some s => In s l /\ forall s', In s' l -> s_time s' <= s_time s
  end.

Lemma lookup_In : forall i repo s, lookup i repo = Some s -> In s repo /\ s_id s = i.
Proof.
  induction repo as [|x r IH]; intros s H; cbn [lookup] in H; [discriminate|].
  destruct (s_id x =? i) eqn:E.
  - injection H as <-. split; [left; reflexivity|exact (proj1 (N.eqb_eq _ _) E)].
  - destruct (IH s H) as [A B]. split; [right; exact A|exact B].
Qed.

Lemma lookup_all_In : forall ids repo l, lookup_all ids repo = Some l ->
  forall s, In s l -> In s repo /\ In (s_id s) ids.
Proof.
  induction ids as [|i r IH]; intros repo l H s Hs; cbn [lookup_all] in H.
  - injection H as <-. destruct Hs.
  - destruct (lookup i repo) as [x|] eqn:L; [|discriminate].
    destruct (lookup_all r repo) as [l'|] eqn:LA; [|discriminate]. injection H as <-.
    destruct Hs as [<-|Hs].
    + destruct (lookup_In _ _ _ L) as [A B]. split; [exact A|left; symmetry; exact B].
    + destruct (IH repo l' LA s Hs) as [A B]. split; [exact A|right; exact B].
Qed.

Section RepoPremise.
  Variable D : Type.
  Variable chunks : D -> list id.
  Variable tid : list node -> id.
  Variable po : popts.
  Variable st : store.

  (* every snapshot of the repository whose tree loads was produced by a correct backup of a state
     w.r.t. which the current source satisfies the property's premise *)
  Definition repo_premise (repo : list snap) (cs1 : list (src D)) : Prop :=
    forall s T, In s repo -> st (s_tree s) = Some T ->
      exists cs0, T = map (read_all D chunks tid) cs0 /\ allP (wf D) cs0 /\
                  allP (stored D chunks tid st) cs0 /\
                  allP (fun x1 => forall x0, In x0 cs0 -> sname x0 = sname x1 -> visible D chunks po x1 x0) cs1.
End RepoPremise.
