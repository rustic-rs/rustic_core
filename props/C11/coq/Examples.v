(* C11 — concrete instances: the hypotheses of parent_equals_full are satisfiable and reuse really
   happens; an edit outside the premise does change the result; a missed cursor only causes a
   re-read; the inode clause as written; path streams of several backup paths; parent selection. *)
From Verif.Base Require Import Tactics.
From Verif.C11 Require Import Extracted Model Spec ModelIter ProofsIter ProofsBracket ModelSelect.
Local Open Scope N_scope.

Definition D_ex := list id.                       (* a file's data, represented by its chunk ids *)
Definition chunks_ex (d : D_ex) : list id := d.
Fixpoint sumN (l : list N) : N := match l with [] => 0 | x :: r => x + 3 * sumN r end.
Definition node_code (n : node) : N :=
  n_name n + 5 * m_size (n_meta n) + 7 * match m_mtime (n_meta n) with Some t => t | None => 0 end
  + 11 * sumN (content_ids n) + 13 * match n_subtree n with Some i => i | None => 0 end.
Definition tid_ex (l : list node) : id := 1000 + sumN (map node_code l).

Definition mk (name : N) (ty : ntype) (size mtime ctime inode : N) : node :=
  {| n_name := name; n_type := ty;
     n_meta := {| m_size := size; m_mtime := Some mtime; m_ctime := Some ctime; m_inode := inode; m_other := 420 |};
     n_content := None; n_subtree := None |}.

(* state 0: file 1, directory 2 containing file 3 *)
Definition f1 := mk 1 TFile 5 10 10 71.
Definition d2 := mk 2 TDir 0 10 10 72.
Definition f3 := mk 3 TFile 9 10 10 73.
Definition cs0 : list (src D_ex) := [SLeaf f1 [41; 42]; SDir d2 [SLeaf f3 [43]]].
(* state 1: file 1 rewritten (new mtime, other bytes), file 3 untouched, file 4 added *)
Definition f1' := mk 1 TFile 5 11 11 71.
Definition f4 := mk 4 TFile 2 12 12 74.
Definition cs1 : list (src D_ex) := [SLeaf f1' [51]; SDir d2 [SLeaf f3 [43]]; SLeaf f4 [44]].
(* state 1 bis: file 1 rewritten with the same size, mtime and ctime: OUTSIDE the premise *)
Definition cs1_stealth : list (src D_ex) := [SLeaf f1 [51]; SDir d2 [SLeaf f3 [43]]].

Definition o_ex := {| ignore_ctime := false; ignore_inode := false |}.
Definition ra := read_all D_ex chunks_ex tid_ex.
Definition root0 := tid_ex (map ra cs0).
Definition sub0 := tid_ex (map ra [SLeaf f3 [43]]).
(* the repository after the backup of state 0 *)
Definition st_ex : store := fun i =>
  if i =? root0 then Some (map ra cs0) else if i =? sub0 then Some (map ra [SLeaf f3 [43]]) else None.
Definition ix_all : index := fun _ => true.
Definition ix_without_43 : index := fun c => negb (c =? 43).

(* the hypotheses of parent_equals_full hold for (cs0, cs1) *)
Example hypotheses_satisfiable :
  allP (wf D_ex) cs1 /\
  (forall pid T, In pid [root0] -> st_ex pid = Some T ->
     exists c0, T = map ra c0 /\ allP (wf D_ex) c0 /\ allP (stored D_ex chunks_ex tid_ex st_ex) c0 /\
                allP (fun x1 => forall x0, In x0 c0 -> sname x0 = sname x1 -> visible D_ex chunks_ex o_ex x1 x0) cs1).
Proof.
  assert (E0 : st_ex root0 = Some (map ra cs0)) by (vm_compute; reflexivity).
  assert (E2 : st_ex sub0 = Some (map ra [SLeaf f3 [43]])) by (vm_compute; reflexivity).
  split; [cbn [allP wf cs1]; repeat split; discriminate|].
  intros pid T [<-|[]] HT. rewrite E0 in HT. injection HT as <-. exists cs0.
  split; [reflexivity|]. split; [cbn [allP wf cs0]; repeat split; discriminate|]. split.
  - cbn [allP stored cs0]. repeat split. intros T HT. change (st_ex sub0 = Some T) in HT.
    rewrite E2 in HT. injection HT as <-. reflexivity.
  - (* entries of equal name: file 1 (mtime differs), directory 2 (file 3 unchanged); file 4 is new *)
    cbn [allP cs1]. repeat split; intros x0 [<-|[<-|[]]] Hn; try discriminate Hn; cbn [visible allP].
    + intros Hc. vm_compute in Hc. discriminate Hc.
    + repeat split. intros x0 [<-|[]] _ _. reflexivity.
Qed.

(* with the parent: file 3 is reused, files 1 and 4 are read; the tree is the one of the full backup *)
Example reuse_happens :
  archive D_ex chunks_ex tid_ex o_ex st_ex ix_all [root0] false false cs1 = Some (tid_ex (map ra cs1), true) /\
  archive D_ex chunks_ex tid_ex o_ex st_ex ix_all [root0] true false cs1 = Some (tid_ex (map ra cs1), true) /\
  process_all o_ex st_ex ix_all (fst (parent_new st_ex [root0]))
    [EOther f1'; ENewTree d2 2; EOther f3; EEndTree; EOther f4]
  = [OOther f1' NotMatched; ONewTree (Matched sub0); OOther (set_content f3 (Some [43])) (Matched tt); OEndTree; OOther f4 NotFound].
Proof. vm_compute. repeat split. Qed.

(* chunk 43 is no longer in the index: file 3 matches its parent entry but is handed on unread-from-parent *)
Example pruned_chunk_forces_reread :
  process_all o_ex st_ex ix_without_43 (fst (parent_new st_ex [root0])) [ENewTree d2 2; EOther f3]
  = [ONewTree (Matched sub0); OOther f3 NotFound] /\
  archive D_ex chunks_ex tid_ex o_ex st_ex ix_without_43 [root0] false false cs1 = Some (tid_ex (map ra cs1), true).
Proof. vm_compute. split; reflexivity. Qed.

(* arrival out of order: file 4 first moves the cursor past the parent's entries 1 and 2, so the
   unchanged directory 2 and file 1 are NotFound (re-read); the result is still the tree of the full
   backup of that arrival order *)
Example missed_cursor_only_rereads :
  let cs := [SLeaf f4 [44]; SDir d2 [SLeaf f3 [43]]; SLeaf f1 [41; 42]] in
  process_all o_ex st_ex ix_all (fst (parent_new st_ex [root0])) [EOther f4; ENewTree d2 2; EEndTree; EOther f1]
  = [OOther f4 NotFound; ONewTree NotFound; OEndTree; OOther f1 NotFound] /\
  archive D_ex chunks_ex tid_ex o_ex st_ex ix_all [root0] false false cs = Some (tid_ex (map ra cs), true).
Proof. vm_compute. split; reflexivity. Qed.

(* OUTSIDE the premise (same type, size, mtime, ctime; other bytes): the parent's content is reused and
   the tree differs from the forced backup — the premise of parent_equals_full cannot be dropped *)
Example premise_is_needed :
  exists r1 r2 w1 w2,
    archive D_ex chunks_ex tid_ex o_ex st_ex ix_all [root0] false false cs1_stealth = Some (r1, w1) /\
    archive D_ex chunks_ex tid_ex o_ex st_ex ix_all [root0] true false cs1_stealth = Some (r2, w2) /\ r1 <> r2.
Proof. do 4 eexists. split; [vm_compute; reflexivity|]. split; [vm_compute; reflexivity|]. discriminate. Qed.

(* skip_if_unchanged: an unchanged source yields the parent's root id; the snapshot file is then not written *)
Example skip_if_unchanged_skips :
  archive D_ex chunks_ex tid_ex o_ex st_ex ix_all [root0] false true cs0 = Some (root0, false) /\
  archive D_ex chunks_ex tid_ex o_ex st_ex ix_all [root0] false false cs0 = Some (root0, true).
Proof. vm_compute. split; reflexivity. Qed.

(* the inode clause as written: a changed inode blocks reuse exactly when ignore_inode is SET *)
Example inode_clause_observation :
  let moved := mk 3 TFile 9 10 10 99 in
  meta_match {| ignore_ctime := false; ignore_inode := false |} f3 moved = true /\
  meta_match {| ignore_ctime := false; ignore_inode := true |} f3 moved = false.
Proof. vm_compute. split; reflexivity. Qed.

(* `backup /1/2 /1/5`: two backup paths with the common root /1; the walker yields items for the
   directories 2 and 5 and what is below them; TreeIterator synthesises /1 once *)
Definition d5 := mk 5 TDir 0 10 10 75.
Definition ws_two_paths : list (wsrc D_ex) :=
  [WDir false 1 (synth 1) [WDir true 2 d2 [WLeaf f3 [43]]; WDir true 5 d5 [WLeaf f4 [44]; WDir true 6 (mk 6 TDir 0 10 10 76) []]]].

Example two_paths_stream :
  map (fun it => (i_path D_ex it, n_name (i_node D_ex it))) (flat_map (stream_of D_ex [CRoot]) ws_two_paths)
  = [([CRoot; CNormal 1; CNormal 2], 2); ([CRoot; CNormal 1; CNormal 2], 3);
     ([CRoot; CNormal 1; CNormal 5], 5); ([CRoot; CNormal 1; CNormal 5], 4); ([CRoot; CNormal 1; CNormal 5; CNormal 6], 6)].
Proof. vm_compute. reflexivity. Qed.

Example two_paths_items :
  titer D_ex 20 (flat_map (stream_of D_ex [CRoot]) ws_two_paths)
  = Some [EvNew (synth 1) 1; EvNew d2 2; EvOther f3 (Some [43]); EvEnd;
          EvNew d5 5; EvOther f4 (Some [44]); EvNew (mk 6 TDir 0 10 10 76) 6; EvEnd; EvEnd; EvEnd].
Proof. vm_compute. reflexivity. Qed.

Example two_paths_wellformed : allP (wfw D_ex) ws_two_paths /\ NoDup (dir_comps D_ex ws_two_paths).
Proof.
  split.
  - cbn. repeat split; try discriminate; repeat constructor; cbn; intuition discriminate.
  - cbn. repeat constructor. intros [].
Qed.

(* mixed anchors: after /1 an item with a relative path — the real iterator yields EndTree for ever:
   NewTree for /1, EndTree back to `/`, and there the item is not below the path and pop() finds
   nothing to drop, so the next call leaves the state as it is *)
Example mixed_anchors_never_end : forall fuel,
  titer D_ex fuel [{| i_path := [CRoot; CNormal 1]; i_node := d2; i_open := None |};
                   {| i_path := [CNormal 2]; i_node := d5; i_open := None |}] = None.
Proof.
  eapply (steps_none D_ex) with (s' := ([CRoot], [{| i_path := [CNormal 2]; i_node := d5; i_open := None |}])).
  - eapply steps_cons; [vm_compute; reflexivity|]. eapply steps_cons; [vm_compute; reflexivity|]. apply steps_nil.
  - apply ti_run_stuck with (e := EvEnd). vm_compute. reflexivity.
Qed.

Example mixed_anchors_diverge :
  titer D_ex 50 [{| i_path := [CRoot; CNormal 1]; i_node := d2; i_open := None |};
                 {| i_path := [CNormal 2]; i_node := d5; i_open := None |}] = None.
Proof. exact (mixed_anchors_never_end 50). Qed.

(* the source of Examples.cs1 located at `/`, as a path stream, with the parent root0: the whole
   pipeline gives the tree of the full backup, with and without parent *)
Definition ws1 : list (wsrc D_ex) := [WLeaf f1' [51]; WDir true 2 d2 [WLeaf f3 [43]]; WLeaf f4 [44]].
Example stream_backup_equals_full :
  map (to_src D_ex) ws1 = cs1 /\
  backup_stream D_ex chunks_ex tid_ex o_ex st_ex ix_all 20 [root0] false (flat_map (stream_of D_ex [CRoot]) ws1)
    = Some (tid_ex (map ra cs1)) /\
  backup_stream D_ex chunks_ex tid_ex o_ex st_ex ix_all 20 [root0] true (flat_map (stream_of D_ex [CRoot]) ws1)
    = Some (tid_ex (map ra cs1)).
Proof. vm_compute. repeat split. Qed.

(* selection: latest of the same group (host, label, paths), explicit ids bypass the group, a missing id drops all *)
Definition snA := {| s_id := 1; s_time := 5; s_host := 1; s_label := 1; s_paths := 1; s_tags := 0; s_tree := root0 |}.
Definition snB := {| s_id := 2; s_time := 9; s_host := 2; s_label := 1; s_paths := 1; s_tags := 0; s_tree := sub0 |}.
Definition snC := {| s_id := 3; s_time := 7; s_host := 1; s_label := 1; s_paths := 1; s_tags := 0; s_tree := root0 |}.
Definition me_ex := {| s_id := 0; s_time := 6; s_host := 1; s_label := 1; s_paths := 1; s_tags := 0; s_tree := 0 |}.
Example selection_examples :
  select false [] crit_default me_ex [snA; snB; snC] = [snC] /\          (* newest of host 1 — although newer than `me` *)
  select false [] {| c_host := false; c_label := true; c_paths := true; c_tags := false |} me_ex [snA; snB; snC] = [snB] /\
  select false [2; 1] crit_default me_ex [snA; snB; snC] = [snB; snA] /\  (* explicit: request order, group not consulted *)
  select false [2; 8] crit_default me_ex [snA; snB; snC] = [] /\          (* one unreadable id: no parent at all *)
  select true [2] crit_default me_ex [snA; snB; snC] = [].
Proof. vm_compute. repeat split. Qed.
