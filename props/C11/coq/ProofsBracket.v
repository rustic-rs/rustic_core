(* C11 — TreeIterator is well bracketed on EVERY item stream, whenever it terminates within the fuel:
   the number of open directories is the number of Normal components of self.path. *)
From Verif.Base Require Import Tactics.
From Verif.C11 Require Import Extracted Model ModelIter.
Local Open Scope N_scope.

Definition depth (p : path) : nat := length (filter is_normal p).

Lemma depth_app : forall p q, depth (p ++ q) = (depth p + depth q)%nat.
Proof. intros p q. unfold depth. rewrite filter_app. apply app_length. Qed.

Lemma depth_rev : forall p, depth (rev p) = depth p.
Proof.
  induction p as [|c p IH]; [reflexivity|]. cbn [rev]. rewrite depth_app, IH, Nat.add_comm.
  symmetry. exact (depth_app [c] p).
Qed.

Lemma pop_depth : forall p,
  match pop p with Some p' => depth p = S (depth p') | None => depth p = 0%nat end.
Proof.
  intros p. unfold pop. rewrite <- (depth_rev p).
  induction (rev p) as [|c r IH]; [reflexivity|].
  destruct c; cbn [pop_rev]; try exact IH. rewrite depth_rev. reflexivity.
Qed.

Lemma walk_depth : forall missing cur full nd,
  depth (fst (walk_missing cur missing full nd)) =
  (depth cur + match snd (walk_missing cur missing full nd) with Some _ => 1 | None => 0 end)%nat.
Proof.
  induction missing as [|c m IH]; intros cur full nd; cbn [walk_missing].
  - symmetry. apply Nat.add_0_r.
  - destruct c; try (rewrite IH, depth_app; cbn [depth filter is_normal length]; rewrite Nat.add_0_r; reflexivity).
    apply depth_app.
Qed.

Section Depth.
  Variable D : Type.

  (* NewTree opens a directory, EndTree closes one — or nothing can be closed, and then the state
     does not change: the iterator yields EndTree for ever *)
  Lemma next_depth : forall s,
    match ti_next D s with
    | Some (e, s') =>
      match e with
      | EvNew _ _ => depth (fst s') = S (depth (fst s))
      | EvEnd => depth (fst s) = S (depth (fst s')) \/ s' = s
      | EvOther _ _ => depth (fst s') = depth (fst s)
      end
    | None => depth (fst s) = 0%nat
    end.
  Proof.
    intros [cur pending]. pose proof (pop_depth cur) as P. cbn [ti_next fst].
    destruct pending as [|it rest].
    - destruct (pop cur); [left|]; exact P.
    - destruct (strip_prefix (i_path D it) cur) as [missing|].
      + pose proof (walk_depth missing cur (i_path D it) (i_node D it)) as W.
        destruct (walk_missing cur missing (i_path D it) (i_node D it)) as [cur' [[[|] p]|]];
          cbn [fst snd] in *; rewrite W; [apply Nat.add_1_r..|apply Nat.add_0_r].
      + destruct (pop cur); [left; exact P|right; reflexivity].
  Qed.

  Lemma ti_run_stuck : forall s e, ti_next D s = Some (e, s) -> forall fuel, ti_run D fuel s = None.
  Proof. intros s e H. induction fuel as [|f IH]; cbn [ti_run]; [|rewrite H, IH]; reflexivity. Qed.

  Lemma run_balanced : forall fuel s evs, ti_run D fuel s = Some evs -> balanced D (depth (fst s)) evs = true.
  Proof.
    induction fuel as [|f IH]; intros s evs H; cbn [ti_run] in H; [discriminate|].
    pose proof (next_depth s) as N. destruct (ti_next D s) as [[e s']|] eqn:T.
    - destruct (ti_run D f s') as [r|] eqn:R; [|discriminate]. injection H as <-.
      pose proof (IH _ _ R) as B.
      destruct e; cbn [balanced]; [rewrite <- N; exact B| |rewrite <- N; exact B].
      destruct N as [->| ->]; [exact B|]. rewrite (ti_run_stuck s _ T) in R. discriminate.
    - injection H as <-. rewrite N. reflexivity.
  Qed.

  Lemma titer_balanced : forall fuel items evs, titer D fuel items = Some evs -> balanced D 0 evs = true.
  Proof. intros fuel items evs. exact (run_balanced fuel ([], items) evs). Qed.
End Depth.

Section Bracket.
  Variable D : Type.
  Variable anchor : list comp.

  Definition anchored (its : list (item D)) : Prop :=
    forall it, In it its -> exists ns, i_path D it = anchor ++ map CNormal ns.
End Bracket.
