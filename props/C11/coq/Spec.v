(* C11 — declarative side: the tree a backup produces when it reads every file (`read_all`),
   what it means for parent trees to be usable (`good`), the property's premise (`visible`),
   and "the parent snapshot was produced by a correct backup and what is left of it in the
   repository is what was written" (`stored`). *)
From Verif.Base Require Import Tactics.
From Verif.C11 Require Import Extracted Model Proofs.
Local Open Scope N_scope.

Section All.
  Variable A : Type.
  Variable P : A -> Prop.
  Fixpoint allP (l : list A) : Prop := match l with [] => True | x :: r => P x /\ allP r end.
  Lemma allP_In : forall l, allP l <-> (forall x, In x l -> P x).
  Proof.
    induction l as [|a l IH]; cbn [allP In]; split; intros H.
    - intros x [].
    - exact I.
    - intros x [E|Hx]; [subst; exact (proj1 H)|]. apply (proj1 IH (proj2 H)); exact Hx.
    - split; [apply H; left; reflexivity|]. apply IH. intros x Hx. apply H. right; exact Hx.
  Qed.

  Lemma allP_elim : forall l, allP l -> forall x, In x l -> P x.
  Proof. intros l. apply allP_In. Qed.

  Lemma allP_all : (forall x, P x) -> forall l, allP l.
  Proof. intros H l. apply allP_In. intros x _. apply H. Qed.
End All.
Arguments allP {A} P l.
Arguments allP_elim {A P l}.
Arguments allP_all {A P}.

Section SrcInd.
  Variable D : Type.
  Variable P : src D -> Prop.
  Hypothesis Hl : forall nd d, P (SLeaf nd d).
  Hypothesis Hd : forall nd cs, allP P cs -> P (SDir nd cs).
  Fixpoint src_ind2 (e : src D) : P e :=
    match e with
    | SLeaf nd d => Hl nd d
    | SDir nd cs =>
      Hd nd cs ((fix go (cs : list (src D)) : allP P cs :=
                   match cs with [] => I | c :: r => conj (src_ind2 c) (go r) end) cs)
    end.
End SrcInd.

Section Spec.
  Variable D : Type.
  Variable chunks : D -> list id.
  Variable tid : list node -> id.
  Variable o : popts.
  Variable st : store.

  (* the backup that reads every file *)
  Fixpoint read_all (e : src D) : node :=
    match e with
    | SLeaf nd d => leaf_read D chunks nd d
    | SDir nd cs => set_subtree nd (Some (tid (map read_all cs)))
    end.

  (* parent node `pn` (of the same name) is usable for source entry `e`: a match reuses the
     right content / has a subtree, and the loadable subtree is usable for the children *)
  Fixpoint good (e : src D) (pn : node) {struct e} : Prop :=
    match e with
    | SLeaf nd d => meta_match o pn nd = true -> n_content pn = n_content (leaf_read D chunks nd d)
    | SDir nd cs =>
      (meta_match o pn nd = true -> n_subtree pn <> None) /\
      forall i T, n_subtree pn = Some i -> st i = Some T ->
        allP (fun c => forall q, In q T -> n_name q = sname c -> good c q) cs
    end.

  Fixpoint wf (e : src D) : Prop :=
    match e with
    | SLeaf nd _ => n_type nd <> TDir /\ n_subtree nd = None
    | SDir nd cs => n_type nd = TDir /\ allP wf cs
    end.

  (* premise of the property, per pair of entries of the same name: equal type, size, mtime and
     (unless ignored) ctime imply equal content; recursively for directories *)
  Fixpoint visible (e1 e0 : src D) {struct e1} : Prop :=
    match e1 with
    | SLeaf n1 d1 =>
      match e0 with
      | SLeaf n0 d0 => core_match o n0 n1 = true ->
                       n_content (leaf_read D chunks n0 d0) = n_content (leaf_read D chunks n1 d1)
      | SDir _ _ => True
      end
    | SDir n1 c1 =>
      match e0 with
      | SLeaf _ _ => True
      | SDir n0 c0 => allP (fun x1 => forall x0, In x0 c0 -> sname x0 = sname x1 -> visible x1 x0) c1
      end
    end.

  (* what the repository still holds of the trees written for e0 is what was written *)
  Fixpoint stored (e0 : src D) : Prop :=
    match e0 with
    | SLeaf _ _ => True
    | SDir n0 c0 => (forall T, st (tid (map read_all c0)) = Some T -> T = map read_all c0) /\ allP stored c0
    end.
End Spec.
