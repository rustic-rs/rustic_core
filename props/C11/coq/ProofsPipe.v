(* C11 — the bracketed items fed to the archiver one by one (`arun`) do what `arch` does by
   structural recursion: `pipe_stmt`, `arun_events`; `backup_stream_root` for the whole path stream. *)
From Verif.Base Require Import Tactics.
From Verif.C11 Require Import Extracted Model Spec Proofs3 ModelIter ProofsIter.
Local Open Scope N_scope.

Section Pipe.
  Variable D : Type.
  Variable chunks : D -> list id.
  Variable tid : list node -> id.
  Variable o : popts.
  Variable st : store.
  Variable ix : index.

  Notation wsrc := (wsrc D).
  Notation events_of := (events_of D).
  Notation to_src := (to_src D).
  Notation arun := (arun D chunks tid o st ix).
  Notation astep := (astep D chunks tid o st ix).
  Notation arch := (arch D chunks tid o st ix).
  Notation arch_list := (arch_list D chunks tid o st ix).

  Lemma arun_app : forall a b s, arun s (a ++ b) = match arun s a with Some s' => arun s' b | None => None end.
  Proof.
    induction a as [|e a IH]; intros b s; cbn [app ModelIter.arun]; [reflexivity|].
    destruct (astep s e); [apply IH|reflexivity].
  Qed.

  Definition after (s : astate) (P' : pstate) (ns : list node) : astate :=
    {| a_parent := P'; a_tree := a_tree s ++ ns; a_stack := a_stack s |}.

  Definition pipe_stmt (w : wsrc) : Prop :=
    forall s P' n, arch (to_src w) (a_parent s) = Some (P', n) -> arun s (events_of w) = Some (after s P' [n]).

  Lemma pipe_list : forall cs, allP pipe_stmt cs ->
    forall s P' ns, arch_list (map to_src cs) (a_parent s) = Some (P', ns) ->
    arun s (flat_map events_of cs) = Some (after s P' ns).
  Proof.
    induction cs as [|w cs IH]; intros HA s P' ns H.
    - cbn [map Model.arch_list] in H. injection H as <- <-. unfold after. rewrite app_nil_r.
      destruct s; reflexivity.
    - destruct HA as [Hw HA]. cbn [map Model.arch_list] in H.
      destruct (arch (to_src w) (a_parent s)) as [[P1 n]|] eqn:E1; [|discriminate].
      destruct (arch_list (map to_src cs) P1) as [[P2 ns']|] eqn:E2; [|discriminate]. injection H as <- <-.
      cbn [flat_map]. rewrite arun_app, (Hw s P1 n E1), (IH HA (after s P1 [n]) P2 ns' E2). unfold after. cbn [a_parent a_tree a_stack].
      rewrite <- app_assoc. reflexivity.
  Qed.

  Lemma pipe_one : forall w, pipe_stmt w.
  Proof.
    induction w as [nd d|ex c nd cs IH] using wsrc_ind2; intros s P' n H.
    - cbn [ModelIter.to_src Model.arch] in H. injection H as H. unfold arch_leaf in H.
      cbn [ModelIter.events_of ModelIter.arun ModelIter.astep].
      destruct (process_other o ix (a_parent s) nd) as [[P1 nd'] r].
      destruct r; injection H as <- <-; reflexivity.
    - cbn [ModelIter.to_src] in H. rewrite arch_SDir in H. unfold arch_dir in H.
      destruct (process_newtree o st (a_parent s) nd (n_name nd)) as [[P1 pr]|] eqn:PN; [|discriminate].
      destruct (arch_list (map to_src cs) P1) as [[P2 nodes]|] eqn:AL; [|discriminate].
      destruct (finish_dir P2) as [P3|] eqn:FD; [|discriminate]. injection H as <- <-.
      cbn [ModelIter.events_of ModelIter.arun ModelIter.astep]. rewrite PN.
      rewrite arun_app.
      rewrite (pipe_list cs IH {| a_parent := P1; a_tree := []; a_stack := (nd, a_tree s) :: a_stack s |} P2 nodes AL).
      unfold after. cbn [a_parent a_tree a_stack app ModelIter.arun ModelIter.astep]. rewrite FD. reflexivity.
  Qed.

  Lemma arun_events : forall ws s P' ns, arch_list (map to_src ws) (a_parent s) = Some (P', ns) ->
    arun s (flat_map events_of ws) = Some (after s P' ns).
  Proof. intros ws. apply pipe_list, (allP_all pipe_one). Qed.

  Lemma backup_stream_root : forall fuel (parents : list id) (force : bool) items ws P' ns,
    titer D fuel items = Some (flat_map events_of ws) ->
    arch_list (map to_src ws) {| trees := load_trees st (if force then [] else parents); stack := [] |} = Some (P', ns) ->
    backup_stream D chunks tid o st ix fuel parents force items = Some (tid ns).
  Proof.
    intros fuel parents force items ws P' ns T A. unfold backup_stream, parent_new. rewrite T.
    rewrite (arun_events ws {| a_parent := _; a_tree := []; a_stack := [] |} P' ns A). reflexivity.
  Qed.
End Pipe.
