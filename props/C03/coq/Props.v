(* C03 — property theorems: every crash point / failed write of a command whose backend
   calls follow the order discipline leaves only closed (fully readable) snapshots. *)
From Verif.Base Require Import Tactics Lists.
From Verif.C03 Require Import Model Spec Proofs2 Order ProofsOrder Extracted ProofsCmd.
Local Open Scope N_scope.

(* Crash points: if the repository is closed before the command and the command's calls
   stay inside the discipline, the storage state after ANY prefix of the calls is closed. *)
Theorem discipline_prefix_safe : forall s0 log,
  Inv s0 -> discipline_ok s0 log = true ->
  forall pre post, log = pre ++ post -> Inv (apply pre s0).
Proof. exact ordered_log_crash_safe. Qed.
Print Assumptions discipline_prefix_safe.
Example discipline_prefix_safe_hyps : Inv ex_s0 /\ discipline_ok ex_s0 ex_backup = true.
Proof. split; [apply invb_spec|]; vm_compute; reflexivity. Qed.

(* The same without assuming a closed start state (repair commands start from a damaged
   repository): after any prefix, every visible snapshot is either closed, or it existed
   before and every blob of it that was readable before is still readable. *)
Theorem no_snapshot_loses_data : forall s0 log,
  discipline_ok s0 log = true ->
  forall pre post, log = pre ++ post ->
  forall id n, In (id, n) (snaps (apply pre s0)) ->
    (forall b, In b n -> avail (apply pre s0) b = true) \/
    (In (id, n) (snaps s0) /\
     forall b, In b n -> avail s0 b = true -> avail (apply pre s0) b = true).
Proof. intros s0 log H pre post ->. exact (discipline_no_loss _ _ (discipline_prefix _ _ _ H)). Qed.
Print Assumptions no_snapshot_loses_data.

(* One failed backend call: the issuing command stops at its first error, i.e. the calls
   that reach storage are the first k calls of the fault-free log, possibly followed by
   plain writes of NEW packs / index files that other writer threads of the same command
   still complete (`extra`; no snapshot write, no removal — checked on the real runs,
   together with the command returning an error).  Every prefix of that is closed. *)
Theorem single_fault_safe : forall s0 log,
  Inv s0 -> discipline_ok s0 log = true ->
  forall k extra, forallb is_plain extra = true -> fresh (apply (firstn k log) s0) extra ->
  forall pre post, firstn k log ++ extra = pre ++ post -> Inv (apply pre s0).
Proof.
  intros s0 log HI H k extra Hp Hf. apply discipline_prefix_safe; [exact HI|].
  rewrite <- (firstn_skipn k log) in H.
  rewrite discipline_app, (discipline_prefix _ _ _ H). apply plain_writes_ok; assumption.
Qed.
Print Assumptions single_fault_safe.
Example single_fault_safe_hyps :
  Inv ex_s0 /\ discipline_ok ex_s0 ex_backup = true /\
  forallb is_plain ex_new_writes = true /\ fresh (apply (firstn 0 ex_backup) ex_s0) ex_new_writes.
Proof. destruct discipline_prefix_safe_hyps, ex_fresh. auto. Qed.

(* Intended order of backup / copy / merge / rewrite (with or without forget) / repair
   snapshots / forget: new packs and new index files in ANY order (every linearisation of
   the data packer, the tree packer and the indexer), then the snapshot files — each closed
   once those writes are done —, then removals of snapshot files.  Always inside the discipline. *)
Theorem writes_snapshots_removes_ok : forall s ws sns dl,
  forallb is_plain ws = true -> fresh s ws ->
  (forall e, In e sns -> closedb (apply ws s) (snd e) = true) ->
  discipline_ok s (ws ++ map wsnap sns ++ map rsnap dl) = true.
Proof.
  intros s ws sns dl Hp Hf Hc. rewrite discipline_app, plain_writes_ok by assumption.
  apply snap_ops_ok.
  - intros o [(e & <- & _)%in_map_iff|(i & <- & _)%in_map_iff]%in_app_or; auto.
  - intros id n [(e & [= <- <-] & He)%in_map_iff|(i & [=] & _)%in_map_iff]%in_app_or.
    exact (Hc e He).
Qed.
Print Assumptions writes_snapshots_removes_ok.
Example writes_snapshots_removes_ok_hyps :
  forallb is_plain ex_new_writes = true /\ fresh ex_s0 ex_new_writes /\
  closedb (apply ex_new_writes ex_s0) [(Tree, 13); (Data, 12); (Data, 11)] = true.
Proof. destruct ex_fresh. split; [auto|]. split; [auto|]. vm_compute. reflexivity. Qed.

(* ... and for EVERY interleaving: if some order `ws` of the new packs / index files makes the
   snapshots closed, then every permutation `ws'` of those writes followed by the snapshot
   writes and the removals is inside the discipline (a superset of the linearisations that keep
   each writer thread's own order). *)
Theorem any_interleaving_ok : forall s ws ws' sns dl,
  Permutation ws ws' -> forallb is_plain ws = true -> fresh s ws ->
  (forall e, In e sns -> closedb (apply ws s) (snd e) = true) ->
  discipline_ok s (ws' ++ map wsnap sns ++ map rsnap dl) = true.
Proof.
  intros s ws ws' sns dl P Hp Hf Hc. destruct (perm_files s ws ws' P Hp Hf) as [A B].
  apply writes_snapshots_removes_ok; [exact (perm_plain _ _ P Hp)|exact (perm_fresh _ _ _ P Hf)|].
  intros e He. exact (closedb_mono _ _ _ A B (Hc e He)).
Qed.
Print Assumptions any_interleaving_ok.
Example any_interleaving_ok_instance :
  discipline_ok ex_s0 (rev ex_new_writes ++ map wsnap [(7, [(Tree, 13); (Data, 12); (Data, 11)])] ++ map rsnap [3]) = true.
Proof.
  destruct ex_fresh. apply (any_interleaving_ok ex_s0 ex_new_writes); auto.
  - apply Permutation_rev.
  - intros e [<-|[]]. vm_compute. reflexivity.
Qed.

(* Intended order of prune (and of repair index: rp = []): new packs + new index files in any
   order, then removal of old index files, then removal of old packs — inside the discipline
   whenever the FINAL state still makes every needed blob readable and no index file that
   survives lists a needed blob unmarked in a removed pack. *)
Theorem prune_order_ok : forall s ws ri rp,
  forallb is_plain ws = true -> fresh s ws ->
  (forall b, In b (needed s) ->
     avail (apply (map rpack rp) (apply (map ridx ri) (apply ws s))) b = true) ->
  (forall p b, In p rp -> In b (needed s) ->
     through_pack (apply (map ridx ri) (apply ws s)) p b = false) ->
  discipline_ok s (ws ++ map ridx ri ++ map rpack rp) = true.
Proof.
  intros s ws ri rp Hp Hf Hfin Hun. apply writes_then_removals; auto.
  1, 2: intros o (i & <- & _)%in_map_iff; reflexivity.
  intros p b (q & [= <-] & Hq)%in_map_iff. auto.
Qed.
Print Assumptions prune_order_ok.
Example prune_order_ok_instance : Inv ex_s0 /\ discipline_ok ex_s0 ex_prune = true.
Proof. split; [apply invb_spec|]; vm_compute; reflexivity. Qed.

(* An order outside the discipline really breaks the property: snapshot file first, its
   packs and index afterwards (the order `repair snapshots` had on the unchanged tree).
   Start and end states are closed, the state after the first call is not.  The statement says
   only that such a log exists; the order is that of the witness in the proof. *)
Theorem snapshot_before_packs_refuted :
  exists s0 log pre post,
    Inv s0 /\ log = pre ++ post /\ Inv (apply log s0) /\
    discipline_ok s0 log = false /\ ~ Inv (apply pre s0).
Proof.
  apply (unsafe_prefix_witness ex_s0 [ex_new_snap] (ex_new_writes ++ [Remove FSnap 3]));
    vm_compute; reflexivity.
Qed.
Print Assumptions snapshot_before_packs_refuted.

(* Likewise: an index file removed before its replacement is written (`repair index`). *)
Theorem index_removed_before_rewrite_refuted :
  exists s0 log pre post,
    Inv s0 /\ log = pre ++ post /\ Inv (apply log s0) /\
    discipline_ok s0 log = false /\ ~ Inv (apply pre s0).
Proof.
  apply (unsafe_prefix_witness ex_s0 [Remove FIndex 2]
           [Write FIndex 8 (PIndex [ixp 1 false [(Tree, 10); (Data, 11)]])]);
    vm_compute; reflexivity.
Qed.
Print Assumptions index_removed_before_rewrite_refuted.


(* Phase order of each command, REGENERATED from its source (Extracted.v, props/C03/extract.py),
   as proof obligations.  `fits ps frags`: the log `concat frags` is a concatenation of
   fragments, the i-th consisting only of backend calls the i-th phase allows.
   The remaining hypotheses are END-state conditions (executable, evaluated on every real log):
   ids of new files are fresh, the snapshots written are closed in the state the command leaves
   behind, everything needed before is still readable there, no surviving index lists a needed
   blob in a removed pack.  Order (static) + end state (one observation) => every crash point. *)

(* any phase order of the shape  writes* ; snapshot saves* ; snapshot removals* *)
Theorem ordered_snapshot_command_in_discipline : forall ps frags s,
  order_ok1 ps = true -> fits ps frags ->
  freshb s (concat frags) = true -> written_snaps_closed s (concat frags) = true ->
  discipline_ok s (concat frags) = true.
Proof.
  intros ps frags s [S R]%order_ok1_spec HF Hfr Hc.
  assert (K : forall o, In o (concat frags) -> (okind o <= 2)%nat)
    by exact (fits_kinds (fun k => (k <= 2)%nat) _ _ HF R).
  apply (phases_ok ps frags HF); [exact S|exact (freshb_spec _ _ Hfr)| | |].
  - intros id n Hin. exact (forallb_In Hc Hin).
  - (* no removal of an index file or a pack in such a log *)
    intros id x Hin. specialize (K _ Hin). cbn in K. lia.
  - intros id x Hin. specialize (K _ Hin). cbn in K. lia.
Qed.
Print Assumptions ordered_snapshot_command_in_discipline.

(* any phase order of the shape  [unindexed packs removed] ; writes* ; index removals* ; pack removals* *)
Theorem ordered_removal_command_in_discipline : forall ps frags s,
  order_ok2 ps = true -> fits ps frags ->
  freshb s (concat frags) = true ->
  unindexed_unlisted s (unindexed_frag ps frags) = true ->
  needed_kept s (concat frags) = true -> removed_packs_unlisted s (concat frags) = true ->
  discipline_ok s (concat frags) = true.
Proof.
  intros ps frags s Ho HF Hfr%freshb_spec Hun Hkeep Hunl.
  assert (Gen : order_ok2_tail ps = true -> discipline_ok s (concat frags) = true).
  { intros [S R]%order_ok2_tail_spec.
    apply (unlisted_then_removal_phases [] ps frags s); auto. intros ? []. }
  destruct ps as [|[] ps']; try exact (Gen Ho).
  (* leading PhRmUnindexed: its fragment is the block of unlisted packs *)
  inversion HF as [|? U ? fr HU HF']; subst. cbn [order_ok2 unindexed_frag concat] in *.
  apply order_ok2_tail_spec in Ho as [S R]. apply (unlisted_then_removal_phases U ps' fr); auto.
  intros o Hin. exact (accepts_kind PhRmUnindexed o (forallb_In HU Hin)).
Qed.
Print Assumptions ordered_removal_command_in_discipline.

Theorem ordered_other_command_in_discipline : forall ps frags s,
  order_ok_other ps = true -> fits ps frags -> discipline_ok s (concat frags) = true.
Proof.
  intros ps frags s Ho HF. apply other_ok.
  exact (fits_kinds (fun k => k = 5%nat) _ _ HF (order_ok_other_spec ps Ho)).
Qed.
Print Assumptions ordered_other_command_in_discipline.

(* the executable segmentation used on the real logs yields such fragments *)
Theorem segment_is_sound : forall ps log frags,
  segment ps log = Some frags -> log = concat frags /\ fits ps frags.
Proof. exact segment_fits. Qed.
Print Assumptions segment_is_sound.

(* ... and with a closed start state every prefix (crash point) of such a log is closed *)
Theorem ordered_snapshot_command_crash_safe : forall ps frags s,
  order_ok1 ps = true -> fits ps frags -> Inv s ->
  freshb s (concat frags) = true -> written_snaps_closed s (concat frags) = true ->
  forall pre post, concat frags = pre ++ post -> Inv (apply pre s).
Proof.
  intros ps frags s Ho Hf HI Hfr Hc. apply discipline_prefix_safe; [exact HI|].
  apply ordered_snapshot_command_in_discipline with (ps := ps); assumption.
Qed.
Print Assumptions ordered_snapshot_command_crash_safe.
Theorem ordered_removal_command_crash_safe : forall ps frags s,
  order_ok2 ps = true -> fits ps frags -> Inv s ->
  freshb s (concat frags) = true ->
  unindexed_unlisted s (unindexed_frag ps frags) = true ->
  needed_kept s (concat frags) = true -> removed_packs_unlisted s (concat frags) = true ->
  forall pre post, concat frags = pre ++ post -> Inv (apply pre s).
Proof.
  intros ps frags s Ho Hf HI Hfr Hu Hk Hr. apply discipline_prefix_safe; [exact HI|].
  apply ordered_removal_command_in_discipline with (ps := ps); assumption.
Qed.
Print Assumptions ordered_removal_command_crash_safe.

(* backup: order of the storage-effect call sites of Archiver::archive *)
Theorem command_order_in_discipline_backup : forall frags s,
  fits order_backup frags ->
  freshb s (concat frags) = true -> written_snaps_closed s (concat frags) = true ->
  discipline_ok s (concat frags) = true.
Proof. intros frags s. exact (ordered_snapshot_command_in_discipline _ frags s order_backup_ok). Qed.
Print Assumptions command_order_in_discipline_backup.

(* copy: order of the storage-effect call sites of commands::copy::copy *)
Theorem command_order_in_discipline_copy : forall frags s,
  fits order_copy frags ->
  freshb s (concat frags) = true -> written_snaps_closed s (concat frags) = true ->
  discipline_ok s (concat frags) = true.
Proof. intros frags s. exact (ordered_snapshot_command_in_discipline _ frags s order_copy_ok). Qed.
Print Assumptions command_order_in_discipline_copy.

(* merge: order of the storage-effect call sites of merge_snapshots + merge_trees *)
Theorem command_order_in_discipline_merge : forall frags s,
  fits order_merge frags ->
  freshb s (concat frags) = true -> written_snaps_closed s (concat frags) = true ->
  discipline_ok s (concat frags) = true.
Proof. intros frags s. exact (ordered_snapshot_command_in_discipline _ frags s order_merge_ok). Qed.
Print Assumptions command_order_in_discipline_merge.

(* rewrite_trees: order of the storage-effect call sites of rewrite_snapshots_and_trees *)
Theorem command_order_in_discipline_rewrite_trees : forall frags s,
  fits order_rewrite_trees frags ->
  freshb s (concat frags) = true -> written_snaps_closed s (concat frags) = true ->
  discipline_ok s (concat frags) = true.
Proof. intros frags s. exact (ordered_snapshot_command_in_discipline _ frags s order_rewrite_trees_ok). Qed.
Print Assumptions command_order_in_discipline_rewrite_trees.

(* rewrite_meta: order of the storage-effect call sites of rewrite_snapshots *)
Theorem command_order_in_discipline_rewrite_meta : forall frags s,
  fits order_rewrite_meta frags ->
  freshb s (concat frags) = true -> written_snaps_closed s (concat frags) = true ->
  discipline_ok s (concat frags) = true.
Proof. intros frags s. exact (ordered_snapshot_command_in_discipline _ frags s order_rewrite_meta_ok). Qed.
Print Assumptions command_order_in_discipline_rewrite_meta.

(* repair_snapshots: order of the storage-effect call sites of repair_snapshots *)
Theorem command_order_in_discipline_repair_snapshots : forall frags s,
  fits order_repair_snapshots frags ->
  freshb s (concat frags) = true -> written_snaps_closed s (concat frags) = true ->
  discipline_ok s (concat frags) = true.
Proof. intros frags s. exact (ordered_snapshot_command_in_discipline _ frags s order_repair_snapshots_ok). Qed.
Print Assumptions command_order_in_discipline_repair_snapshots.

(* forget: order of the storage-effect call sites of Repository::delete_snapshots *)
Theorem command_order_in_discipline_forget : forall frags s,
  fits order_forget frags ->
  freshb s (concat frags) = true -> written_snaps_closed s (concat frags) = true ->
  discipline_ok s (concat frags) = true.
Proof. intros frags s. exact (ordered_snapshot_command_in_discipline _ frags s order_forget_ok). Qed.
Print Assumptions command_order_in_discipline_forget.

(* repair index: reduced index files and the rebuilt index are written before the replaced index
   files are removed *)
Theorem command_order_in_discipline_repair_index : forall frags s,
  fits order_repair_index frags -> freshb s (concat frags) = true ->
  unindexed_unlisted s (unindexed_frag order_repair_index frags) = true ->
  needed_kept s (concat frags) = true -> removed_packs_unlisted s (concat frags) = true ->
  discipline_ok s (concat frags) = true.
Proof. intros frags s. exact (ordered_removal_command_in_discipline _ frags s order_repair_index_ok). Qed.
Print Assumptions command_order_in_discipline_repair_index.

(* prune_repository, for EVERY option combination except the documented-unsafe
   instant_delete + early_delete_index: the guards of the index / pack removals are part of the
   regenerated order (prune_early_guard = the source's `let early_delete_index = ..`) *)
Theorem command_order_in_discipline_prune : forall early_delete_index instant_delete frags s,
  negb (early_delete_index && instant_delete) = true ->
  fits (order_prune early_delete_index instant_delete) frags -> freshb s (concat frags) = true ->
  unindexed_unlisted s (unindexed_frag (order_prune early_delete_index instant_delete) frags) = true ->
  needed_kept s (concat frags) = true -> removed_packs_unlisted s (concat frags) = true ->
  discipline_ok s (concat frags) = true.
Proof. intros e i frags s H. exact (ordered_removal_command_in_discipline _ frags s (order_prune_ok e i H)). Qed.
Print Assumptions command_order_in_discipline_prune.

Theorem command_order_in_discipline_config : forall frags s,
  fits order_config frags -> discipline_ok s (concat frags) = true.
Proof. intros frags s. exact (ordered_other_command_in_discipline _ frags s order_config_ok). Qed.
Print Assumptions command_order_in_discipline_config.

Theorem command_order_in_discipline_key_add : forall frags s,
  fits order_key_add frags -> discipline_ok s (concat frags) = true.
Proof. intros frags s. exact (ordered_other_command_in_discipline _ frags s order_key_add_ok). Qed.
Print Assumptions command_order_in_discipline_key_add.

Theorem command_order_in_discipline_key_delete : forall frags s,
  fits order_key_delete frags -> discipline_ok s (concat frags) = true.
Proof. intros frags s. exact (ordered_other_command_in_discipline _ frags s order_key_delete_ok). Qed.
Print Assumptions command_order_in_discipline_key_delete.

(* the hypotheses are satisfiable: the example backup, prune and repair index are segmented along
   the regenerated orders and meet the end-state conditions *)
Example command_order_backup_instance : exists frags,
  segment order_backup ex_backup = Some frags /\ freshb ex_s0 (concat frags) = true /\
  written_snaps_closed ex_s0 (concat frags) = true.
Proof. eexists. split; [vm_compute; reflexivity|]. split; vm_compute; reflexivity. Qed.
Example command_order_prune_instance : exists frags,
  segment (order_prune false true) ex_prune = Some frags /\ freshb ex_s0 (concat frags) = true /\
  unindexed_unlisted ex_s0 (unindexed_frag (order_prune false true) frags) = true /\
  needed_kept ex_s0 (concat frags) = true /\ removed_packs_unlisted ex_s0 (concat frags) = true.
Proof. eexists. split; [vm_compute; reflexivity|]. repeat split; vm_compute; reflexivity. Qed.
Example command_order_repair_index_instance : exists frags,
  segment order_repair_index ex_index_written_first = Some frags /\ freshb ex_s0 (concat frags) = true /\
  unindexed_unlisted ex_s0 (unindexed_frag order_repair_index frags) = true /\
  needed_kept ex_s0 (concat frags) = true /\ removed_packs_unlisted ex_s0 (concat frags) = true.
Proof. eexists. split; [vm_compute; reflexivity|]. repeat split; vm_compute; reflexivity. Qed.
(* the orders repair snapshots and repair index had before their fixes: the greedy `segment` finds no
   cut along the regenerated order (that then none exists is not proved) *)
Example snapshot_first_does_not_conform : conformsb order_repair_snapshots ex_snapshot_first = false.
Proof. vm_compute. reflexivity. Qed.
Example index_removed_first_does_not_conform : conformsb order_repair_index ex_index_removed_first = false.
Proof. vm_compute. reflexivity. Qed.


(* Error propagation.  props/C03/extract.py regenerates, for every storage call site of the
   phase lists above (and of the expanded callees), whether the call's result is handed on
   (`?`, tail expression, or `if let Err(e) = .. { ..; return Err(e) }`), and the same for the
   writer thread behind every packer / blob copier (FileWriterHandle, Actor, RawPacker::finalize)
   and for DecryptWriteBackend::delete_list / save_list. *)
(* if every site hands its result on, a command that returns Ok had no failing call *)
Theorem failed_call_is_reported : forall props outcomes,
  all_true props = true -> length outcomes = length props ->
  run_sites props outcomes = true -> all_true outcomes = true.
Proof.
  unfold all_true. induction props as [|p ps IH]; intros [|o os] Hp Hl Hr; try discriminate;
    [reflexivity|].
  cbn [forallb] in Hp. apply andb_true_iff in Hp as [Hp1 Hp2]. subst p.
  cbn [run_sites] in Hr. destruct o; [|discriminate].
  cbn [forallb]. cbn [andb]. apply IH; auto.
Qed.
Print Assumptions failed_call_is_reported.
Example failed_call_is_reported_hyps : all_true propagates_backup = true /\ run_sites propagates_backup (map (fun _ => true) propagates_backup) = true.
Proof. split; vm_compute; reflexivity. Qed.
(* a dropped result goes unnoticed: the hypothesis is necessary *)
Example dropped_result_unnoticed : run_sites [true; false; true] [true; false; true] = true.
Proof. reflexivity. Qed.

Theorem command_reports_failures_backup : forall outcomes,
  length outcomes = length propagates_backup ->
  run_sites propagates_backup outcomes = true -> all_true outcomes = true.
Proof. intro outcomes. exact (failed_call_is_reported _ outcomes propagates_backup_ok). Qed.
Print Assumptions command_reports_failures_backup.

Theorem command_reports_failures_copy : forall outcomes,
  length outcomes = length propagates_copy ->
  run_sites propagates_copy outcomes = true -> all_true outcomes = true.
Proof. intro outcomes. exact (failed_call_is_reported _ outcomes propagates_copy_ok). Qed.
Print Assumptions command_reports_failures_copy.

Theorem command_reports_failures_merge : forall outcomes,
  length outcomes = length propagates_merge ->
  run_sites propagates_merge outcomes = true -> all_true outcomes = true.
Proof. intro outcomes. exact (failed_call_is_reported _ outcomes propagates_merge_ok). Qed.
Print Assumptions command_reports_failures_merge.

Theorem command_reports_failures_rewrite_trees : forall outcomes,
  length outcomes = length propagates_rewrite_trees ->
  run_sites propagates_rewrite_trees outcomes = true -> all_true outcomes = true.
Proof. intro outcomes. exact (failed_call_is_reported _ outcomes propagates_rewrite_trees_ok). Qed.
Print Assumptions command_reports_failures_rewrite_trees.

Theorem command_reports_failures_rewrite_meta : forall outcomes,
  length outcomes = length propagates_rewrite_meta ->
  run_sites propagates_rewrite_meta outcomes = true -> all_true outcomes = true.
Proof. intro outcomes. exact (failed_call_is_reported _ outcomes propagates_rewrite_meta_ok). Qed.
Print Assumptions command_reports_failures_rewrite_meta.

Theorem command_reports_failures_repair_snapshots : forall outcomes,
  length outcomes = length propagates_repair_snapshots ->
  run_sites propagates_repair_snapshots outcomes = true -> all_true outcomes = true.
Proof. intro outcomes. exact (failed_call_is_reported _ outcomes propagates_repair_snapshots_ok). Qed.
Print Assumptions command_reports_failures_repair_snapshots.

Theorem command_reports_failures_repair_index : forall outcomes,
  length outcomes = length propagates_repair_index ->
  run_sites propagates_repair_index outcomes = true -> all_true outcomes = true.
Proof. intro outcomes. exact (failed_call_is_reported _ outcomes propagates_repair_index_ok). Qed.
Print Assumptions command_reports_failures_repair_index.

Theorem command_reports_failures_forget : forall outcomes,
  length outcomes = length propagates_forget ->
  run_sites propagates_forget outcomes = true -> all_true outcomes = true.
Proof. intro outcomes. exact (failed_call_is_reported _ outcomes propagates_forget_ok). Qed.
Print Assumptions command_reports_failures_forget.

Theorem command_reports_failures_prune : forall outcomes,
  length outcomes = length propagates_prune ->
  run_sites propagates_prune outcomes = true -> all_true outcomes = true.
Proof. intro outcomes. exact (failed_call_is_reported _ outcomes propagates_prune_ok). Qed.
Print Assumptions command_reports_failures_prune.

Theorem command_reports_failures_config : forall outcomes,
  length outcomes = length propagates_config ->
  run_sites propagates_config outcomes = true -> all_true outcomes = true.
Proof. intro outcomes. exact (failed_call_is_reported _ outcomes propagates_config_ok). Qed.
Print Assumptions command_reports_failures_config.

Theorem command_reports_failures_key_add : forall outcomes,
  length outcomes = length propagates_key_add ->
  run_sites propagates_key_add outcomes = true -> all_true outcomes = true.
Proof. intro outcomes. exact (failed_call_is_reported _ outcomes propagates_key_add_ok). Qed.
Print Assumptions command_reports_failures_key_add.

Theorem command_reports_failures_key_delete : forall outcomes,
  length outcomes = length propagates_key_delete ->
  run_sites propagates_key_delete outcomes = true -> all_true outcomes = true.
Proof. intro outcomes. exact (failed_call_is_reported _ outcomes propagates_key_delete_ok). Qed.
Print Assumptions command_reports_failures_key_delete.

Theorem command_reports_failures_writer : forall outcomes,
  length outcomes = length propagates_writer ->
  run_sites propagates_writer outcomes = true -> all_true outcomes = true.
Proof. intro outcomes. exact (failed_call_is_reported _ outcomes propagates_writer_ok). Qed.
Print Assumptions command_reports_failures_writer.

(* the executable invariant used by the driver is the declarative one *)
Theorem invb_is_Inv : forall s, invb s = true <-> Inv s.
Proof. exact invb_spec. Qed.
Print Assumptions invb_is_Inv.
