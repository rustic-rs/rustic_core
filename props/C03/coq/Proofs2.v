(* C03 — the order discipline itself: a step inside it loses nothing a present snapshot needs, so
   a log inside it leaves every snapshot closed or as readable as before; plain writes of fresh
   files are inside it in any order and reach the same files; concrete repositories and logs. *)
From Verif.Base Require Import Tactics Lists.
From Verif.C03 Require Import Model Spec Order.
Local Open Scope N_scope.

Lemma invb_spec s : invb s = true <-> Inv s.
Proof.
  unfold invb, Inv, closedb. split.
  - intros H id n Hin b Hb. apply forallb_forall with (x := (id, n)) in H; [|exact Hin].
    exact (forallb_In H Hb).
  - intro H. apply forallb_forall. intros [id n] Hin. apply forallb_forall. exact (H id n Hin).
Qed.

Lemma apply_cons o l s : apply (o :: l) s = apply l (apply_op s o).
Proof. reflexivity. Qed.
Lemma apply_app a b s : apply (a ++ b) s = apply b (apply a s).
Proof. unfold apply. apply fold_left_app. Qed.

Lemma in_del {A} id (l : list (N * A)) e : In e (del id l) <-> In e l /\ (fst e =? id) = false.
Proof.
  unfold del. split.
  - intros [H1 H2%negb_true_iff]%filter_In. auto.
  - intros [H1 H2]. apply filter_In. split; [exact H1|apply negb_true_iff, H2].
Qed.
Lemma del_incl {A} id (l : list (N * A)) : incl (del id l) l.
Proof. intros e H. apply in_del in H. apply H. Qed.
Lemma present_false {A} id (l : list (N * A)) :
  present id l = false <-> forall e, In e l -> (fst e =? id) = false.
Proof.
  unfold present. split.
  - intros H e He. destruct (fst e =? id) eqn:E; [|reflexivity].
    rewrite <- H. symmetry. apply existsb_exists. eauto.
  - intro H. apply not_true_iff_false. intros (e & He & E)%existsb_exists.
    rewrite (H e He) in E. discriminate E.
Qed.
Lemma present_incl {A} id (l l' : list (N * A)) :
  incl l' l -> present id l = false -> present id l' = false.
Proof. intros Hi H. apply present_false. intros e He. exact (proj1 (present_false _ _) H e (Hi e He)). Qed.
Lemma del_fresh {A} id (l : list (N * A)) : present id l = false -> del id l = l.
Proof.
  unfold present, del. induction l as [|e l IH]; cbn; intro H; [reflexivity|].
  apply orb_false_iff in H as [H1 H2]. rewrite H1. cbn. rewrite IH; auto.
Qed.
Lemma put_fresh_incl {A} id (v : A) l : present id l = false -> incl l (put id v l).
Proof. intro H. unfold put. rewrite del_fresh by exact H. apply incl_tl, incl_refl. Qed.
Lemma present_put {A} id id' (v : A) l :
  id <> id' -> present id' l = false -> present id' (put id v l) = false.
Proof.
  intros Hne H. cbn. rewrite (proj2 (N.eqb_neq id id') Hne). exact (present_incl _ _ _ (del_incl id l) H).
Qed.

Lemma avail_iff s b : avail s b = true <->
  exists e ip, In e (idxs s) /\ In ip (snd e) /\ entry_avail s b ip = true.
Proof.
  unfold avail, index_avail. split.
  - intros (e & He & (ip & Hip & H)%existsb_exists)%existsb_exists. eauto.
  - intros (e & ip & He & Hip & H). apply existsb_exists. exists e. split; [exact He|].
    apply existsb_exists. eauto.
Qed.
Lemma pack_has_mono s s' p b :
  incl (packs s) (packs s') -> pack_has s p b = true -> pack_has s' p b = true.
Proof.
  unfold pack_has. intros Hi H. apply existsb_exists in H as [e [He H]].
  apply existsb_exists. exists e. split; auto.
Qed.
Lemma avail_mono s s' b :
  incl (packs s) (packs s') -> incl (idxs s) (idxs s') -> avail s b = true -> avail s' b = true.
Proof.
  intros Hp Hi (e & ip & He & Hip & H)%avail_iff. apply avail_iff. exists e, ip.
  split; [exact (Hi e He)|]. split; [exact Hip|].
  unfold entry_avail in *. apply andb_true_iff in H as [H1 H2]. rewrite H1.
  exact (pack_has_mono _ _ _ _ Hp H2).
Qed.
Lemma index_avail_ext s s' b e : packs s = packs s' -> index_avail s b e = index_avail s' b e.
Proof. unfold index_avail, entry_avail, pack_has. intros ->. reflexivity. Qed.
Lemma closedb_mono s s' n :
  incl (packs s) (packs s') -> incl (idxs s) (idxs s') -> closedb s n = true -> closedb s' n = true.
Proof.
  unfold closedb. intros Hp Hi H. apply forallb_forall. intros b Hb.
  exact (avail_mono _ _ _ Hp Hi (forallb_In H Hb)).
Qed.

Lemma needed_in s id n b : In (id, n) (snaps s) -> In b n -> In b (needed s).
Proof. intros. unfold needed. apply in_flat_map. exists (id, n). auto. Qed.
Lemma needed_ext s s' : snaps s = snaps s' -> needed s = needed s'.
Proof. unfold needed. intros ->. reflexivity. Qed.
Lemma through_pack_ext s s' p b : idxs s = idxs s' -> through_pack s p b = through_pack s' p b.
Proof. unfold through_pack. intros ->. reflexivity. Qed.
Lemma step_preserves s o b :
  step_ok s o = true -> In b (needed s) -> avail s b = true -> avail (apply_op s o) b = true.
Proof.
  intros Hok Hn Ha. destruct o as [[] id []|[] id]; try exact Ha; cbn [step_ok] in Hok.
  1, 2: apply negb_true_iff in Hok; apply (avail_mono s); cbn; auto using incl_refl, put_fresh_incl.
  - (* pack removal: the entry that made b readable does not point into the removed pack *)
    apply forallb_forall with (x := b) in Hok; [|exact Hn]. apply negb_true_iff in Hok.
    apply avail_iff in Ha as (e & ip & He & Hip & Ha). apply avail_iff. exists e, ip.
    split; [exact He|]. split; [exact Hip|].
    unfold entry_avail, pack_has in *. apply andb_true_iff in Ha as [H1 H2]. rewrite H1. cbn [andb].
    apply existsb_exists in H2 as (pe & Hpe & H2). apply existsb_exists. exists pe. split; [|exact H2].
    apply in_del. split; [exact Hpe|]. apply andb_true_iff in H2 as [H2 _]. apply N.eqb_eq in H2. rewrite H2.
    destruct (ip_pack ip =? id) eqn:Heq; [|reflexivity]. rewrite <- Hok. symmetry.
    unfold through_pack. apply existsb_exists. exists e. split; [exact He|].
    apply existsb_exists. exists ip. split; [exact Hip|]. rewrite Heq, andb_true_r. exact H1.
  - (* index removal: b is listed by another index file, or step_ok says it stays readable *)
    apply forallb_forall with (x := b) in Hok; [|exact Hn].
    apply orb_true_iff in Hok as [Hok|Hok]; [|exact Hok]. apply negb_true_iff in Hok.
    apply avail_iff in Ha as (e & ip & He & Hip & Ha). apply avail_iff. exists e, ip.
    split; [|split; [exact Hip|exact Ha]]. apply in_del. split; [exact He|].
    destruct (fst e =? id) eqn:Heq; [|reflexivity]. rewrite <- Hok. symmetry.
    unfold listed_by. apply existsb_exists. exists e. split; [exact He|]. rewrite Heq. cbn [andb].
    apply existsb_exists. eauto.
Qed.

Lemma snaps_after s o id n :
  In (id, n) (snaps (apply_op s o)) -> In (id, n) (snaps s) \/ o = Write FSnap id (PSnap n).
Proof.
  destruct o as [[] i []|[] i]; cbn; auto.
  - intros [[= -> ->]|H]; [auto|]. apply in_del in H. left. apply H.
  - intro H. apply in_del in H. left. apply H.
Qed.

Lemma discipline_app s a b :
  discipline_ok s (a ++ b) = discipline_ok s a && discipline_ok (apply a s) b.
Proof.
  revert s; induction a as [|o a IH]; intro s; [reflexivity|].
  cbn [app discipline_ok]. rewrite IH, apply_cons, andb_assoc. reflexivity.
Qed.
Lemma discipline_prefix s a b : discipline_ok s (a ++ b) = true -> discipline_ok s a = true.
Proof. rewrite discipline_app. intro H. apply andb_true_iff in H. apply H. Qed.

Lemma discipline_no_loss log : forall s0, discipline_ok s0 log = true ->
  forall id n, In (id, n) (snaps (apply log s0)) ->
    (forall b, In b n -> avail (apply log s0) b = true) \/
    (In (id, n) (snaps s0) /\
     forall b, In b n -> avail s0 b = true -> avail (apply log s0) b = true).
Proof.
  induction log as [|o r IH]; intros s0 H id n Hin.
  - right. split; auto.
  - cbn [discipline_ok] in H. apply andb_true_iff in H as [H1 H2].
    destruct (IH _ H2 _ _ Hin) as [Hc | [Hin1 Hp]]; [left; exact Hc|].
    destruct (snaps_after _ _ _ _ Hin1) as [Hold | ->].
    + right. split; [exact Hold|]. intros b Hb Ha. apply Hp; auto.
      apply step_preserves; auto. eapply needed_in; eauto.
    + (* the snapshot o writes: closed before the write, which leaves packs and index files alone *)
      left. intros b Hb. apply Hp; [exact Hb|]. exact (forallb_In (f := avail s0) H1 Hb).
Qed.

Lemma discipline_inv log s : Inv s -> discipline_ok s log = true -> Inv (apply log s).
Proof.
  intros HI H id n Hin b Hb. destruct (discipline_no_loss log s H id n Hin) as [Hc | [Hin0 Hp]]; [auto|].
  apply Hp; [exact Hb|]. exact (HI id n Hin0 b Hb).
Qed.

Lemma fresh_app s a b : fresh s (a ++ b) -> fresh s a /\ fresh s b.
Proof.
  unfold fresh, wpacks, widxs. rewrite !flat_map_app. intros (N1 & N2 & F1 & F2).
  apply NoDup_app_iff in N1 as (? & ? & _), N2 as (? & ? & _).
  split; repeat split; auto; intros id Hin; (apply F1 || apply F2); apply in_or_app; auto.
Qed.
Lemma fresh_incl s s' ws :
  incl (packs s') (packs s) -> incl (idxs s') (idxs s) -> fresh s ws -> fresh s' ws.
Proof. intros Hp Hi (N1 & N2 & F1 & F2). repeat split; eauto using present_incl. Qed.

Lemma plain_inv o : is_plain o = true ->
  (exists id bl, o = Write FPack id (PPack bl)) \/ (exists id l, o = Write FIndex id (PIndex l)).
Proof. destruct o as [[] id []|]; try discriminate; eauto. Qed.

(* a plain write adds only the file it names, any other op adds none: what is still to be
   written stays fresh *)
Lemma fresh_step o r s : fresh s (o :: r) -> fresh (apply_op s o) r.
Proof.
  intro Hf. destruct o as [[] id []|[] id];
    try solve [apply (fresh_incl s); [cbn; auto using incl_refl, del_incl ..|exact Hf]];
    destruct Hf as (N1 & N2 & F1 & F2); cbn in N1, N2, F1, F2.
  - apply NoDup_cons_iff in N1 as [Hn N1]. repeat split; auto.
    intros id' Hin. apply present_put; [intros ->; contradiction|auto].
  - apply NoDup_cons_iff in N2 as [Hn N2]. repeat split; auto.
    intros id' Hin. apply present_put; [intros ->; contradiction|auto].
Qed.
Lemma fresh_after a : forall s b, fresh s (a ++ b) -> fresh (apply a s) b.
Proof.
  induction a as [|o a IH]; intros s b Hf; [exact Hf|]. exact (IH _ _ (fresh_step _ _ _ Hf)).
Qed.

Lemma plain_writes_ok ws : forall s,
  forallb is_plain ws = true -> fresh s ws -> discipline_ok s ws = true.
Proof.
  induction ws as [|o r IH]; intros s Hp Hf; [reflexivity|].
  cbn [forallb] in Hp. apply andb_true_iff in Hp as [Ho Hp].
  cbn [discipline_ok]. rewrite (IH _ Hp (fresh_step _ _ _ Hf)), andb_true_r.
  destruct Hf as (_ & _ & F1 & F2). destruct (plain_inv o Ho) as [(id & bl & ->)|(id & l & ->)]; cbn.
  - rewrite F1; [reflexivity|left; reflexivity].
  - rewrite F2; [reflexivity|left; reflexivity].
Qed.

Lemma plain_write_files o r s : is_plain o = true -> fresh s (o :: r) ->
  (forall e, In e (packs (apply_op s o)) <-> In e (packs s) \/ o = Write FPack (fst e) (PPack (snd e))) /\
  (forall e, In e (idxs (apply_op s o)) <-> In e (idxs s) \/ o = Write FIndex (fst e) (PIndex (snd e))).
Proof.
  intros Ho (_ & _ & F1 & F2).
  destruct (plain_inv o Ho) as [(id & bl & ->)|(id & l & ->)]; cbn [apply_op packs idxs]; unfold put.
  - rewrite del_fresh by (apply F1; left; reflexivity). split; intros [i v]; cbn [In fst snd].
    + split; [intros [[= <- <-]|H]|intros [H|[= <- <-]]]; auto.
    + split; [auto|intros [H|[=]]; exact H].
  - rewrite del_fresh by (apply F2; left; reflexivity). split; intros [i v]; cbn [In fst snd].
    + split; [auto|intros [H|[=]]; exact H].
    + split; [intros [[= <- <-]|H]|intros [H|[= <- <-]]]; auto.
Qed.

Lemma plain_files ws : forall s, forallb is_plain ws = true -> fresh s ws ->
  (forall e, In e (packs (apply ws s)) <-> In e (packs s) \/ In (Write FPack (fst e) (PPack (snd e))) ws) /\
  (forall e, In e (idxs (apply ws s)) <-> In e (idxs s) \/ In (Write FIndex (fst e) (PIndex (snd e))) ws).
Proof.
  induction ws as [|o r IH]; intros s Hp Hf; [split; intro e; (split; [auto|intros [H|[]]; exact H])|].
  cbn [forallb] in Hp. apply andb_true_iff in Hp as [Ho Hp]. rewrite apply_cons.
  destruct (IH _ Hp (fresh_step _ _ _ Hf)) as [IP II], (plain_write_files o r s Ho Hf) as [SP SI].
  split; intro e; [rewrite IP, SP|rewrite II, SI]; apply or_assoc.
Qed.
Lemma plain_snaps ws : forall s, forallb is_plain ws = true -> snaps (apply ws s) = snaps s.
Proof.
  induction ws as [|o r IH]; intros s Hp; [reflexivity|].
  cbn [forallb] in Hp. apply andb_true_iff in Hp as [Ho Hp]. rewrite apply_cons, IH by auto.
  destruct o as [ft id p|ft id]; [|discriminate]. destruct ft, p; try discriminate; reflexivity.
Qed.

Lemma perm_plain ws ws' : Permutation ws ws' -> forallb is_plain ws = true -> forallb is_plain ws' = true.
Proof.
  intros P H. apply forallb_forall. intros o Ho.
  exact (forallb_In H (Permutation_in _ (Permutation_sym P) Ho)).
Qed.
Lemma perm_fresh s ws ws' : Permutation ws ws' -> fresh s ws -> fresh s ws'.
Proof.
  intros P (N1 & N2 & F1 & F2).
  assert (P1 : Permutation (wpacks ws) (wpacks ws')) by (apply Permutation_flat_map, P).
  assert (P2 : Permutation (widxs ws) (widxs ws')) by (apply Permutation_flat_map, P).
  repeat split; eauto using Permutation_NoDup, Permutation_in, Permutation_sym.
Qed.
Lemma perm_files s ws ws' : Permutation ws ws' -> forallb is_plain ws = true -> fresh s ws ->
  incl (packs (apply ws s)) (packs (apply ws' s)) /\ incl (idxs (apply ws s)) (idxs (apply ws' s)).
Proof.
  intros P Hp Hf. destruct (plain_files ws s Hp Hf) as [A B].
  destruct (plain_files ws' s (perm_plain _ _ P Hp) (perm_fresh _ _ _ P Hf)) as [A' B'].
  split; intros e He; [apply A'; apply A in He|apply B'; apply B in He];
    (destruct He as [He|He]; [left; exact He|right; exact (Permutation_in _ P He)]).
Qed.

Lemma nodupb_spec l : nodupb l = true -> NoDup l.
Proof.
  induction l as [|a r IH]; cbn; intro H; [constructor|].
  apply andb_true_iff in H as [H1 H2]. constructor; [|auto].
  intro Hin. apply negb_true_iff, not_true_iff_false in H1. apply H1, existsb_Neqb_In, Hin.
Qed.
Lemma freshb_spec s log : freshb s log = true -> fresh s log.
Proof.
  unfold freshb, fresh. intros [[[N1 N2]%andb_true_iff F1]%andb_true_iff F2]%andb_true_iff.
  repeat split; auto using nodupb_spec; intros id Hin; apply negb_true_iff.
  - exact (forallb_In F1 Hin).
  - exact (forallb_In F2 Hin).
Qed.

Definition ixp p m bl := {| ip_pack := p; ip_marked := m; ip_blobs := bl |}.
Definition ex_s0 : repo :=
  {| packs := [(1, [(Tree, 10); (Data, 11)])];
     idxs := [(2, [ixp 1 false [(Tree, 10); (Data, 11)]])];
     snaps := [(3, [(Tree, 10); (Data, 11)])] |}.
Definition ex_new_snap : op := Write FSnap 7 (PSnap [(Tree, 13); (Data, 12); (Data, 11)]).
Definition ex_new_writes : list op :=
  [Write FPack 4 (PPack [(Data, 12)]); Write FPack 5 (PPack [(Tree, 13)]);
   Write FIndex 6 (PIndex [ixp 4 false [(Data, 12)]; ixp 5 false [(Tree, 13)]])].
(* backup as Archiver::archive issues it: packs, index, snapshot *)
Definition ex_backup : list op := ex_new_writes ++ [ex_new_snap].
(* the order recorded for `repair snapshots` on the unchanged tree: snapshot first *)
Definition ex_snapshot_first : list op := ex_new_snap :: ex_new_writes ++ [Remove FSnap 3].
(* repack of pack 1 into pack 20, old index removed, old pack removed at once *)
Definition ex_prune : list op :=
  [Write FPack 20 (PPack [(Tree, 10); (Data, 11)]);
   Write FIndex 21 (PIndex [ixp 20 false [(Tree, 10); (Data, 11)]; ixp 1 true [(Tree, 10); (Data, 11)]]);
   Remove FIndex 2; Remove FPack 1].
(* `repair index --read-all` on the unchanged tree: old index file removed, then the rebuilt one written *)
Definition ex_index_removed_first : list op :=
  [Remove FIndex 2; Write FIndex 8 (PIndex [ixp 1 false [(Tree, 10); (Data, 11)]])].
Definition ex_index_written_first : list op :=
  [Write FIndex 8 (PIndex [ixp 1 false [(Tree, 10); (Data, 11)]]); Remove FIndex 2].

Lemma ex_index_written_first_ok : discipline_ok ex_s0 ex_index_written_first = true.
Proof. vm_compute; reflexivity. Qed.
Lemma ex_fresh : forallb is_plain ex_new_writes = true /\ fresh ex_s0 ex_new_writes.
Proof. split; [|apply freshb_spec]; vm_compute; reflexivity. Qed.

(* a log that ends closed, leaves the discipline and is unsafe after `pre`, from four evaluations *)
Lemma unsafe_prefix_witness s0 pre post :
  invb s0 = true -> invb (apply (pre ++ post) s0) = true ->
  discipline_ok s0 (pre ++ post) = false -> invb (apply pre s0) = false ->
  exists s0 log pre post,
    Inv s0 /\ log = pre ++ post /\ Inv (apply log s0) /\
    discipline_ok s0 log = false /\ ~ Inv (apply pre s0).
Proof.
  intros H0 H1 H2 H3. exists s0, (pre ++ post), pre, post.
  repeat split; try (apply invb_spec; assumption); [exact H2|].
  intros H%invb_spec. rewrite H in H3. discriminate H3.
Qed.
