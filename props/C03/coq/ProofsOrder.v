(* C03 — logs cut into fragments along a phase list.  The ops a phase accepts all belong to the
   stage of the phase (`okind` = `rank`), so each fragment is a block of one stage.  A block is inside
   the discipline under a condition on the state where it starts; when the ranks do not decrease,
   everything after the first stage only removes packs and index files, and the conditions of
   Order.v on the END state give the condition of every block. *)
From Verif.Base Require Import Tactics Lists.
From Verif.C03 Require Import Model Spec Proofs2 Order.

Definition fits (ps : list phase) (frags : list (list op)) : Prop :=
  Forall2 (fun p f => forallb (accepts p) f = true) ps frags.

Lemma accepts_kind p o : accepts p o = true -> okind o = rank p.
Proof. destruct p, o as [[] id []|[] id]; cbn; intro H; try discriminate H; reflexivity. Qed.

Lemma okind_inv o k : okind o = k ->
  match k with
  | 0 => is_plain o = true
  | 1 => exists id n, o = Write FSnap id (PSnap n)
  | 2 => exists id, o = rsnap id
  | 3 => exists id, o = ridx id
  | 4 => exists id, o = rpack id
  | _ => True
  end.
Proof. intros <-. destruct o as [[] id []|[] id]; cbn; eauto. Qed.
Lemma plain_kind o : is_plain o = true <-> okind o = 0.
Proof.
  split; [intros [(id & bl & ->)|(id & l & ->)]%plain_inv; reflexivity|exact (okind_inv o 0)].
Qed.
Lemma nonplain_ids o : okind o <> 0 -> wpack_id o = [] /\ widx_id o = [].
Proof.
  destruct o as [ft id pl|ft id]; destruct ft; try destruct pl; cbn; intro H; try (split; reflexivity);
    exfalso; apply H; reflexivity.
Qed.

Lemma fits_in ps frags o : fits ps frags -> In o (concat frags) ->
  exists p, In p ps /\ accepts p o = true.
Proof.
  induction 1 as [|p f ps' fr Hf HF IH]; cbn; intro Hin; [contradiction|].
  apply in_app_or in Hin as [Hin|Hin].
  - exists p. split; [left; reflexivity|exact (forallb_In Hf Hin)].
  - destruct (IH Hin) as [q [Hq Ha]]. exists q. split; [right; exact Hq|exact Ha].
Qed.
Lemma fits_kinds (P : nat -> Prop) ps frags : fits ps frags ->
  (forall p, In p ps -> P (rank p)) -> forall o, In o (concat frags) -> P (okind o).
Proof.
  intros HF HP o Ho. destruct (fits_in _ _ _ HF Ho) as (p & Hp & Ha).
  rewrite (accepts_kind p o Ha). exact (HP p Hp).
Qed.

(* Kinds 5 and 6 change nothing, so lower bounds on the kinds of a log's ops say what it leaves alone. *)
Lemma step_shrinks s o : 1 <= okind o ->
  incl (packs (apply_op s o)) (packs s) /\ incl (idxs (apply_op s o)) (idxs s).
Proof.
  intro H. destruct o as [[] id []|[] id]; cbn in *; auto using incl_refl, del_incl; lia.
Qed.
Lemma avail_back l : forall s b, (forall o, In o l -> 1 <= okind o) ->
  avail (apply l s) b = true -> avail s b = true.
Proof.
  induction l as [|o r IH]; intros s b H Ha; [exact Ha|].
  destruct (step_shrinks s o (H o (or_introl eq_refl))) as [P I].
  apply (avail_mono _ _ _ P I), (IH _ _ (fun x Hx => H x (or_intror Hx)) Ha).
Qed.
Lemma closedb_back l s n : (forall o, In o l -> 1 <= okind o) ->
  closedb (apply l s) n = true -> closedb s n = true.
Proof.
  unfold closedb. intros H Hc. apply forallb_forall. intros b Hb.
  exact (avail_back l s b H (forallb_In Hc Hb)).
Qed.
Lemma needed_kept_by l : forall s, (forall o, In o l -> okind o = 0 \/ 3 <= okind o) ->
  needed (apply l s) = needed s.
Proof.
  induction l as [|o r IH]; intros s H; [reflexivity|].
  rewrite apply_cons, IH by auto with datatypes. apply needed_ext.
  destruct (H o (or_introl eq_refl)) as [E|E]; destruct o as [[] id []|[] id]; cbn in *;
    try reflexivity; try discriminate E; lia.
Qed.
Lemma through_pack_kept_by l p b : forall s, (forall o, In o l -> 4 <= okind o) ->
  through_pack (apply l s) p b = through_pack s p b.
Proof.
  induction l as [|o r IH]; intros s H; [reflexivity|].
  rewrite apply_cons, IH by auto with datatypes. apply through_pack_ext.
  specialize (H o (or_introl eq_refl)). destruct o as [[] id []|[] id]; cbn in *; try reflexivity; lia.
Qed.
Lemma snap_ops_frame l : forall s, (forall o, In o l -> okind o = 1 \/ okind o = 2) ->
  packs (apply l s) = packs s /\ idxs (apply l s) = idxs s.
Proof.
  induction l as [|o r IH]; intros s H; [split; reflexivity|].
  rewrite apply_cons. destruct (IH (apply_op s o)) as [A B]; [intros; apply H; right; assumption|].
  rewrite A, B. specialize (H o (or_introl eq_refl)).
  destruct o as [ft id pl|ft id]; destruct ft; try destruct pl; cbn in H; destruct H; try discriminate;
    split; reflexivity.
Qed.
Lemma ridx_frame l : forall s,
  packs (apply (map ridx l) s) = packs s /\ snaps (apply (map ridx l) s) = snaps s /\
  incl (idxs (apply (map ridx l) s)) (idxs s).
Proof.
  induction l as [|i r IH]; intro s; [repeat split; apply incl_refl|].
  cbn [map]. rewrite apply_cons. destruct (IH (apply_op s (ridx i))) as (A & B & C).
  rewrite A, B. repeat split. eapply incl_tran; [exact C|]. cbn. apply del_incl.
Qed.
Lemma rpack_frame l : forall s,
  idxs (apply (map rpack l) s) = idxs s /\ snaps (apply (map rpack l) s) = snaps s /\
  incl (packs (apply (map rpack l) s)) (packs s).
Proof.
  induction l as [|i r IH]; intro s; [repeat split; apply incl_refl|].
  cbn [map]. rewrite apply_cons. destruct (IH (apply_op s (rpack i))) as (A & B & C).
  rewrite A, B. repeat split. eapply incl_tran; [exact C|]. cbn. apply del_incl.
Qed.

Lemma snap_ops_ok l : forall s,
  (forall o, In o l -> okind o = 1 \/ okind o = 2) ->
  (forall id n, In (Write FSnap id (PSnap n)) l -> closedb s n = true) ->
  discipline_ok s l = true.
Proof.
  (* a snapshot op leaves packs and index files alone: `closedb` of the next state computes to
     `closedb s`, and H passes to the rest of the block as it is *)
  induction l as [|o r IH]; intros s K H; [reflexivity|].
  destruct (K o (or_introl eq_refl)) as [(id & n & ->)%okind_inv|[id ->]%okind_inv];
    cbn [discipline_ok rsnap step_ok]; [rewrite (H id n) by (left; reflexivity)|];
    (apply IH; [auto with datatypes|]; intros i m Hin; exact (H i m (or_intror Hin))).
Qed.

Lemma idx_removes_ok l : forall s rest,
  (forall o, In o l -> okind o = 3) -> (forall o, In o rest -> 1 <= okind o) ->
  (forall id b, In (ridx id) l -> In b (needed s) -> avail (apply (l ++ rest) s) b = true) ->
  discipline_ok s l = true.
Proof.
  induction l as [|o r IH]; intros s rest K Kr H; [reflexivity|].
  destruct (okind_inv o 3 (K o (or_introl eq_refl))) as [id ->]. cbn [discipline_ok ridx step_ok].
  apply andb_true_iff. split.
  - (* nothing after this removal adds a pack or an index file: what is readable at the end is
       readable right after it *)
    apply forallb_forall. intros b Hb. apply orb_true_iff. right.
    apply (avail_back (r ++ rest)); [|exact (H id b (or_introl eq_refl) Hb)].
    intros o [Ho|Ho]%in_app_or; [rewrite (K o (or_intror Ho)); repeat constructor|exact (Kr o Ho)].
  - apply (IH _ rest); [auto with datatypes|exact Kr|]. intros i b Hi. exact (H i b (or_intror Hi)).
Qed.

Lemma pack_removes_ok l : forall s,
  (forall o, In o l -> okind o = 4) ->
  (forall p b, In (rpack p) l -> In b (needed s) -> through_pack s p b = false) ->
  discipline_ok s l = true.
Proof.
  induction l as [|o r IH]; intros s K H; [reflexivity|].
  destruct (okind_inv o 4 (K o (or_introl eq_refl))) as [id ->]. cbn [discipline_ok rpack step_ok].
  apply andb_true_iff. split.
  - apply forallb_forall. intros b Hb. rewrite (H id b); auto. left; reflexivity.
  - (* removing a pack changes neither `needed` nor `through_pack` *)
    apply IH; [auto with datatypes|]. intros p b Hp. exact (H p b (or_intror Hp)).
Qed.

Lemma other_step s o : okind o = 5 -> step_ok s o = true.
Proof. destruct o as [[] id []|[] id]; cbn; intro H; try discriminate H; reflexivity. Qed.
Lemma other_ok l : (forall o, In o l -> okind o = 5) -> forall s, discipline_ok s l = true.
Proof.
  induction l as [|o r IH]; intros H s; [reflexivity|].
  cbn [discipline_ok]. rewrite other_step, IH; auto with datatypes.
Qed.

Lemma unlisted_spec s' s l :
  forallb (fun o => match o with
                    | Remove FPack p => forallb (fun b => negb (through_pack s' p b)) (needed s)
                    | _ => true end) l = true ->
  forall p b, In (rpack p) l -> In b (needed s) -> through_pack s' p b = false.
Proof.
  intros H p b Hp Hb. apply forallb_forall with (x := rpack p) in H; [|exact Hp].
  apply negb_true_iff. exact (forallb_In H Hb).
Qed.

(* Any phase list whose ranks do not decrease, with every condition on the state E the log leaves behind:
   each snapshot written is closed in E; if an index file is removed, all that the snapshots of E need is
   readable in E; no removed pack is listed in E for a blob they need.  From the first index removal on the
   snapshots are those of E, and from the first op that is not a plain write on packs and index files only
   go, so E speaks for the state of every step. *)
Lemma phases_ok ps frags : fits ps frags -> forall s,
  ssorted (map rank ps) = true -> fresh s (concat frags) ->
  (forall id n, In (Write FSnap id (PSnap n)) (concat frags) -> closedb (apply (concat frags) s) n = true) ->
  (forall id x, In (ridx id) (concat frags) -> In x (needed (apply (concat frags) s)) ->
     avail (apply (concat frags) s) x = true) ->
  (forall q x, In (rpack q) (concat frags) -> In x (needed (apply (concat frags) s)) ->
     through_pack (apply (concat frags) s) q x = false) ->
  discipline_ok s (concat frags) = true.
Proof.
  induction 1 as [|p f ps fr Hf HF IH]; intros s S Hfr C1 C2 C3; [reflexivity|].
  cbn [map ssorted] in S. apply andb_true_iff in S as [S1 S2].
  assert (Kf : forall o, In o f -> okind o = rank p)
    by (intros o Ho; exact (accepts_kind p o (forallb_In Hf Ho))).
  assert (K : forall o, In o (f ++ concat fr) -> rank p <= okind o).
  { apply (fits_kinds (fun k => rank p <= k) (p :: ps) (f :: fr) (Forall2_cons _ _ Hf HF)).
    intros q [<-|Hq]; [reflexivity|]. apply Nat.leb_le. exact (forallb_In S1 (in_map rank _ _ Hq)). }
  cbn [concat] in *.
  assert (Rest : discipline_ok (apply f s) (concat fr) = true).
  { apply IH; [exact S2|exact (fresh_after _ _ _ Hfr)|intros i x Hin; rewrite <- apply_app..].
    - exact (C1 i x (in_or_app _ _ _ (or_intror Hin))).
    - exact (C2 i x (in_or_app _ _ _ (or_intror Hin))).
    - exact (C3 i x (in_or_app _ _ _ (or_intror Hin))). }
  rewrite discipline_app, Rest, andb_true_r.
  destruct (rank p) as [|[|[|[|[|k]]]]] eqn:E.
  2, 3: apply snap_ops_ok; [intros o Ho; rewrite (Kf o Ho); auto|]; intros id n Hin;
    apply (closedb_back (f ++ concat fr)); [intros o Ho; specialize (K o Ho); lia|];
    exact (C1 id n (in_or_app _ _ _ (or_introl Hin))).
  - apply plain_writes_ok; [|exact (proj1 (fresh_app _ _ _ Hfr))].
    apply forallb_forall. intros o Ho. apply plain_kind, Kf, Ho.
  - apply (idx_removes_ok f s (concat fr)); [exact Kf| |].
    { intros o Ho. specialize (K o (in_or_app _ _ _ (or_intror Ho))). lia. }
    intros id b Hid Hb. apply (C2 id); [auto with datatypes|].
    rewrite needed_kept_by; [exact Hb|auto].
  - (* only kinds from 4 up from here on: index files and snapshots stay as they are *)
    apply pack_removes_ok; [exact Kf|]. intros q x Hq Hx.
    rewrite <- (C3 q x), through_pack_kept_by; auto with datatypes.
    rewrite needed_kept_by; [exact Hx|]. intros o Ho. specialize (K o Ho). lia.
  - apply other_ok. intros o Ho. rewrite (Kf o Ho). destruct p; inversion E; reflexivity.
Qed.

Lemma unlisted_then_removal_phases U ps frags s :
  (forall o, In o U -> okind o = 4) -> fits ps frags ->
  ssorted (map rank ps) = true -> (forall p, In p ps -> rank p = 0 \/ rank p = 3 \/ rank p = 4) ->
  fresh s (U ++ concat frags) -> unindexed_unlisted s U = true ->
  needed_kept s (U ++ concat frags) = true -> removed_packs_unlisted s (U ++ concat frags) = true ->
  discipline_ok s (U ++ concat frags) = true.
Proof.
  intros HU HF S R Hfr Hun Hkeep Hunl.
  assert (K : forall o, In o (U ++ concat frags) -> okind o = 0 \/ 3 <= okind o).
  { intros o [Ho|Ho]%in_app_or; [rewrite (HU o Ho); right; repeat constructor|].
    apply (fits_kinds (fun k => k = 0 \/ 3 <= k) _ _ HF); [|exact Ho].
    intros p Hp. destruct (R p Hp) as [E|[E|E]]; rewrite E; auto. }
  rewrite discipline_app. apply andb_true_iff. split.
  - apply pack_removes_ok; [exact HU|exact (unlisted_spec _ _ _ Hun)].
  - (* no snapshot op anywhere: the snapshots of the end state are those of s *)
    apply (phases_ok ps frags HF); [exact S|exact (fresh_after _ _ _ Hfr)|..];
      rewrite <- ?apply_app, ?(needed_kept_by _ _ K).
    + intros id n Hin.
      destruct (K _ (in_or_app _ _ _ (or_intror Hin))) as [E|E]; [discriminate E|cbn in E; lia].
    + intros _ x _. exact (forallb_In Hkeep).
    + intros q x Hq. apply (unlisted_spec _ _ _ Hunl). auto with datatypes.
Qed.

Lemma writes_then_removals s a b c :
  forallb is_plain a = true -> fresh s a ->
  (forall o, In o b -> okind o = 3) -> (forall o, In o c -> okind o = 4) ->
  (forall x, In x (needed s) -> avail (apply c (apply b (apply a s))) x = true) ->
  (forall p x, In (rpack p) c -> In x (needed s) -> through_pack (apply b (apply a s)) p x = false) ->
  discipline_ok s (a ++ b ++ c) = true.
Proof.
  intros Pa Fa B C Hk Hu. rewrite !discipline_app, plain_writes_ok by assumption.
  assert (N1 : needed (apply a s) = needed s) by exact (needed_ext _ _ (plain_snaps a s Pa)).
  assert (N2 : needed (apply b (apply a s)) = needed s).
  { rewrite <- N1. apply needed_kept_by. intros o Ho. rewrite (B o Ho). right. constructor. }
  rewrite (idx_removes_ok b _ c), pack_removes_ok; auto.
  - rewrite N2. exact Hu.
  - intros o Ho. rewrite (C o Ho). repeat constructor.
  - intros _ x _. rewrite N1, apply_app. apply Hk.
Qed.

Lemma ssorted_app x : forall y,
  ssorted x = true -> ssorted y = true -> (forall a b, In a x -> In b y -> a <= b) ->
  ssorted (x ++ y) = true.
Proof.
  induction x as [|a x IH]; cbn; intros y Hx Hy Hc; [exact Hy|].
  apply andb_true_iff in Hx as [H1 H2]. apply andb_true_iff. split.
  - rewrite forallb_app, H1. cbn. apply forallb_forall. intros b Hb. apply Nat.leb_le. apply Hc; auto.
  - apply IH; auto.
Qed.

Lemma order_ok1_spec ps : order_ok1 ps = true ->
  ssorted (map rank ps) = true /\ forall p, In p ps -> rank p <= 2.
Proof.
  unfold order_ok1. intros [Hc Hs]%andb_true_iff. split; [exact Hs|]. intros p Hp.
  apply Nat.leb_le. exact (forallb_In Hc Hp).
Qed.
Lemma order_ok2_tail_spec ps : order_ok2_tail ps = true ->
  ssorted (map rank ps) = true /\ forall p, In p ps -> rank p = 0 \/ rank p = 3 \/ rank p = 4.
Proof.
  unfold order_ok2_tail. intros [Hc Hs]%andb_true_iff. split; [exact Hs|]. intros p Hp.
  apply forallb_forall with (x := p) in Hc; [|exact Hp]. destruct p; try discriminate Hc; cbn; auto.
Qed.
Lemma order_ok_other_spec ps : order_ok_other ps = true -> forall p, In p ps -> rank p = 5.
Proof.
  intros Ho p Hp. assert (Hk := forallb_In Ho Hp). destruct p; try discriminate Hk. reflexivity.
Qed.
