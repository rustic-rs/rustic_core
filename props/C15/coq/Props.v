(* C15 — property theorems.  Model.v part 1 mirrors backend/dry_run.rs + the trait defaults of
   backend/decrypt.rs; part 2 interprets the per-entry call-site table that extract.py
   regenerates from crates/core/src into Extracted.v on every run. *)
From Coq Require Import String List Bool NArith.
From Verif.C15 Require Import ModelBase Extracted Model Proofs.
Import ListNotations.
Local Open Scope string_scope.
Local Open Scope list_scope.

(* For EVERY sequence of calls made through the wrapper with dry_run = true - own methods and
   the inherited trait defaults save_file / save_file_uncompressed / save_list / delete_list /
   hash_write_full_uncompressed - the inner backend sees no write, no remove, no create, no
   setter; hence the raw storage under it sees nothing at all.  hash_plain / hash_enc (SHA-256
   of plain / encrypted bytes) are arbitrary. *)
Theorem dry_run_no_effect : forall (hash_plain hash_enc : N -> id) (calls : list call),
  forallb (fun o => negb (mutating o)) (flat_map (dr_call hash_plain hash_enc true) calls) = true /\
  flat_map (lower hash_enc) (flat_map (dr_call hash_plain hash_enc true) calls) = [].
Proof.
  intros hp he calls.
  assert (Hq : quiet (flat_map (dr_call hp he true) calls)) by apply quiet_flat_map, dr_call_dry_quiet.
  split; [exact Hq | exact (quiet_lower_nil he _ Hq)].
Qed.
Print Assumptions dry_run_no_effect.

(* with dry_run = false the wrapper is the identity *)
Theorem dry_run_off_transparent : forall (hash_plain hash_enc : N -> id) (calls : list call),
  flat_map (dr_call hash_plain hash_enc false) calls = flat_map (plain_call hash_plain hash_enc) calls.
Proof. intros; apply flat_map_ext, dr_call_off. Qed.
Print Assumptions dry_run_off_transparent.

(* the six mutating methods of DryRunBackend have the swallowing shape in the source *)
Theorem mutating_methods_swallowed :
  map dr_shape [MWriteBytes; MRemove; MCreate; MHashWriteFull; MSetZstd; MSetExtraVerify]
  = [SwallowIfDry; SwallowIfDry; SwallowIfDry; SwallowIfDry; SwallowIfDry; SwallowIfDry].
Proof. reflexivity. Qed.
Print Assumptions mutating_methods_swallowed.

(* the trait defaults route through the wrapper's own methods exactly as the model assumes *)
Theorem defaults_as_in_source : forall d, default_route d = model_route d.
Proof. destruct d; reflexivity. Qed.
Print Assumptions defaults_as_in_source.

(* guard_dominates_<entry>: in the extracted table of the entry no storage call precedes the
   append-only guard, and every call site that can remove or replace a snapshot / index / pack
   file runs only under conditions that make the guard fire (or sits in a callee that starts
   with its own guard and is also covered by the root guard).  A removed, weakened or reordered
   guard, or a new unguarded remove, makes the corresponding statement false. *)
Theorem guard_dominates_forget : dominates (entry_facts EForget) = true.
Proof. exact guard_dominates_forget_lemma. Qed.
Print Assumptions guard_dominates_forget.
Theorem guard_dominates_prune : dominates (entry_facts EPrune) = true.
Proof. exact guard_dominates_prune_lemma. Qed.
Print Assumptions guard_dominates_prune.
Theorem guard_dominates_repair_index : dominates (entry_facts ERepairIndex) = true.
Proof. exact guard_dominates_repair_index_lemma. Qed.
Print Assumptions guard_dominates_repair_index.
Theorem guard_dominates_repair_snapshots : dominates (entry_facts ERepairSnapshots) = true.
Proof. exact guard_dominates_repair_snapshots_lemma. Qed.
Print Assumptions guard_dominates_repair_snapshots.
Theorem guard_dominates_rewrite : dominates (entry_facts ERewrite) = true.
Proof. exact guard_dominates_rewrite_lemma. Qed.
Print Assumptions guard_dominates_rewrite.
Theorem guard_dominates_rewrite_trees : dominates (entry_facts ERewriteTrees) = true.
Proof. exact guard_dominates_rewrite_trees_lemma. Qed.
Print Assumptions guard_dominates_rewrite_trees.
Theorem guard_dominates_apply_config : dominates (entry_facts EApplyConfig) = true.
Proof. exact guard_dominates_apply_config_lemma. Qed.
Print Assumptions guard_dominates_apply_config.
(* strength of the guards as found in the source: forget / prune / repair index refuse
   unconditionally under append-only, repair snapshots and rewrite iff their delete / forget option
   is set, apply_config unless it switches append-only off (with refusal_iff_guard this fixes
   exactly which calls are refused) *)
Theorem guards_as_documented :
  f_guard (entry_facts EForget) = Some [] /\
  f_guard (entry_facts EPrune) = Some [] /\
  f_guard (entry_facts ERepairIndex) = Some [] /\
  (exists f, f_guard (entry_facts ERepairSnapshots) = Some [(f, true)]) /\
  (exists f, f_guard (entry_facts ERewrite) = Some [(f, true)] /\
             f_guard (entry_facts ERewriteTrees) = Some [(f, true)]) /\
  f_guard (entry_facts EApplyConfig) = Some [(F_set_append_only_is_false, false)].
Proof. repeat split; try reflexivity; eexists; try split; reflexivity. Qed.
Print Assumptions guards_as_documented.

(* entries without a guard: no call site that can touch a protected file at all
   (delete_key removes a key file, which is outside the property's file classes) *)
Theorem guard_dominates_unguarded_entries :
  forallb (fun e => dominates (entry_facts e))
    [EBackup; EDeleteKey; EAddKey; ECopyInto; EMerge; ESaveSnapshots; EInitHot] = true.
Proof. exact guard_dominates_unguarded_entries_lemma. Qed.
Print Assumptions guard_dominates_unguarded_entries.
(* the two hot/cold repair entries have no guard and only copy files between the parts *)
Theorem hotcold_entries_only_copy :
  hotcold_shape (entry_facts ERepairHotcold) = true /\ hotcold_shape (entry_facts ERepairHotcoldPacks) = true.
Proof. split; now apply hotcold_shaped. Qed.
Print Assumptions hotcold_entries_only_copy.

(* Every direct storage call outside the backend layer lies in a function that belongs to a
   modelled entry point (or to the packer / indexer / init implementation). *)
Theorem inventory_closed : inventory_closed_b = true.
Proof. vm_compute; reflexivity. Qed.
Print Assumptions inventory_closed.

(* For EVERY sequence of modelled public operations, every option valuation and every choice of
   file names: an operation that starts in a state with append_only = true either is refused
   with an empty effect list, or completes and none of its effects removes or replaces a stored
   snapshot / index / pack file (destroys: a remove, or a write under a caller-chosen name that
   exists, of a file other than key / config; a file of unknown type counts).  For the two hot/cold
   repair entries this needs the premise that the copied names are missing in the part they are
   written to. *)
Theorem append_only_no_destruction : forall st ops st0 o r effs,
  In (st0, o, r, effs) (run st ops) -> st_ao st0 = true -> hotcold_missing_only st0 o ->
  (r = Refused /\ effs = []) \/
  (r = Done /\ Forall (fun e => destroys (st_names st0) e = false) effs).
Proof.
  intros st ops st0 o r effs Hin%run_In Hao Hhc.
  destruct (entry_run Hin) as [(_ & H)|(_ & -> & H)];
    [left; exact H | right; split; [reflexivity | exact (H Hao _ Hhc)]].
Qed.
Print Assumptions append_only_no_destruction.

(* refused operations fail before touching storage - in every state *)
Theorem refused_before_any_effect : forall st ops st0 o effs,
  In (st0, o, Refused, effs) (run st ops) -> effs = [].
Proof.
  intros st ops st0 o effs Hin%run_In.
  now destruct (entry_run Hin) as [(_ & _ & H)|(_ & H & _)].
Qed.
Print Assumptions refused_before_any_effect.

(* an operation is refused iff its own guard fires (append_only and the guard's option test) *)
Theorem refusal_iff_guard : forall e ao v pl,
  is_hotcold e = false ->
  fst (run_entry (entry_facts e) ao v pl) = Refused <->
  (exists g, f_guard (entry_facts e) = Some g /\ guard_fires ao v g = true).
Proof.
  intros e ao v pl _. rewrite <- fires_iff.
  destruct (run_entry (entry_facts e) ao v pl) as [r effs] eqn:Hr.
  destruct (entry_run Hr) as [(-> & -> & _)|(-> & -> & _)]; now split.
Qed.
Print Assumptions refusal_iff_guard.

(* every entry point with a dry-run flag: with the flag set no storage call site runs *)
Theorem dry_run_commands_no_effect : forall e ao v pl,
  has_dry e = true -> v F_dry_run = true ->
  snd (run_entry (entry_facts e) ao v pl) = [].
Proof. intros e ao v pl He Hv. exact (run_entry_dry _ ao v pl (all_dry_complete e He) Hv). Qed.
Print Assumptions dry_run_commands_no_effect.

(* Stored vs. in-memory configuration.  The guards read the config the handle holds in memory; the
   property is about the stored one.  apply_config with a storage fault at ANY of its config writes
   (nothing stored / first stored then failure / stored but error reported), in BOTH directions of the
   change - the order of set_config and save_config, the failure branch, and the order of the cold and
   hot write are regenerated from commands/config.rs: a handle that was at least as restrictive as
   the stored cold config before the command is so afterwards. *)
Theorem handle_never_less_restrictive : forall f new_ao s,
  handle_covers_store s ->
  handle_covers_store (config_step config_set_before_save config_restricts_on_failure config_cold_before_hot f new_ao s).
Proof. exact (config_step_covers_store config_cold_before_hot). Qed.
Print Assumptions handle_never_less_restrictive.

(* enabling: the handle ends append-only whatever it held and whatever got stored *)
Theorem failed_enable_handle_tracks_store : forall f s,
  let s' := config_step config_set_before_save config_restricts_on_failure config_cold_before_hot f true s in
  c_cold s' = true -> c_handle s' = true.
Proof. intros f s s' _. apply config_step_enable. Qed.
Print Assumptions failed_enable_handle_tracks_store.

(* hence: whenever the stored cold config is append-only after the (possibly failed) command, the
   handle refuses, before any effect, every call that meets the option test of its entry's guard *)
Theorem stored_append_only_still_refused : forall f new_ao s e v pl g,
  handle_covers_store s ->
  let s' := config_step config_set_before_save config_restricts_on_failure config_cold_before_hot f new_ao s in
  c_cold s' = true -> is_hotcold e = false ->
  f_guard (entry_facts e) = Some g -> forallb (holds v) g = true ->
  run_entry (entry_facts e) (c_handle s') v pl = (Refused, []).
Proof.
  intros f new_ao s e v pl g Hs s' Hc _ Hg Hv. subst s'.
  rewrite (handle_never_less_restrictive f new_ao s Hs Hc).
  destruct (run_entry (entry_facts e) true v pl) as [r effs] eqn:Hr.
  destruct (entry_run Hr) as [(_ & -> & ->)|(Hf & _)]; [reflexivity|].
  unfold fires, guard_fires in Hf. rewrite Hg, Hv in Hf. discriminate.
Qed.
Print Assumptions stored_append_only_still_refused.

(* the shape before the repair (failed save leaves the handle with the new config) broke the
   invariant when disabling - fixed finding config-disable-failed-handle-unlocked *)
Theorem old_shape_unlocks_handle_refuted :
  exists f s, c_handle s = c_cold s /\ c_hot s = c_cold s /\
    let s' := config_step true false config_cold_before_hot f false s in
    c_cold s' = true /\ c_handle s' = false.
Proof. exists FailFirst, (mk_cfg true true true). vm_compute; auto. Qed.
Print Assumptions old_shape_unlocks_handle_refuted.

(* The Indexer (index/indexer.rs; MAX_COUNT, the shape of save / finalize / add_with regenerated from
   the source): however often finalize is called, no index file is written unless a pack was added. *)
Theorem indexer_silent_without_add : forall evs,
  forallb is_finalize evs = true ->
  ix_run indexer_save_needs_packs indexer_max_count (mk_ix 0 0) evs = 0%N.
Proof. exact (ix_run_only_finalize indexer_max_count). Qed.
Print Assumptions indexer_silent_without_add.

(* Dry-run, derived: with the flag set no sink site of the entry's table runs, so the indexer sees
   no add, so the finalize calls the entry makes (however many, guarded or not - repair_index and
   prune call it unconditionally) write nothing. *)
Theorem dry_run_indexer_silent : forall e v pl k,
  has_dry e = true -> v F_dry_run = true ->
  ix_run indexer_save_needs_packs indexer_max_count (mk_ix 0 0)
    (ix_events v (f_pre (entry_facts e) ++ f_post (entry_facts e)) pl ++ repeat IxFinalize k) = 0%N.
Proof.
  intros e v pl k Hd Hv. pose proof (all_dry_complete e Hd) as Hc. unfold dry_complete in Hc.
  rewrite (ix_events_dry v _ pl Hv Hc). apply ix_run_only_finalize.
  apply forallb_forall. now intros x ->%repeat_spec.
Qed.
Print Assumptions dry_run_indexer_silent.

(* The dry-run flag on its way from the entry point to the place that tests it: at every call of an
   inlined callee that takes `opts` or `dry_run` (backup -> archive on each of its three branches,
   rewrite* -> process_snapshots, repair_hotcold* -> correct_missing_files) the value handed over is
   the entry's own flag - `opts` passed on, cloned, or rebuilt with `dry_run` carried over; a rebuilt
   option struct that takes dry_run from Default loses the condition in the table (and breaks
   dry_run_commands_no_effect as well). *)
Theorem dry_flag_flows_unchanged : forallb snd dry_flag_flow = true.
Proof. vm_compute; reflexivity. Qed.
Print Assumptions dry_flag_flows_unchanged.

(* TreeModifier / Rewriter (blob/tree/modify.rs, rewrite.rs): packer.add under !self.dry_run, finalize
   body under `if !self.dry_run`, the flag stored by new and handed on by Rewriter::new, no other write -
   the dry-run condition of their constructor sites in the table rests on this. *)
Theorem tree_modifier_writes_dry_guarded : tree_modifier_dry_guarded = true.
Proof. reflexivity. Qed.
Print Assumptions tree_modifier_writes_dry_guarded.
