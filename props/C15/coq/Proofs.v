(* C15 — lemmas.  The wrapper is treated call by call.  The command layer rests on one fact about
   a run of sites (sites_run_Forall) and on the soundness of the two table checks for any table
   (run_entry_dominated, run_entry_hotcold); the extracted call-site table enters the lemmas only
   through three evaluated checks (all_dominated, hotcold_shaped, all_dry_complete), and entry_run
   puts the two together for its entries.  The examples ex_* evaluate single runs. *)
From Coq Require Import String List Bool NArith.
From Verif.C15 Require Import ModelBase Extracted Model.
Import ListNotations.
Local Open Scope string_scope.
Local Open Scope list_scope.

Lemma flat_map_nil_all : forall {A B} (f : A -> list B) l, (forall x, f x = []) -> flat_map f l = [].
Proof. induction l; intros; cbn; [reflexivity | now rewrite H, IHl]. Qed.

Definition quiet (l : list iop) : Prop := forallb (fun o => negb (mutating o)) l = true.

Lemma quiet_flat_map : forall {A} (f : A -> list iop) l, (forall x, quiet (f x)) -> quiet (flat_map f l).
Proof. unfold quiet; intros A f l H; induction l; cbn; [reflexivity | now rewrite forallb_app, H]. Qed.

Lemma dr_call_dry_quiet : forall hp he c, quiet (dr_call hp he true c).
Proof.
  destruct c; try reflexivity.
  - destruct m; reflexivity.
  - destruct encrypted; reflexivity.
  - apply quiet_flat_map; intros; destruct encrypted; reflexivity.
  - apply quiet_flat_map; reflexivity.
Qed.

Lemma quiet_lower_nil : forall he l, quiet l -> flat_map (lower he) l = [].
Proof.
  unfold quiet; induction l as [|o l IH]; cbn; [reflexivity|].
  intros [Ho Hl]%andb_true_iff. rewrite (IH Hl). destruct o; try discriminate; reflexivity.
Qed.

Lemma dr_call_off : forall hp he c, dr_call hp he false c = plain_call hp he c.
Proof.
  (* no induction for CDeleteList: flat_map of singletons and map are fixpoints with convertible bodies *)
  destruct c; try reflexivity. destruct m; reflexivity.
Qed.

Lemma cond_mem_In : forall c l, cond_mem c l = true -> In c l.
Proof.
  unfold cond_mem; intros c l H. apply existsb_exists in H as [x [Hx He]].
  unfold cond_eqb in He. apply andb_true_iff in He as [H1 H2].
  apply N.eqb_eq in H1. apply Bool.eqb_prop in H2.
  destruct c, x; cbn in *; subst; assumption.
Qed.

Lemma running_cond : forall v s c,
  conds_hold v s = true -> cond_mem c (s_conds s) = true -> holds v c = true.
Proof. intros v s c Hs Hm. exact (proj1 (forallb_forall _ _) Hs c (cond_mem_In _ _ Hm)). Qed.

Lemma root_covers_conds : forall v g s,
  root_covers g s = true -> conds_hold v s = true -> forallb (holds v) g = true.
Proof.
  unfold root_covers; intros v g s Hc Hs. rewrite forallb_forall in *.
  intros c Hin. exact (running_cond v s c Hs (Hc c Hin)).
Qed.

Lemma destroys_effect_of : forall names s x,
  destroys names (effect_of s x) =
  site_capable s && match s_kind s with KWriteBytes => existsb (N.eqb (snd x)) names | _ => true end.
Proof.
  unfold effect_of, site_capable; intros names s x.
  destruct (s_kind s); cbn; rewrite ?andb_true_r; reflexivity.
Qed.

(* the payload of a site is a member of pl or, when pl is too short, empty: hence `In ids pl` *)
Lemma sites_run_Forall : forall (P : effect -> Prop) ao v ss pl,
  (forall s, In s ss -> conds_hold v s = true ->
     s_guarded s && ao = false /\ forall ids x, In ids pl -> In x ids -> P (effect_of s x)) ->
  exists effs, sites_run ao v ss pl = (Done, effs) /\ Forall P effs.
Proof.
  induction ss as [|s r IH]; intros pl H; cbn [sites_run].
  - exists []; split; [reflexivity | constructor].
  - destruct (IH (tl pl)) as [e' [He' HP']].
    { intros s' Hs' Hc. destruct (H s' (or_intror Hs') Hc) as [Hg HP]. split; [exact Hg|].
      intros ids x Hids. apply HP. destruct pl; [destruct Hids | now right]. }
    unfold site_run. destruct (conds_hold v s) eqn:Hc.
    + destruct (H s (or_introl eq_refl) Hc) as [Hg HP]. rewrite Hg, He'.
      eexists; split; [reflexivity|]. apply Forall_app; split; [|assumption].
      apply Forall_forall; intros e [x [<- Hx]]%in_map_iff.
      destruct pl as [|ids pl']; [destruct Hx|]. apply (HP ids x); [now left | assumption].
    + rewrite He'. eexists; split; [reflexivity | assumption].
Qed.

Definition fires (f : efacts) (ao : bool) (v : valuation) : bool :=
  match f_guard f with Some g => guard_fires ao v g | None => false end.

Lemma fires_iff : forall f ao v,
  fires f ao v = true <-> exists g, f_guard f = Some g /\ guard_fires ao v g = true.
Proof.
  unfold fires; intros f ao v; destruct (f_guard f) as [g|]; split.
  - eauto.
  - now intros [g' [[= <-] H]].
  - discriminate.
  - now intros [g [[=] _]].
Qed.

Lemma run_entry_no_pre : forall f ao v pl, f_pre f = [] ->
  run_entry f ao v pl = if fires f ao v then (Refused, []) else sites_run ao v (f_post f) pl.
Proof.
  unfold run_entry, fires; intros f ao v pl ->; cbn.
  destruct (match f_guard f with Some g => guard_fires ao v g | None => false end); [reflexivity|].
  now destruct (sites_run ao v (f_post f) pl).
Qed.

Lemma dominates_inv : forall f, dominates f = true ->
  f_pre f = [] /\
  forall s, In s (f_post f) ->
    (site_capable s = false /\ s_guarded s = false) \/ (exists g, f_guard f = Some g /\ root_covers g s = true).
Proof.
  unfold dominates; intros f H.
  destruct (f_guard f) as [g|]; apply andb_true_iff in H as [Hpre Hpost];
    (split; [now destruct (f_pre f)|]); intros s Hs; rewrite forallb_forall in Hpost; apply Hpost in Hs.
  - apply orb_true_iff in Hs as [[Hc%negb_true_iff Hg%negb_true_iff]%andb_true_iff|Hs]; [left | right]; eauto.
  - apply andb_true_iff in Hs as [Hc%negb_true_iff Hg%negb_true_iff]; left; auto.
Qed.

Lemma run_entry_dominated : forall {f ao v pl r effs},
  dominates f = true -> run_entry f ao v pl = (r, effs) ->
  (fires f ao v = true /\ r = Refused /\ effs = []) \/
  (fires f ao v = false /\ r = Done /\
   (ao = true -> forall names, Forall (fun x => destroys names x = false) effs)).
Proof.
  intros f ao v pl r effs [Hpre Hpost]%dominates_inv Hrun. rewrite (run_entry_no_pre _ _ _ _ Hpre) in Hrun.
  destruct (fires f ao v) eqn:Hf; [left; now inversion Hrun | right].
  destruct (sites_run_Forall (fun e => ao = true -> forall names, destroys names e = false) ao v (f_post f) pl)
    as [effs' [He HP]].
  - intros s Hs Hc. destruct (Hpost s Hs) as [[Hcap ->]|[g [Hg Hr]]].
    + split; [reflexivity | intros; now rewrite destroys_effect_of, Hcap].
    + (* s runs, so the conditions of the root guard hold; it did not fire, so append-only is off *)
      unfold fires in Hf; rewrite Hg in Hf; unfold guard_fires in Hf.
      rewrite (root_covers_conds v g s Hr Hc), andb_true_r in Hf. subst ao.
      split; [apply andb_false_r | discriminate].
  - rewrite He in Hrun; injection Hrun as <- <-. repeat split.
    intros Hao names. eapply Forall_impl; [|exact HP]. cbv beta; auto.
Qed.

(* the two hot/cold repair entries: copies of files; harmless when the names are missing in the
   part they are written to *)
Definition fresh_payload (names : list id) (pl : list (list (bool * id))) : Prop :=
  forall (l : list (bool * id)) (x : bool * id), In l pl -> In x l -> existsb (N.eqb (snd x)) names = false.
Definition hotcold_missing_only (st : state) (o : op) : Prop :=
  is_hotcold (o_entry o) = true -> fresh_payload (st_names st) (o_payload o).

Lemma hotcold_shape_inv : forall f, hotcold_shape f = true ->
  f_guard f = None /\ f_pre f = [] /\
  forall s, In s (f_post f) -> s_guarded s = false /\ (s_kind s = KWriteBytes \/ site_capable s = false).
Proof.
  unfold hotcold_shape; intros f H.
  destruct (f_guard f); [discriminate|]. destruct (f_pre f); [|discriminate].
  rewrite forallb_forall in H. do 2 (split; [reflexivity|]).
  intros s [Hg%negb_true_iff Hk]%H%andb_true_iff. split; [exact Hg|].
  destruct (s_kind s); (now left) || (right; now apply negb_true_iff).
Qed.

Lemma run_entry_hotcold : forall {f ao v pl r effs},
  hotcold_shape f = true -> run_entry f ao v pl = (r, effs) ->
  fires f ao v = false /\ r = Done /\
  forall names, fresh_payload names pl -> Forall (fun x => destroys names x = false) effs.
Proof.
  intros f ao v pl r effs (Hg & Hpre & Hpost)%hotcold_shape_inv Hrun.
  rewrite (run_entry_no_pre _ _ _ _ Hpre) in Hrun. unfold fires in *; rewrite Hg in *.
  destruct (sites_run_Forall (fun e => forall names, fresh_payload names pl -> destroys names e = false)
              ao v (f_post f) pl) as [effs' [He HP]].
  - intros s [-> Hk]%Hpost _. split; [reflexivity|]. intros ids x Hids Hx names Hf.
    rewrite destroys_effect_of. destruct Hk as [-> | ->]; [rewrite (Hf ids x Hids Hx); apply andb_false_r | reflexivity].
  - rewrite He in Hrun. injection Hrun as <- <-. repeat split.
    intros names Hf. eapply Forall_impl; [|exact HP]. cbv beta; auto.
Qed.

Lemma all_dominated : forall e, is_hotcold e = false -> dominates (entry_facts e) = true.
Proof. destruct e; intros H; try discriminate; vm_compute; reflexivity. Qed.

(* entry by entry: the family `guard_dominates_<entry>` that the C15 entry of MANIFEST.json names *)
Lemma guard_dominates_forget_lemma : dominates (entry_facts EForget) = true.
Proof. exact (all_dominated EForget eq_refl). Qed.
Lemma guard_dominates_prune_lemma : dominates (entry_facts EPrune) = true.
Proof. exact (all_dominated EPrune eq_refl). Qed.
Lemma guard_dominates_repair_index_lemma : dominates (entry_facts ERepairIndex) = true.
Proof. exact (all_dominated ERepairIndex eq_refl). Qed.
Lemma guard_dominates_repair_snapshots_lemma : dominates (entry_facts ERepairSnapshots) = true.
Proof. exact (all_dominated ERepairSnapshots eq_refl). Qed.
Lemma guard_dominates_rewrite_lemma : dominates (entry_facts ERewrite) = true.
Proof. exact (all_dominated ERewrite eq_refl). Qed.
Lemma guard_dominates_rewrite_trees_lemma : dominates (entry_facts ERewriteTrees) = true.
Proof. exact (all_dominated ERewriteTrees eq_refl). Qed.
Lemma guard_dominates_apply_config_lemma : dominates (entry_facts EApplyConfig) = true.
Proof. exact (all_dominated EApplyConfig eq_refl). Qed.
Lemma guard_dominates_unguarded_entries_lemma :
  forallb (fun e => dominates (entry_facts e))
    [EBackup; EDeleteKey; EAddKey; ECopyInto; EMerge; ESaveSnapshots; EInitHot] = true.
Proof. cbn [forallb]. rewrite !all_dominated by reflexivity. reflexivity. Qed.

Lemma hotcold_shaped : forall e, is_hotcold e = true -> hotcold_shape (entry_facts e) = true.
Proof. destruct e; intros H; try discriminate; vm_compute; reflexivity. Qed.

Lemma entry_run : forall {e ao v pl r effs},
  run_entry (entry_facts e) ao v pl = (r, effs) ->
  (fires (entry_facts e) ao v = true /\ r = Refused /\ effs = []) \/
  (fires (entry_facts e) ao v = false /\ r = Done /\
   (ao = true -> forall names, (is_hotcold e = true -> fresh_payload names pl) ->
      Forall (fun x => destroys names x = false) effs)).
Proof.
  intros e ao v pl r effs Hrun. destruct (is_hotcold e) eqn:Hh.
  - right. destruct (run_entry_hotcold (hotcold_shaped e Hh) Hrun) as (Hf & Hr & H). auto.
  - destruct (run_entry_dominated (all_dominated e Hh) Hrun) as [H|(Hf & Hr & H)]; [now left | right; auto].
Qed.

Lemma run_In : forall ops st st0 o r effs,
  In (st0, o, r, effs) (run st ops) ->
  run_entry (entry_facts (o_entry o)) (st_ao st0) (o_flags o) (o_payload o) = (r, effs).
Proof.
  induction ops as [|o' ops IH]; intros st st0 o r effs Hin; [destruct Hin|].
  cbn in Hin. unfold run_op in Hin.
  destruct (run_entry (entry_facts (o_entry o')) (st_ao st) (o_flags o') (o_payload o')) as [r' e'] eqn:Hr.
  destruct Hin as [[= <- <- <- <-]|Hin]; [assumption | eapply IH; eassumption].
Qed.

Lemma dry_site_silent : forall v s, v F_dry_run = true -> cond_mem dry_cond (s_conds s) = true ->
  conds_hold v s = false.
Proof.
  intros v s Hv Hm. apply not_true_is_false. intros H.
  pose proof (running_cond v s dry_cond H Hm) as Hd. unfold holds, dry_cond in Hd; cbn in Hd.
  rewrite Hv in Hd. discriminate.
Qed.

Lemma sites_run_dry : forall ao v ss pl, v F_dry_run = true ->
  forallb (fun s => cond_mem dry_cond (s_conds s)) ss = true ->
  sites_run ao v ss pl = (Done, []).
Proof.
  induction ss as [|s r IH]; intros pl Hv Hs; cbn [sites_run]; [reflexivity|].
  cbn [forallb] in Hs. apply andb_true_iff in Hs as [H1 H2].
  unfold site_run. now rewrite (dry_site_silent v s Hv H1), (IH (tl pl) Hv H2).
Qed.

Lemma run_entry_dry : forall f ao v pl, dry_complete f = true -> v F_dry_run = true ->
  snd (run_entry f ao v pl) = [].
Proof.
  unfold dry_complete, run_entry; intros f ao v pl Hd Hv. rewrite forallb_app in Hd.
  apply andb_true_iff in Hd as [H1 H2].
  rewrite (sites_run_dry ao v (f_pre f) pl Hv H1).
  destruct (match f_guard f with Some g => guard_fires ao v g | None => false end); [reflexivity|].
  now rewrite (sites_run_dry ao v (f_post f) _ Hv H2).
Qed.

Lemma ix_events_dry : forall v ss pl, v F_dry_run = true ->
  forallb (fun s => cond_mem dry_cond (s_conds s)) ss = true -> ix_events v ss pl = [].
Proof.
  induction ss as [|s r IH]; intros pl Hv Hs; [reflexivity|].
  cbn [forallb] in Hs. apply andb_true_iff in Hs as [H1 H2].
  cbn [ix_events]. now rewrite (dry_site_silent v s Hv H1), andb_false_r, (IH (tl pl) Hv H2).
Qed.

Lemma all_dry_complete : forall e, has_dry e = true -> dry_complete (entry_facts e) = true.
Proof. destruct e; intros H; try discriminate; vm_compute; reflexivity. Qed.

(* set_config before save_config, and the restricting failure branch: the stored cold flag is the
   new one or, when its write did not happen, the old one; after a failure the handle holds
   new || old. *)
Lemma config_step_covers_store : forall cold_first f new_ao s,
  handle_covers_store s -> handle_covers_store (config_step true true cold_first f new_ao s).
Proof.
  unfold handle_covers_store; intros cold_first f new_ao s H.
  destruct f, cold_first; cbn; intros Hc; try (now rewrite Hc).
  all: rewrite (H Hc); apply orb_true_r.
Qed.

Lemma config_step_enable : forall restrict cold_first f s,
  c_handle (config_step true restrict cold_first f true s) = true.
Proof. destruct f, cold_first; reflexivity. Qed.

Definition cstep := config_step config_set_before_save config_restricts_on_failure config_cold_before_hot.

(* enabling with the second (hot) write failing leaves the hot copy behind; a disabling whose
   first write fails changes nothing; one that succeeds switches all three off; one that is stored
   but reported as an error leaves the handle append-only *)
Example ex_config_step :
  cstep FailSecond true (mk_cfg false false false) = mk_cfg true false true /\
  cstep FailFirst false (mk_cfg true true true) = mk_cfg true true true /\
  cstep NoFault false (mk_cfg true true true) = mk_cfg false false false /\
  cstep SecondStoredButErr false (mk_cfg true true true) = mk_cfg false false true.
Proof. repeat split; reflexivity. Qed.

Lemma ix_run_only_finalize : forall maxc evs,
  forallb is_finalize evs = true -> ix_run true maxc (mk_ix 0 0) evs = 0%N.
Proof.
  induction evs as [|e r IH]; intros H; [reflexivity|].
  cbn [forallb] in H. apply andb_true_iff in H as [He Hr].
  destruct e; [discriminate|]. cbn [ix_run ix_step]. now rewrite (IH Hr).
Qed.

(* the self-save of add_with: 60 000 blobs in packs of 7 000 -> one file when the count reaches
   MAX_COUNT, one at finalize; in one pack -> the self-save only; a second finalize re-saves the
   pending file; a save that does not ask for a pack (last line) writes a file after no add.
   Under the two premises the example stands whatever is extracted: a save made unconditional in
   the source breaks indexer_silent_without_add, not this. *)
Example ex_indexer :
  indexer_max_count = 50000%N -> indexer_save_needs_packs = true ->
  ix_run indexer_save_needs_packs indexer_max_count (mk_ix 0 0)
    (map (fun b => IxAdd b false) [7000; 7000; 7000; 7000; 7000; 7000; 7000; 7000; 4000]%N ++ [IxFinalize]) = 2%N /\
  ix_run indexer_save_needs_packs indexer_max_count (mk_ix 0 0) [IxAdd 60000 false; IxFinalize] = 1%N /\
  ix_run indexer_save_needs_packs indexer_max_count (mk_ix 0 0) [IxAdd 5 true; IxAdd 5 false; IxFinalize; IxFinalize] = 3%N /\
  ix_run false 50000 (mk_ix 0 0) [IxFinalize] = 1%N.
Proof. intros -> ->. repeat split; vm_compute; reflexivity. Qed.

Definition ex_hash (d : N) : id := (1000 + d)%N.

(* without dry_run the same calls do reach the inner backend and the storage *)
Example ex_wrapper_live :
  flat_map (dr_call ex_hash ex_hash false) [CSaveFile true Snapshot 1; CDeleteList Pack [1; 2]; CWriteBytes Index 7]%N
  = [IHashWrite Snapshot 1; IRemove Pack 1; IRemove Pack 2; IWrite Index 7]%N /\
  flat_map (lower ex_hash) (flat_map (dr_call ex_hash ex_hash false) [CSaveFile true Snapshot 1; CDeleteList Pack [1; 2]]%N)
  = [RawWrite Snapshot 1001; RawRemove Pack 1; RawRemove Pack 2]%N /\
  flat_map (dr_call ex_hash ex_hash true) [CSaveFile true Snapshot 1; CDeleteList Pack [1; 2]; CWriteBytes Index 7; CReadFull Index 7]%N
  = [IReadFull Index 7]%N.
Proof. repeat split; reflexivity. Qed.

Definition ex_flags (l : list (flag * bool)) : valuation :=
  fun f => match find (fun p => N.eqb (fst p) f) l with Some p => snd p | None => false end.
Definition ex_st (ao : bool) := mk_state ao [5; 6; 7]%N.

(* forget: refused with no effect under append-only; removes the snapshot otherwise *)
Example ex_forget :
  run (ex_st true) [mk_op EForget (ex_flags []) [[(false, 5%N)]]]
    = [(ex_st true, mk_op EForget (ex_flags []) [[(false, 5%N)]], Refused, [])] /\
  (let '(r, effs, st') := run_op (ex_st false) (mk_op EForget (ex_flags []) [[(false, 5%N)]]) in
   r = Done /\ effs = [Remove None 5%N] /\ existsb (destroys [5; 6; 7]%N) effs = true /\ st_names st' = [6; 7]%N).
Proof. split; vm_compute; repeat split; reflexivity. Qed.

Definition ex_live : valuation := fun f => negb (N.eqb f F_dry_run).
Definition ex_dry : valuation := fun _ => true.
Definition is_hashed_write (e : effect) : bool := match e with WriteHashed _ _ => true | _ => false end.

(* backup under append-only completes and only adds content-addressed files; its dry run adds nothing *)
Example ex_backup :
  (let '(r, effs, _) := run_op (ex_st true) (mk_op EBackup ex_live [[(false, 11); (true, 12)]; [(false, 13)]]%N) in
   r = Done /\ forallb is_hashed_write effs = true /\ In (WriteHashed (Some Pack) 11%N) effs) /\
  (let '(r, effs, _) := run_op (ex_st true) (mk_op EBackup ex_dry [[(false, 11); (true, 12)]; [(false, 13)]]%N) in
   r = Done /\ effs = []).
Proof. split; vm_compute; repeat split; auto. Qed.

(* apply_config: refused unless it switches append-only off - the one allowed way out; after it
   the same forget goes through *)
Example ex_config_way_out :
  map (fun x => (st_ao (fst (fst (fst x))), snd (fst x),
                 forallb (fun e => match e with WriteHashed (Some Config) _ | Remove None _ => true | _ => false end) (snd x)))
      (run (ex_st true)
         [mk_op EApplyConfig (ex_flags []) [[(false, 0%N)]];
          mk_op EApplyConfig (ex_flags [(F_set_append_only_is_false, true)]) [[(false, 0%N)]];
          mk_op EForget (ex_flags []) [[(false, 5%N)]]])
  = [(true, Refused, true); (true, Done, true); (false, Done, true)] /\
  snd (last (run (ex_st true)
         [mk_op EApplyConfig (ex_flags [(F_set_append_only_is_false, true)]) [[(false, 0%N)]];
          mk_op EForget (ex_flags []) [[(false, 5%N)]]]) (ex_st true, mk_op EForget (ex_flags []) [], Done, []))
  = [Remove None 5%N].
Proof. split; vm_compute; reflexivity. Qed.

(* the premise of the hot/cold repair entries is needed: copying over an existing name destroys *)
Example ex_hotcold_premise_needed :
  let v := ex_flags [(18%N, true)] in
  existsb (destroys [5; 6; 7]%N)
    (snd (run_entry (mk_efacts None [] [mk_site KWriteBytes None [] false]) true v [[(false, 5%N)]])) = true /\
  existsb (destroys [5; 6; 7]%N)
    (snd (run_entry (mk_efacts None [] [mk_site KWriteBytes None [] false]) true v [[(false, 9%N)]])) = false.
Proof. split; vm_compute; reflexivity. Qed.

(* a table with the guard after the first storage call, or with an unguarded remove, is rejected *)
Example ex_dominates_rejects :
  dominates (mk_efacts (Some []) [mk_site KDeleteList None [] false] []) = false /\
  dominates (mk_efacts None [] [mk_site KDeleteList None [] false]) = false /\
  dominates (mk_efacts (Some [(14%N, true)]) [] [mk_site KDeleteList None [] false]) = false /\
  dominates (mk_efacts (Some [(14%N, true)]) [] [mk_site KDeleteList None [(14%N, true)] false]) = true /\
  dominates (mk_efacts None [] [mk_site KRemove (Some Key) [] false]) = true.
Proof. repeat split; reflexivity. Qed.
