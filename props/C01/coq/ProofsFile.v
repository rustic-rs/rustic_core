(* C01 — from the chunk list a file is stored as to the bytes every read-back returns:
   data packer / indexer -> index lookup -> dump / read_at.  Props.v puts property C06's
   chunker theorems in front (the chunk list exists and concatenates to the source bytes). *)
From Verif.Base Require Import Tactics.
From Verif.C01 Require Import Model ModelTree ProofsRead ProofsPipe.
Local Open Scope N_scope.

Definition reads_back (cs : list bytes) (src : bytes) : Prop :=
  dump cs = src /\
  (blen src < USIZE_MAX -> forall off len, off <= USIZE_MAX ->
     read_at cs off len = firstn (N.to_nat len) (skipn (N.to_nat off) src)).

Lemma concat_reads_back cs src : concat cs = src -> reads_back cs src.
Proof.
  intros <-. split; [apply dump_is_concat_lemma|].
  intros Hlen off len _. apply read_at_slice, Hlen.
Qed.

(* the chunks go through the data packer under the id `H chunk`; after finalize the content list
   `map H cs` reads back as `cs` *)
Lemma read_blobs_stored (H : bytes -> N) typed evs cs :
  (typed = false -> NoCrossTypeCollision (added evs)) ->
  Consistent (added evs) -> complete (run typed evs) = true ->
  (forall c, In c cs -> In (EAdd Data (H c) c) evs) ->
  read_blobs (run typed evs) (map H cs) = Some cs.
Proof.
  intros NC HC Hcomp. induction cs as [|c r IH]; intro Hall; [reflexivity|].
  cbn [map read_blobs].
  rewrite (roundtrip_general typed evs NC HC Hcomp Data (H c) c) by (apply Hall; left; reflexivity).
  rewrite IH by (intros x Hx; apply Hall; right; assumption). reflexivity.
Qed.
