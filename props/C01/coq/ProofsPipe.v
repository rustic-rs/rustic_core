(* C01 — packer / indexer pipeline of one run: every blob handed to a packer is retrievable by
   (type, id) once both packers are finalized — for every schedule of filter / pack / flush /
   write / index steps.  With the typed `indexed` set unconditionally; with the untyped set
   only when no id is used under both blob types (and refuted otherwise).  One invariant `Inv`,
   kept by every step; that a pack is indexed only after its write is one of its fields. *)
From Verif.Base Require Import Tactics.
From Verif.C01 Require Import Model.
Local Open Scope N_scope.

(* hypotheses on the blobs of a run (U = all blobs handed to the packers) *)
Definition Consistent (U : list blob) : Prop :=
  forall a b, In a U -> In b U -> b_id a = b_id b -> b_data a = b_data b.
Definition NoCrossTypeCollision (U : list blob) : Prop :=
  forall a b, In a U -> In b U -> b_id a = b_id b -> b_tpe a = b_tpe b.

Lemma btype_eqb_eq a b : btype_eqb a b = true <-> a = b.
Proof. destruct a, b; cbn; split; intro; congruence. Qed.

Lemma btype_dec (a b : btype) : {a = b} + {a <> b}.
Proof. decide equality. Qed.

Lemma pack_has_true p id : pack_has p id = true -> exists b', In b' p /\ b_id b' = id.
Proof.
  unfold pack_has. intro H. apply existsb_exists in H. destruct H as [b' [H1 H2]].
  exists b'. split; [assumption | apply N.eqb_eq; assumption].
Qed.

(* the shape of a step: packer t becomes p, the other packer stays, the three global
   components are given *)
Definition put (t : btype) (p : pk) (w : list pack) (i : list (btype * N)) (x : list pack) (s : st) : st :=
  match t with Data => mkst p (pT s) w i x | Tree => mkst (pD s) p w i x end.

Lemma set_pk_put t p s : set_pk t p s = put t p (written s) (indexed s) (idx s) s.
Proof. destruct t; reflexivity. Qed.
Lemma mkst_put t p w i x s : mkst (pD (set_pk t p s)) (pT (set_pk t p s)) w i x = put t p w i x s.
Proof. destruct t; reflexivity. Qed.
Lemma get_put_same t p w i x s : get_pk t (put t p w i x s) = p.
Proof. destruct t; reflexivity. Qed.
Lemma get_put_other t t' p w i x s : t' <> t -> get_pk t' (put t p w i x s) = get_pk t' s.
Proof. destruct t, t'; intro H; try reflexivity; congruence. Qed.

Lemma put_globals t p w i x s :
  written (put t p w i x s) = w /\ indexed (put t p w i x s) = i /\ idx (put t p w i x s) = x.
Proof. destruct t; auto. Qed.

Lemma get_set_same t p s : get_pk t (set_pk t p s) = p.
Proof. destruct t; reflexivity. Qed.
Lemma get_set_other t t' p s : t' <> t -> get_pk t' (set_pk t p s) = get_pk t' s.
Proof. destruct t, t'; intro H; try reflexivity; congruence. Qed.
Lemma set_pk_globals t p s :
  written (set_pk t p s) = written s /\ indexed (set_pk t p s) = indexed s /\ idx (set_pk t p s) = idx s.
Proof. destruct t; auto. Qed.

(* the blobs on their way through a packer *)
Definition pipe (p : pk) : list blob := q1 p ++ q2 p ++ cur p ++ concat (wq p) ++ concat (pend p).

Lemma in_pipe_iff x a1 a2 c wr pe :
  In x (pipe (mkpk a1 a2 c wr pe)) <-> In x a1 \/ In x a2 \/ In x c \/ In x (concat wr) \/ In x (concat pe).
Proof. unfold pipe. cbn [q1 q2 cur wq pend]. rewrite !in_app_iff. reflexivity. Qed.

(* membership in the pipe of an explicit `mkpk`: both sides to disjunctions, then case by case *)
Local Ltac in_pipe :=
  rewrite ?in_pipe_iff, ?concat_app; cbn [concat]; rewrite ?app_nil_r, ?in_app_iff; cbn [In];
  try split; intros;
  repeat match goal with H : _ \/ _ |- _ => destruct H | H : False |- _ => destruct H end;
  subst; auto 10.

Lemma run_ind typed (P : list ev -> st -> Prop) :
  P [] st0 -> (forall l s e, P l s -> P (l ++ [e]) (step typed s e)) -> forall evs, P evs (run typed evs).
Proof.
  intros H0 HS evs. induction evs as [|e l IH] using rev_ind; [exact H0|].
  unfold run. rewrite fold_left_app. apply HS, IH.
Qed.

(* index only after the write: what the index lists, and what waits to be listed, is on the backend *)
Definition Wr (s : st) : Prop :=
  incl (idx s) (written s) /\ forall t, incl (pend (get_pk t s)) (written s).

(* every blob handed in stays covered: a blob with its id is on its way through the packer
   of its type, or the index lists one of its type *)
Definition covered (s : st) (a : blob) : Prop :=
  exists b, b_id b = b_id a /\
    (In b (pipe (get_pk (b_tpe a) s)) \/ In b (concat (idx s)) /\ b_tpe b = b_tpe a).

(* U: all blobs of the run; A: those handed in so far.  Only coverage needs the collision
   hypothesis (a filter may drop a blob on the strength of an untyped key), so it stands in front of
   that field and the record holds on every schedule, typed or not. *)
Record Inv (typed : bool) (U A : list blob) (s : st) : Prop := {
  i_pipe : forall t b, In b (pipe (get_pk t s)) -> In b U /\ b_tpe b = t;
  i_sub : incl (concat (idx s)) U;
  i_idx : indexed s = map (fun b => ikey typed (b_tpe b) (b_id b)) (concat (idx s));
  i_wr : Wr s;
  i_cov : (typed = false -> NoCrossTypeCollision U) -> forall a, In a A -> covered s a
}.
Arguments i_pipe {typed U A s}.
Arguments i_sub {typed U A s}.
Arguments i_idx {typed U A s}.
Arguments i_wr {typed U A s}.
Arguments i_cov {typed U A s}.

(* One lemma for all steps.  Packer t goes from p to p': `new` comes in, `ix` leaves for the
   index, and whatever else leaves keeps a blob of its id behind (in p' or in the index); the
   backend only grows and holds what p' and the index then list. *)
Lemma inv_put typed U A s t p' w i x new ix :
  Inv typed U A s ->
  i = indexed s ++ map (fun b => ikey typed (b_tpe b) (b_id b)) ix ->
  concat x = concat (idx s) ++ ix ->
  (forall b, In b new -> (In b U /\ b_tpe b = t) /\ In b (pipe p')) ->
  (forall b, In b (pipe p') -> In b (pipe (get_pk t s)) \/ In b new) ->
  incl ix (pipe (get_pk t s)) ->
  ((typed = false -> NoCrossTypeCollision U) ->
   forall b, In b (pipe (get_pk t s)) -> exists b', b_id b' = b_id b /\
     (In b' (pipe p') \/ In b' (concat (idx s) ++ ix) /\ b_tpe b' = t)) ->
  incl (written s) w -> incl x w -> incl (pend p') w ->
  Inv typed U (A ++ new) (put t p' w i x s).
Proof.
  intros I Hi Hx Hnew Hin Hix Hcov Hw Hxw Hpw.
  destruct (put_globals t p' w i x s) as [Ew [Ei Ex]].
  constructor; [| | | |intro NC]; unfold covered, Wr; rewrite ?Ew, ?Ei, ?Ex, ?Hx.
  - intros t' b H. destruct (btype_dec t' t) as [->|N].
    + rewrite get_put_same in H. destruct (Hin b H) as [H'|H']; [apply (i_pipe I), H' | apply Hnew, H'].
    + rewrite get_put_other in H by assumption. apply (i_pipe I), H.
  - apply incl_app; [apply (i_sub I) | intros b H; apply (i_pipe I t), Hix, H].
  - rewrite Hi, map_app, (i_idx I). reflexivity.
  - split; [exact Hxw|]. intro t'. destruct (btype_dec t' t) as [->|N].
    + rewrite get_put_same. exact Hpw.
    + rewrite get_put_other by assumption. intros k Hk. apply Hw, (proj2 (i_wr I) t'), Hk.
  - intros a Ha. apply in_app_iff in Ha. destruct Ha as [Ha|Ha].
    + destruct (i_cov I NC a Ha) as [b [Hid [Hb|[Hb Ht]]]].
      * destruct (btype_dec (b_tpe a) t) as [E|N].
        -- rewrite E in *. rewrite get_put_same.
           destruct (Hcov NC b Hb) as [b' [Hid' H']]. exists b'. split; [congruence | exact H'].
        -- exists b. rewrite get_put_other by exact N. auto.
      * exists b. rewrite in_app_iff. auto.
    + destruct (Hnew a Ha) as [[_ Ht] Hp]. exists a. rewrite Ht, get_put_same. auto.
Qed.

(* steps that leave the index alone and let nothing in (`A ++ []` is what `A ++ added [e]` computes
   to in step_inv for every event but EAdd) *)
Lemma inv_local typed U A s t p' w :
  Inv typed U A s ->
  incl (pipe p') (pipe (get_pk t s)) ->
  ((typed = false -> NoCrossTypeCollision U) ->
   forall b, In b (pipe (get_pk t s)) -> exists b', b_id b' = b_id b /\
     (In b' (pipe p') \/ In b' (concat (idx s)) /\ b_tpe b' = t)) ->
  incl (written s) w -> incl (pend p') w ->
  Inv typed U (A ++ []) (put t p' w (indexed s) (idx s) s).
Proof.
  intros I Hin Hcov Hw Hpw. apply (inv_put typed U A s t p' w _ _ [] []); rewrite ?app_nil_r; auto.
  - intros b [].
  - intros b [].
  - intros k Hk. apply Hw, (i_wr I), Hk.
Qed.

(* ... in particular those that only move blobs from one stage of packer t to the next *)
Lemma inv_move typed U A s t p' w :
  Inv typed U A s -> (forall b, In b (pipe p') <-> In b (pipe (get_pk t s))) ->
  incl (written s) w -> incl (pend p') w ->
  Inv typed U (A ++ []) (put t p' w (indexed s) (idx s) s).
Proof.
  intros I H. apply inv_local; [assumption | intros b; apply H|].
  intros _ b Hb. exists b. split; [reflexivity | left; apply H, Hb].
Qed.

(* ... and those that drop a blob b because the filter says "already there": its key is in
   `indexed`, or its id is in the current pack; either way a blob with its id stays.  The untyped
   key says nothing about the type: that is where NoCrossTypeCollision is needed. *)
Lemma inv_drop typed U A s t p' b :
  Inv typed U A s ->
  (forall x, In x (pipe (get_pk t s)) <-> x = b \/ In x (pipe p')) ->
  incl (cur (get_pk t s)) (pipe p') ->
  indexer_has typed s t (b_id b) || pack_has (cur (get_pk t s)) (b_id b) = true ->
  incl (pend p') (written s) ->
  Inv typed U (A ++ []) (put t p' (written s) (indexed s) (idx s) s).
Proof.
  intros I Hp Hcur H Hpw. apply inv_local; [assumption | intros x Hx; apply Hp; auto| |apply incl_refl|exact Hpw].
  intros NC x Hx. apply Hp in Hx. destruct Hx as [->|Hx]; [|exists x; auto].
  assert (Hb : In b (pipe (get_pk t s))) by (apply Hp; auto).
  apply orb_true_iff in H. destruct H as [H|H].
  - apply existsb_exists in H. destruct H as [k [Hk He]]. rewrite (i_idx I) in Hk. apply in_map_iff in Hk.
    destruct Hk as [b' [<- Hb']]. apply andb_true_iff in He. destruct He as [E1 E2].
    apply N.eqb_eq in E2. cbn [ikey fst snd] in E1, E2. exists b'.
    split; [congruence|]. right. split; [assumption|]. destruct typed.
    + apply btype_eqb_eq in E1. congruence.
    + destruct (i_pipe I t b Hb) as [HbU <-].
      apply (NC eq_refl); [apply (i_sub I), Hb' | exact HbU | congruence].
  - destruct (pack_has_true _ _ H) as [b' [H1 H2]]. exists b'. auto.
Qed.

Lemma step_inv typed U A s e :
  Inv typed U A s -> incl (added [e]) U ->
  Inv typed U (A ++ added [e]) (step typed s e).
Proof.
  intros I HU. pose proof (i_pipe I) as Ht. pose proof (i_wr I) as [Hx Hp].
  destruct e as [t id d|t|t|t|t|t]; cbn [step added]; specialize (Ht t); specialize (Hp t);
    destruct (get_pk t s) as [a1 a2 c wr pe] eqn:P; cbn [q1 q2 cur wq pend] in *.
  - rewrite set_pk_put.
    apply (inv_put typed U A s t _ _ _ _ [mkblob t id d] []); rewrite ?P, ?app_nil_r; auto using incl_refl.
    + intros b [<-|[]]. split; [split; [apply HU; left|]; reflexivity | in_pipe].
    + intro b. in_pipe.
    + intros b [].
    + intros _ b Hb. exists b. split; [reflexivity | left; revert Hb; in_pipe].
  - destruct a1 as [|b r]; [rewrite app_nil_r; exact I|]. rewrite !set_pk_put.
    destruct (_ || _) eqn:H.
    + apply (inv_drop typed U A s t _ b); rewrite ?P; try assumption; intro x; in_pipe.
    + apply inv_move; [assumption| |apply incl_refl|exact Hp]. rewrite P. intro x. in_pipe.
  - destruct a2 as [|b r]; [rewrite app_nil_r; exact I|]. rewrite !set_pk_put.
    destruct (_ || _) eqn:H.
    + apply (inv_drop typed U A s t _ b); rewrite ?P; try assumption; intro x; in_pipe.
    + apply inv_move; [assumption| |apply incl_refl|exact Hp]. rewrite P. intro x. in_pipe.
  - destruct c as [|b r]; [rewrite app_nil_r; exact I|]. rewrite set_pk_put.
    apply inv_move; [assumption| |apply incl_refl|exact Hp]. rewrite P. intro x. in_pipe.
  - destruct wr as [|pkf r]; [rewrite app_nil_r; exact I|]. rewrite mkst_put.
    apply inv_move; [assumption| |apply incl_appl, incl_refl|].
    + rewrite P. intro x. in_pipe.
    + apply incl_app; [apply incl_appl, Hp | apply incl_appr, incl_refl].
  - destruct pe as [|pkf r]; [rewrite app_nil_r; exact I|]. rewrite mkst_put.
    apply (inv_put typed U A s t _ _ _ _ [] pkf); rewrite ?P; auto using incl_refl.
    + rewrite concat_app. cbn [concat]. rewrite app_nil_r. reflexivity.
    + intros b [].
    + intro b. in_pipe.
    + intro b. in_pipe.
    + intros _ b Hb. exists b. split; [reflexivity|]. destruct (Ht b Hb) as [_ Hb']. revert Hb. in_pipe.
    + apply incl_app; [exact Hx | intros k [<-|[]]; apply Hp; left; reflexivity].
    + intros k Hk. apply Hp. right. exact Hk.
Qed.

Lemma added_app l1 l2 : added (l1 ++ l2) = added l1 ++ added l2.
Proof.
  induction l1 as [|e r IH]; [reflexivity|]. destruct e; cbn [app added]; rewrite IH; reflexivity.
Qed.

Lemma run_inv typed evs : Inv typed (added evs) (added evs) (run typed evs).
Proof.
  set (U := added evs) at 1.
  apply (run_ind typed (fun l s => incl (added l) U -> Inv typed U (added l) s)); [| |apply incl_refl].
  - constructor; [intros [] b [] | intros b [] | reflexivity | | intros _ a []].
    split; [|intros []]; intros k [].
  - intros l s e IH HU. rewrite added_app in *. apply incl_app_inv in HU. apply step_inv; tauto.
Qed.

Lemma added_In t id d evs : In (EAdd t id d) evs -> In (mkblob t id d) (added evs).
Proof.
  induction evs as [|e r IH]; [contradiction|].
  intros [->|H]; [left; reflexivity|]. destruct e; cbn [added]; try right; auto.
Qed.

Lemma pk_empty_pipe p : pk_empty p = true -> pipe p = [].
Proof.
  unfold pk_empty, pipe. destruct (q1 p), (q2 p), (cur p), (wq p), (pend p); try discriminate.
  reflexivity.
Qed.

(* a blob handed in is retrievable as soon as its packer holds no blob of its id any more *)
Lemma retrievable typed evs t id d :
  (typed = false -> NoCrossTypeCollision (added evs)) ->
  Consistent (added evs) ->
  In (EAdd t id d) evs ->
  (forall b, In b (pipe (get_pk t (run typed evs))) -> b_id b <> id) ->
  get_blob (run typed evs) t id = Some d.
Proof.
  intros NC HC Hin Hout. apply added_In in Hin.
  pose proof (run_inv typed evs) as I. set (s := run typed evs) in *.
  destruct (i_cov I NC _ Hin) as [b [Hid [Hb|[Hb Ht]]]]; cbn [b_tpe b_id] in *;
    [destruct (Hout b Hb Hid)|].
  unfold get_blob.
  destruct (find (blob_is t id) (concat (idx s))) as [b'|] eqn:F.
  - (* whichever blob the lookup finds has this id, hence these bytes *)
    apply find_some in F. destruct F as [F1 F2]. apply andb_true_iff in F2. destruct F2 as [_ F2].
    apply N.eqb_eq in F2. f_equal.
    apply (HC b' (mkblob t id d)); [apply (i_sub I), F1 | exact Hin | exact F2].
  - apply (find_none _ _ F) in Hb. unfold blob_is in Hb.
    rewrite Ht, Hid, N.eqb_refl in Hb. destruct t; discriminate.
Qed.

Lemma roundtrip_general typed evs :
  (typed = false -> NoCrossTypeCollision (added evs)) ->
  Consistent (added evs) ->
  complete (run typed evs) = true ->
  forall t id d, In (EAdd t id d) evs -> get_blob (run typed evs) t id = Some d.
Proof.
  intros NC HC Hcomp t id d Hin. apply retrievable; try assumption.
  (* nothing is left in a finalized packer *)
  apply andb_true_iff in Hcomp. destruct Hcomp as [CD CT].
  destruct t; cbn [get_pk]; rewrite pk_empty_pipe by assumption; intros b [].
Qed.
