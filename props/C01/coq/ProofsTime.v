(* C01 — modification times: capture (stat -> jiff Timestamp) followed by set_times
   (Timestamp -> SystemTime -> FileTime) gives back the timespec, before and after the epoch. *)
From Verif.Base Require Import Tactics.
From Verif.C01 Require Import Model ModelTree.
Local Open Scope Z_scope.

(* the jiff representation: both fields carry the sign, |nsec| < 10^9 *)
Definition jiff_ok (j : Z * Z) : Prop :=
  - NS < snd j < NS /\ (fst j < 0 -> snd j <= 0) /\ (0 < fst j -> 0 <= snd j).

(* capture is a range check on the Timestamp of the same instant *)
Definition to_jiff (t : Z * Z) : Z * Z :=
  let (s, n) := t in if (0 <=? s) || (n =? 0) then (s, n) else (s + 1, n - NS).
Definition in_range (j : Z * Z) : bool :=
  (JIFF_MIN <=? fst j) && (fst j <=? JIFF_MAX) && negb ((fst j =? JIFF_MIN) && (snd j <? 0)).

Lemma capture_to_jiff t : capture t = if in_range (to_jiff t) then Some (to_jiff t) else None.
Proof.
  destruct t as [s n]. unfold capture, duration_since_epoch, to_jiff.
  destruct (0 <=? s); [reflexivity|]. destruct (Z.eqb_spec n 0) as [->|_]; cbn [orb].
  - rewrite Z.opp_involutive. reflexivity.
  - replace (- (- s - 1)) with (s + 1) by lia. replace (- (NS - n)) with (n - NS) by lia. reflexivity.
Qed.

Lemma capture_some t j : capture t = Some j -> j = to_jiff t.
Proof. rewrite capture_to_jiff. destruct (in_range _); congruence. Qed.

Lemma capture_defined s n : 0 <= n < NS -> JIFF_MIN <= s -> s <= JIFF_MAX ->
  capture (s, n) = Some (to_jiff (s, n)).
Proof.
  intros Hn H1 H2. rewrite capture_to_jiff. replace (in_range _) with true; [reflexivity|].
  unfold in_range, to_jiff, JIFF_MIN, JIFF_MAX, NS in *. destr_if; cbn [fst snd]; lia.
Qed.

Lemma capture_jiff_ok t j : timespec_ok t -> capture t = Some j -> jiff_ok j.
Proof.
  intros Hn H. apply capture_some in H. subst j. destruct t as [s n].
  unfold timespec_ok, to_jiff, jiff_ok, NS in *. cbn [fst snd] in *. destr_if; cbn [fst snd]; lia.
Qed.

Lemma to_jiff_instant t : fst (to_jiff t) * NS + snd (to_jiff t) = fst t * NS + snd t.
Proof. destruct t as [s n]. unfold to_jiff. destr_if; cbn [fst snd]; lia. Qed.

(* the way back: Timestamp -> SystemTime undoes to_jiff, SystemTime -> FileTime changes
   nothing on a timespec *)
Lemma system_time_to_jiff t : timespec_ok t -> system_time_of (to_jiff t) = t.
Proof.
  destruct t as [s n]. unfold timespec_ok, to_jiff, system_time_of, NS. cbn [snd]. intro Hn.
  repeat destr_if; f_equal; lia.
Qed.

Lemma filetime_of_timespec t : timespec_ok t -> filetime_of_system_time t = t.
Proof.
  destruct t as [s n]. unfold timespec_ok, filetime_of_system_time, duration_since_epoch, NS. cbn [snd].
  intro Hn. repeat destr_if; f_equal; lia.
Qed.

Lemma restore_capture t j : timespec_ok t -> capture t = Some j -> restore_time false j = t.
Proof.
  intros Hn H. apply capture_some in H. subst j. unfold restore_time.
  rewrite system_time_to_jiff by exact Hn. apply filetime_of_timespec, Hn.
Qed.

(* building the FileTime from (as_second, |subsec_nanosecond|) is wrong only before the epoch: at
   or after it both ways agree *)
Lemma direct_agrees_nonneg j : jiff_ok j -> 0 <= snd j -> (0 <= fst j) -> restore_time true j = restore_time false j.
Proof.
  destruct j as [s n]. unfold jiff_ok, restore_time, system_time_of. cbn [fst snd]. intros H Hn Hs.
  replace ((s <? 0) || (n <? 0)) with false by lia.
  rewrite filetime_of_timespec by (unfold timespec_ok; cbn [snd]; lia). f_equal. lia.
Qed.

Example ex_time : capture (-2, 750000000) = Some (-1, -250000000)
  /\ restore_time false (-1, -250000000) = (-2, 750000000)
  /\ capture (0, 0) = Some (0, 0) /\ capture (-86400, 0) = Some (-86400, 0)
  /\ restore_time false (-86400, 0) = (-86400, 0)
  /\ capture (7258118400, 123456789) = Some (7258118400, 123456789).
Proof. vm_compute. repeat split; reflexivity. Qed.
