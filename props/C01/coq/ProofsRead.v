(* C01 — ranged reads: OpenFile::read_at returns exactly the requested slice of the
   concatenated blobs; dump writes the concatenation. *)
From Verif.Base Require Import Tactics Lists.
From Verif.C01 Require Import Model.
Local Open Scope N_scope.

Section BSearch.
  Variable p : nat -> bool.
  Variable len k : nat.
  Hypothesis k_le : (k <= len)%nat.
  Hypothesis thr : forall i, (i < len)%nat -> (p i = true <-> (i < k)%nat).

  (* the loop keeps the last index of the true-prefix (0 when it is empty) inside the window *)
  Lemma bs_loop_spec : forall fuel base size,
    (size <= fuel)%nat -> (base <= pred k < base + size)%nat -> (base + size <= len)%nat ->
    bs_loop fuel p base size = pred k.
  Proof.
    induction fuel as [|f IH]; intros base size Hf Hk Hl; [lia|].
    cbn [bs_loop]. destruct (Nat.leb_spec size 1) as [E|E]; [lia|].
    pose proof (thr (base + size / 2)%nat ltac:(lia)) as T.
    destruct (p (base + size / 2)%nat); apply IH; lia.
  Qed.

  Lemma partition_point_spec : partition_point p len = k.
  Proof.
    unfold partition_point. destruct len as [|l] eqn:EL; [lia|]. rewrite <- EL in *.
    rewrite (bs_loop_spec len 0 len) by lia.
    pose proof (thr (pred k) ltac:(lia)) as T.
    destruct (p (pred k)); lia.
  Qed.
End BSearch.

Definition count_le (off : N) (l : list N) : nat := length (filter (fun x => x <=? off) l).

Lemma count_le_cons off a l :
  count_le off (a :: l) = if a <=? off then S (count_le off l) else count_le off l.
Proof. unfold count_le. cbn [filter]. destruct (a <=? off); reflexivity. Qed.

Lemma count_le_le off l : (count_le off l <= length l)%nat.
Proof.
  induction l as [|a r IH]; [apply Nat.le_refl|]. rewrite count_le_cons. cbn [length]. destr_if; lia.
Qed.

Lemma count_le_gt off l : Forall (fun x => off < x) l -> count_le off l = 0%nat.
Proof.
  induction 1 as [|a r Ha _ IH]; [reflexivity|]. rewrite count_le_cons, IH.
  apply N.leb_gt in Ha. rewrite Ha. reflexivity.
Qed.

(* in a sorted list the elements <= off are a prefix, so their number is the threshold the
   binary search looks for *)
Lemma sorted_threshold off : forall l, StronglySorted N.le l ->
  forall i, (i < length l)%nat -> ((nth i l 0 <=? off) = true <-> (i < count_le off l)%nat).
Proof.
  induction l as [|a r IH]; intros HS i Hi; [cbn in Hi; lia|].
  inversion HS as [|? ? HSr Hall]; subst. cbn [length] in Hi.
  rewrite count_le_cons. destruct (a <=? off) eqn:E.
  - destruct i as [|j]; cbn [nth]; [split; [lia | intros _; exact E]|].
    rewrite (IH HSr j) by lia. lia.
  - rewrite count_le_gt by (eapply Forall_impl; [|exact Hall]; cbv beta; lia).
    split; [|lia]. destruct i as [|j]; cbn [nth]; [lia|]. intro H.
    assert (a <= nth j r 0) by (rewrite Forall_forall in Hall; apply Hall, nth_In; lia). lia.
Qed.

Lemma compute_start_sorted offs off : offs <> [] -> StronglySorted N.le offs ->
  compute_start offs off =
    (pred (count_le off offs), off - nth (pred (count_le off offs)) offs 0).
Proof.
  intros Hne HS. unfold compute_start. destruct offs as [|o0 r] eqn:E; [contradiction|]. rewrite <- E in *.
  rewrite (partition_point_spec _ _ (count_le off offs)); [reflexivity | apply count_le_le|].
  intros i Hi. apply sorted_threshold; assumption.
Qed.

Lemma blen_app a b : blen (a ++ b) = blen a + blen b.
Proof. unfold blen. rewrite app_length. lia. Qed.

Definition total (sizes : list N) : N := fold_right N.add 0 sizes.

Lemma total_map_blen blobs : total (map blen blobs) = blen (concat blobs).
Proof.
  induction blobs as [|d r IH]; [reflexivity|].
  cbn [map total fold_right concat]. fold (total (map blen r)). rewrite IH, blen_app. reflexivity.
Qed.

Lemma from_sizes_eq sizes :
  from_sizes sizes = match sizes with [] => [] | _ :: _ => starts_from 0 sizes ++ [USIZE_MAX] end.
Proof. destruct sizes; reflexivity. Qed.

Lemma starts_from_bounds : forall sizes s, Forall (fun x => s <= x /\ x <= s + total sizes) (starts_from s sizes).
Proof.
  induction sizes as [|a r IH]; intro s; cbn [starts_from total fold_right]; [constructor|]; fold (total r); constructor.
  - lia.
  - eapply Forall_impl; [|exact (IH (s + a))]. cbv beta. lia.
Qed.

Lemma starts_from_sorted : forall sizes s, StronglySorted N.le (starts_from s sizes).
Proof.
  induction sizes as [|a r IH]; intro s; cbn [starts_from]; constructor; [apply IH|].
  eapply Forall_impl; [|exact (starts_from_bounds r (s + a))]. cbv beta. lia.
Qed.

Lemma offsets_sorted s sizes : s + total sizes <= USIZE_MAX ->
  StronglySorted N.le (starts_from s sizes ++ [USIZE_MAX]).
Proof.
  intro H. apply StronglySorted_app; [apply starts_from_sorted | repeat constructor |].
  intros a b Ha [<-|[]]. pose proof (proj1 (Forall_forall _ _) (starts_from_bounds sizes s) a Ha) as Hb.
  cbv beta in Hb. lia.
Qed.

Lemma count_le_starts_gt s sizes off : off < s -> off < USIZE_MAX ->
  count_le off (starts_from s sizes ++ [USIZE_MAX]) = 0%nat.
Proof.
  intros H1 H2. apply count_le_gt, Forall_app. split; [|repeat constructor; assumption].
  eapply Forall_impl; [|exact (starts_from_bounds sizes s)]. cbv beta. lia.
Qed.

(* started inside (or at the end of) its first blob, or on the last blob at any offset, the loop
   copies the slice *)
Lemma read_loop_spec : forall bl o len,
  match bl with d :: r => o <= blen d \/ r = [] | [] => True end ->
  read_loop bl o len = firstn (N.to_nat len) (skipn (N.to_nat o) (concat bl)).
Proof.
  induction bl as [|d r IH]; intros o len Hpre; cbn [read_loop concat].
  { rewrite skipn_nil, firstn_nil. reflexivity. }
  destruct (N.eqb_spec len 0) as [->|E0]; [reflexivity|].
  destruct (N.ltb_spec (blen d) o) as [E1|E1].
  { destruct Hpre as [H| ->]; [lia|]. cbn [concat].
    rewrite app_nil_r, skipn_all2, firstn_nil by (unfold blen in E1; lia). reflexivity. }
  rewrite IH by (destruct r; [exact I | left; lia]).
  unfold slice, blen in *. change (N.to_nat 0) with O. cbn [skipn].
  rewrite skipn_app, firstn_app, skipn_length.
  replace (N.to_nat o - length d)%nat with O by lia. cbn [skipn].
  f_equal; [|f_equal; lia].
  (* copying min (what is left of d) len bytes is copying len bytes of what is left of d *)
  set (x := skipn (N.to_nat o) d).
  replace (N.to_nat (N.min _ _)) with (Nat.min (N.to_nat len) (length x))
    by (unfold x; rewrite skipn_length; lia).
  rewrite <- firstn_firstn, firstn_all. reflexivity.
Qed.

(* Blob by blob: the start offsets from s on, closed by the sentinel.  The number of starts
   <= off, less one, is the blob the offset falls into (or one past the last blob when even the
   sentinel is <= off). *)
Lemma read_from : forall blobs s off len,
  s <= off -> s + blen (concat blobs) < USIZE_MAX ->
  let offs := starts_from s (map blen blobs) ++ [USIZE_MAX] in
  let i := pred (count_le off offs) in
  read_loop (skipn i blobs) (off - nth i offs 0) len
  = firstn (N.to_nat len) (skipn (N.to_nat (off - s)) (concat blobs)).
Proof.
  induction blobs as [|d r IH]; intros s off len Hs Htot; cbv zeta in *;
    cbn [map starts_from app concat] in *.
  { rewrite !skipn_nil, firstn_nil. reflexivity. }
  rewrite count_le_cons. replace (s <=? off) with true by lia. rewrite blen_app in Htot.
  destruct (count_le off _) as [|c] eqn:K; cbn [pred skipn nth].
  - (* the next start is beyond off *)
    apply read_loop_spec. destruct r as [|d' r']; [right; reflexivity | left].
    cbn [map starts_from app] in K. rewrite count_le_cons in K.
    destruct (s + blen d <=? off) eqn:E; [discriminate | lia].
  - (* off is at or beyond the next start (or the sentinel, when no blob is left) *)
    assert (Hd : s + blen d <= off).
    { destruct (N.le_gt_cases (s + blen d) off) as [H|H]; [exact H|].
      rewrite count_le_starts_gt in K by lia. discriminate. }
    specialize (IH (s + blen d) off len Hd ltac:(lia)).
    rewrite K in IH. cbn [pred] in IH. rewrite IH, skipn_app, (skipn_all2 d) by (unfold blen in Hd; lia).
    cbn [app]. do 2 f_equal. unfold blen in *. lia.
Qed.

Lemma read_at_slice : forall blobs off len,
  blen (concat blobs) < USIZE_MAX ->
  read_at blobs off len = firstn (N.to_nat len) (skipn (N.to_nat off) (concat blobs)).
Proof.
  intros blobs off len Htot. unfold read_at.
  destruct blobs as [|d r]; [cbn; rewrite skipn_nil, firstn_nil; reflexivity|].
  rewrite from_sizes_eq.
  rewrite compute_start_sorted by (discriminate || (apply offsets_sorted; rewrite total_map_blen; lia)).
  replace (N.to_nat off) with (N.to_nat (off - 0)) by (f_equal; apply N.sub_0_r).
  apply read_from; lia.
Qed.

Lemma dump_is_concat_lemma : forall blobs, dump blobs = concat blobs.
Proof.
  intro blobs. unfold dump. change (concat blobs) with ([] ++ concat blobs). generalize (@nil N).
  induction blobs as [|d r IH]; intro acc; cbn [fold_left concat]; [symmetry; apply app_nil_r|].
  rewrite IH, app_assoc. reflexivity.
Qed.

Lemma total_firstn_le sizes j : total (firstn j sizes) <= total sizes.
Proof.
  revert j. induction sizes as [|a r IH]; intro j; destruct j; cbn [firstn total fold_right]; try lia.
  fold (total (firstn j r)). fold (total r). specialize (IH j). lia.
Qed.

Lemma starts_from_length s sizes : length (starts_from s sizes) = length sizes.
Proof. revert s. induction sizes as [|a r IH]; intro s; cbn; [reflexivity | rewrite IH; reflexivity]. Qed.

Lemma nth_starts_from : forall sizes s j, (j < length sizes)%nat ->
  nth j (starts_from s sizes) 0 = s + total (firstn j sizes).
Proof.
  induction sizes as [|a r IH]; intros s j Hj; [cbn in Hj; lia|].
  destruct j as [|j]; cbn [starts_from nth firstn total fold_right]; [lia|].
  fold (total (firstn j r)). cbn [length] in Hj. rewrite IH by lia. lia.
Qed.
