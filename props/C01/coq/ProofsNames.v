(* C01 — node-name codec: unescape_filename (escape_filename n) = n for every byte string, and
   the escaped name is valid UTF-8.  Both follow from the shape of what escape_filename writes
   (`esc`), established once by walking the validation automaton. *)
From Verif.Base Require Import Tactics.
From Verif.C01 Require Import Model.
Local Open Scope N_scope.

Lemma ok_hd b r : bytes_ok (b :: r) -> b < 256.
Proof. intro H. exact (Forall_inv H). Qed.
Lemma ok_tl b r : bytes_ok (b :: r) -> bytes_ok r.
Proof. intro H. exact (Forall_inv_tail H). Qed.

Lemma width1_ascii b : char_width b = 1 -> b < 128.
Proof. unfold char_width. repeat destr_if; lia. Qed.
Lemma width_not1_high b : char_width b =? 1 = false -> 128 <= b.
Proof.
  unfold char_width. destruct (b <? 128) eqn:E; intro H; [discriminate | lia].
Qed.
Lemma width_high b : 2 <= char_width b -> 128 <= b.
Proof. intro H. apply width_not1_high. lia. Qed.
Lemma cont_high b : is_cont b = true -> 128 <= b.
Proof. unfold is_cont. lia. Qed.
Lemma ok3_high a b : ok3 a b = true -> 128 <= b.
Proof. unfold ok3. lia. Qed.
Lemma ok4_high a b : ok4 a b = true -> 128 <= b.
Proof. unfold ok4. lia. Qed.

(* a well-formed multi-byte character, as the validation automaton accepts it *)
Inductive uchar : bytes -> Prop :=
| uc2 b0 b1 : char_width b0 = 2 -> is_cont b1 = true -> uchar [b0; b1]
| uc3 b0 b1 b2 : char_width b0 = 3 -> ok3 b0 b1 = true -> is_cont b2 = true -> uchar [b0; b1; b2]
| uc4 b0 b1 b2 b3 : char_width b0 = 4 -> ok4 b0 b1 = true -> is_cont b2 = true -> is_cont b3 = true ->
    uchar [b0; b1; b2; b3].

(* `esc s e`: e has, for each ASCII char of s its entry in the `push` table, for each multi-byte
   char the char itself, for each other byte its \xHH *)
Inductive esc : bytes -> bytes -> Prop :=
| esc_nil : esc [] []
| esc_asc b r e : b < 128 -> esc r e -> esc (b :: r) (esc_ascii b ++ e)
| esc_hex b r e : b < 256 -> esc r e -> esc (b :: r) (hex b ++ e)
| esc_chr c r e : uchar c -> esc r e -> esc (c ++ r) (c ++ e).

Lemma esc_hexs s : bytes_ok s -> esc s (hexs s).
Proof. induction 1; cbn [hexs flat_map]; constructor; assumption. Qed.

Lemma escape_cons b0 r0 :
  escape (b0 :: r0) =
    let s := b0 :: r0 in
    let w := char_width b0 in
    if w =? 1 then esc_ascii b0 ++ escape r0
    else if w =? 2 then
      match r0 with
      | [] => hexs s
      | b1 :: r1 => if is_cont b1 then b0 :: b1 :: escape r1 else hex b0 ++ escape r0
      end
    else if w =? 3 then
      match r0 with
      | [] => hexs s
      | b1 :: r1 =>
        if ok3 b0 b1 then
          match r1 with
          | [] => hexs s
          | b2 :: r2 => if is_cont b2 then b0 :: b1 :: b2 :: escape r2
                        else hex b0 ++ hex b1 ++ escape r1
          end
        else hex b0 ++ escape r0
      end
    else if w =? 4 then
      match r0 with
      | [] => hexs s
      | b1 :: r1 =>
        if ok4 b0 b1 then
          match r1 with
          | [] => hexs s
          | b2 :: r2 =>
            if is_cont b2 then
              match r2 with
              | [] => hexs s
              | b3 :: r3 => if is_cont b3 then b0 :: b1 :: b2 :: b3 :: escape r3
                            else hex b0 ++ hex b1 ++ hex b2 ++ escape r2
              end
            else hex b0 ++ hex b1 ++ escape r1
          end
        else hex b0 ++ escape r0
      end
    else hex b0 ++ escape r0.
Proof. reflexivity. Qed.

(* The three ways a step of the loop ends.  trunc: the input stops inside a character, all of it
   becomes \xHH.  bad: one byte of an invalid sequence becomes \xHH.  rest: what remains is left
   to the following steps. *)
Local Ltac trunc := apply esc_hexs; assumption.
Local Ltac bad := apply esc_hex; [eauto using ok_hd, ok_tl|].
Local Ltac rest IH := apply IH; [cbn [length] in *; lia | eauto using ok_tl].

Lemma escape_is_esc s : bytes_ok s -> esc s (escape s).
Proof.
  (* escape recurses on a tail up to four bytes down: induction on a bound of the length *)
  enough (G : forall n s, (length s <= n)%nat -> bytes_ok s -> esc s (escape s))
    by (apply (G (length s)); lia).
  clear s. induction n as [|n IH]; intros [|b0 r0] Hl Hok; try apply esc_nil; cbn [length] in Hl; [lia|].
  cbn [escape].
  destruct (N.eqb_spec (char_width b0) 1) as [W|_]; [apply esc_asc; [apply width1_ascii, W | rest IH]|].
  destruct (N.eqb_spec (char_width b0) 2) as [W|_].
  { destruct r0 as [|b1 r1]; [trunc|]. destruct (is_cont b1) eqn:C1; [|bad; rest IH].
    apply (esc_chr [b0; b1]); [apply uc2; assumption | rest IH]. }
  destruct (N.eqb_spec (char_width b0) 3) as [W|_].
  { destruct r0 as [|b1 r1]; [trunc|]. destruct (ok3 b0 b1) eqn:O; [|bad; rest IH].
    destruct r1 as [|b2 r2]; [trunc|]. destruct (is_cont b2) eqn:C2; [|bad; bad; rest IH].
    apply (esc_chr [b0; b1; b2]); [apply uc3; assumption | rest IH]. }
  destruct (N.eqb_spec (char_width b0) 4) as [W|_].
  { destruct r0 as [|b1 r1]; [trunc|]. destruct (ok4 b0 b1) eqn:O; [|bad; rest IH].
    destruct r1 as [|b2 r2]; [trunc|]. destruct (is_cont b2) eqn:C2; [|bad; bad; rest IH].
    destruct r2 as [|b3 r3]; [trunc|]. destruct (is_cont b3) eqn:C3; [|bad; bad; bad; rest IH].
    apply (esc_chr [b0; b1; b2; b3]); [apply uc4; assumption | rest IH]. }
  bad; rest IH.
Qed.

Lemma ug_plain c r : c <> 92 -> unescape_go (c :: r) = ocons c (unescape_go r).
Proof. intro H. cbn [unescape_go]. apply N.eqb_neq in H. rewrite H. reflexivity. Qed.

Lemma ug_bs e r1 :
  unescape_go (92 :: e :: r1) =
  match simple_escape e with
  | Some b => ocons b (unescape_go r1)
  | None =>
    if e =? 120 then
      match r1 with
      | h1 :: h2 :: r2 =>
        match from_str_radix16 [h1; h2] with
        | Some v => ocons v (unescape_go r2)
        | None => None
        end
      | _ => None
      end
    else if e =? 117 then
      match r1 with
      | h1 :: h2 :: h3 :: h4 :: r2 => unicode_escape [h1; h2; h3; h4] (unescape_go r2)
      | _ => None
      end
    else if e =? 85 then
      match r1 with
      | h1 :: h2 :: h3 :: h4 :: h5 :: h6 :: h7 :: h8 :: r2 =>
        unicode_escape [h1; h2; h3; h4; h5; h6; h7; h8] (unescape_go r2)
      | _ => None
      end
    else None
  end.
Proof. reflexivity. Qed.

Lemma ug_simple e b r : simple_escape e = Some b -> unescape_go (92 :: e :: r) = ocons b (unescape_go r).
Proof. intro H. rewrite ug_bs, H. reflexivity. Qed.

Lemma ug_ascii b t : b < 128 -> unescape_go (esc_ascii b ++ t) = ocons b (unescape_go t).
Proof.
  intro H. unfold esc_ascii.
  repeat match goal with
  | |- context [if ?x =? ?k then _ else _] =>
      destruct (N.eqb_spec x k) as [->|]; [apply ug_simple; reflexivity|]
  end.
  apply ug_plain. assumption.
Qed.

Lemma hexval_hexdigit d : d < 16 -> hexval (hexdigit d) = Some d.
Proof. intro H. unfold hexval, hexdigit. repeat destr_if; f_equal; lia. Qed.

Lemma hex_parses b : b < 256 -> from_str_radix16 [hexdigit (b / 16); hexdigit (b mod 16)] = Some b.
Proof.
  intro H. unfold from_str_radix16, parse_digits.
  replace (hexdigit (b / 16) =? 43) with false by (unfold hexdigit; destr_if; lia).
  rewrite !hexval_hexdigit by lia. f_equal. lia.
Qed.

Lemma ug_hex b t : b < 256 -> unescape_go (hex b ++ t) = ocons b (unescape_go t).
Proof. intro H. unfold hex. cbn [app unescape_go]. rewrite hex_parses by assumption. reflexivity. Qed.

Lemma ocons_oapp b p o : ocons b (oapp p o) = oapp (b :: p) o.
Proof. destruct o; reflexivity. Qed.
Lemma oapp_nil o : oapp [] o = o.
Proof. destruct o; reflexivity. Qed.

Lemma ug_hexs s t : bytes_ok s -> unescape_go (hexs s ++ t) = oapp s (unescape_go t).
Proof.
  induction 1 as [|b s Hb _ IH]; cbn [hexs flat_map app]; [symmetry; apply oapp_nil|].
  fold (hexs s). rewrite <- app_assoc, ug_hex, IH by assumption. apply ocons_oapp.
Qed.

Lemma ug_high c t : Forall (fun b => 128 <= b) c -> unescape_go (c ++ t) = oapp c (unescape_go t).
Proof.
  induction 1 as [|b c Hb _ IH]; cbn [app]; [symmetry; apply oapp_nil|].
  rewrite ug_plain, IH by lia. apply ocons_oapp.
Qed.

Lemma uchar_high c : uchar c -> Forall (fun b => 128 <= b) c.
Proof.
  destruct 1 as [b0 b1 W C1|b0 b1 b2 W O C2|b0 b1 b2 b3 W O C2 C3];
    repeat apply Forall_cons; try apply Forall_nil;
    first [apply width_high; rewrite W; discriminate | apply cont_high; assumption
          | eapply ok3_high; eassumption | eapply ok4_high; eassumption].
Qed.

Lemma unescape_go_esc s e : esc s e -> unescape_go e = Some s.
Proof.
  induction 1 as [|b r e Hb _ IH|b r e Hb _ IH|c r e Hc _ IH]; [reflexivity | | |].
  - rewrite ug_ascii, IH by assumption. reflexivity.
  - rewrite ug_hex, IH by assumption. reflexivity.
  - rewrite ug_high, IH by (apply uchar_high, Hc). reflexivity.
Qed.

Lemma ug_no_backslash s : existsb (N.eqb 92) s = false -> unescape_go s = Some s.
Proof.
  induction s as [|c r IH]; [reflexivity|].
  cbn [existsb]. intro E. apply orb_false_iff in E. destruct E as [Hc Hr].
  rewrite ug_plain, IH by (try apply N.eqb_neq; try rewrite N.eqb_sym; assumption). reflexivity.
Qed.

Lemma unescape_is_go s : unescape s = unescape_go s.
Proof.
  unfold unescape. destruct (existsb (N.eqb 92) s) eqn:E; [reflexivity|].
  symmetry. apply ug_no_backslash, E.
Qed.

Lemma unescape_escape_lemma : forall s, bytes_ok s -> unescape (escape s) = Some s.
Proof. intros s H. rewrite unescape_is_go. apply unescape_go_esc, escape_is_esc, H. Qed.

Lemma node_name_roundtrip_lemma : forall s, bytes_ok s -> node_name (escape s) = s.
Proof. intros s H. unfold node_name. rewrite unescape_escape_lemma by assumption. reflexivity. Qed.

Lemma uv_ascii1 b t : b < 128 -> utf8_valid (b :: t) = utf8_valid t.
Proof.
  intro H. cbn [utf8_valid]. unfold char_width. apply N.ltb_lt in H. rewrite H. reflexivity.
Qed.

Lemma uv_ascii b t : b < 128 -> utf8_valid (esc_ascii b ++ t) = utf8_valid t.
Proof.
  intro H. unfold esc_ascii. repeat destr_if; try reflexivity. apply uv_ascii1, H.
Qed.

Lemma hexdigit_ascii d : d < 16 -> hexdigit d < 128.
Proof. unfold hexdigit. destr_if; lia. Qed.

Lemma uv_hex b t : b < 256 -> utf8_valid (hex b ++ t) = utf8_valid t.
Proof.
  intro H. unfold hex. cbn [app].
  rewrite !uv_ascii1; try reflexivity; try lia; apply hexdigit_ascii; lia.
Qed.

Lemma uv_hexs s t : bytes_ok s -> utf8_valid (hexs s ++ t) = utf8_valid t.
Proof.
  induction 1 as [|b s Hb _ IH]; [reflexivity|].
  cbn [hexs flat_map]. fold (hexs s). rewrite <- app_assoc, uv_hex by assumption. exact IH.
Qed.

Lemma uv_char c t : uchar c -> utf8_valid (c ++ t) = utf8_valid t.
Proof.
  destruct 1 as [b0 b1 W C1|b0 b1 b2 W O C2|b0 b1 b2 b3 W O C2 C3]; cbn [app utf8_valid];
    rewrite W, ?O, ?C1, ?C2, ?C3; reflexivity.
Qed.

Lemma utf8_valid_esc s e : esc s e -> utf8_valid e = true.
Proof.
  induction 1; [reflexivity | rewrite uv_ascii | rewrite uv_hex | rewrite uv_char]; assumption.
Qed.
