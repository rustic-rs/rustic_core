(* C01 — path lookup: every entry the listing (NodeStreamer) shows is found by
   Tree::node_from_path under the path the listing gives it, and it is that very node. *)
From Verif.Base Require Import Tactics.
From Verif.C01 Require Import Model ModelTree ProofsNames.
Local Open Scope N_scope.

Definition raw_name (n : node) : bytes := node_name (n_name n).
(* a directory: no two entries with the same (unescaped) name *)
Definition names_distinct (nodes : list node) : Prop := NoDup (map raw_name nodes).
(* the stored names are what escape_filename produces *)
Definition names_escaped (nodes : list node) : Prop :=
  forall n, In n nodes -> exists raw, bytes_ok raw /\ n_name n = escape raw.

Lemma bytes_eqb_eq a b : bytes_eqb a b = true <-> a = b.
Proof.
  revert b. induction a as [|x a IH]; destruct b as [|y b]; cbn [bytes_eqb]; try (split; intro; congruence).
  rewrite andb_true_iff, IH, N.eqb_eq. split; [intros [-> ->]; reflexivity | intro H; inversion H; auto].
Qed.

Lemma find_unique {A} (key : A -> bytes) (l : list A) (n : A) :
  NoDup (map key l) -> In n l -> find (fun m => bytes_eqb (key m) (key n)) l = Some n.
Proof.
  induction l as [|a l IH]; intros ND Hin; [contradiction|].
  cbn [map] in ND. inversion ND as [|? ? Hnotin ND']; subst.
  cbn [find]. destruct (bytes_eqb (key a) (key n)) eqn:E.
  - apply bytes_eqb_eq in E. destruct Hin as [->|Hin]; [reflexivity|].
    exfalso. apply Hnotin. rewrite E. apply in_map. assumption.
  - destruct Hin as [->|Hin]; [|apply IH; assumption].
    rewrite (proj2 (bytes_eqb_eq _ _) eq_refl) in E. discriminate.
Qed.

Lemma lookup_scan_unescaped nodes n :
  names_distinct nodes -> In n nodes -> lookup false false (raw_name n) nodes = Some n.
Proof. apply (find_unique raw_name). Qed.

Lemma lookup_scan_stored nodes n :
  names_distinct nodes -> names_escaped nodes -> In n nodes -> lookup false true (raw_name n) nodes = Some n.
Proof.
  intros ND NE Hin. unfold lookup. cbn [node_key].
  destruct (NE n Hin) as [raw [Hok Hn]]. unfold raw_name at 1.
  rewrite Hn, node_name_roundtrip_lemma, <- Hn by assumption.
  (* distinct unescaped names are distinct as stored *)
  unfold names_distinct in ND. rewrite <- (map_map n_name node_name) in ND.
  apply (find_unique n_name nodes n (NoDup_map_inv _ _ ND) Hin).
Qed.

Lemma in_ls_nodes f R nodes prefix path n :
  In (path, n) (ls_nodes (S f) R nodes prefix) <->
  exists m, In m nodes /\
    (path = prefix ++ [raw_name m] /\ n = m \/
     exists id ns, n_subtree m = Some id /\ R id = Some ns /\
       In (path, n) (ls_nodes f R ns (prefix ++ [raw_name m]))).
Proof.
  cbn [ls_nodes]. rewrite in_flat_map. unfold raw_name.
  split; intros [m [Hm H]]; exists m; (split; [exact Hm|]).
  - destruct H as [E|H]; [inversion E; auto | right].
    destruct (n_subtree m) as [id|]; [|contradiction]. destruct (R id) as [ns|] eqn:Hr; [|contradiction].
    exists id, ns. auto.
  - destruct H as [[-> ->]|[id [ns [-> [-> H]]]]]; [left; reflexivity | right; exact H].
Qed.

(* A repository all of whose trees are `ok`.  The walk does not depend on how a component is looked
   up: all it needs is that every node of an `ok` tree is found in that tree under its unescaped name. *)
Section Walk.
  Variables (bsearch stored : bool) (R : repo) (ok : list node -> Prop).
  Hypothesis ok_repo : forall id nodes, R id = Some nodes -> ok nodes.
  Hypothesis step_ok : forall nodes n, ok nodes -> In n nodes -> lookup bsearch stored (raw_name n) nodes = Some n.

  (* a listed node sits in the list the listing starts from or in a tree of R, under its unescaped
     name; either way in an `ok` list *)
  Lemma listed_in_tree : forall fuel nodes prefix path n, ok nodes ->
    In (path, n) (ls_nodes fuel R nodes prefix) ->
    exists ns pre, ok ns /\ In n ns /\ path = pre ++ [raw_name n].
  Proof.
    induction fuel as [|f IH]; intros nodes prefix path n Hok Hin; [contradiction|].
    apply in_ls_nodes in Hin. destruct Hin as [m [Hm [[-> ->]|[id [ns [_ [Hr Hin]]]]]]].
    - exists nodes, prefix. auto.
    - exact (IH ns _ path n (ok_repo id ns Hr) Hin).
  Qed.

  (* node_from_path_go reads the tree of the node it stands on, so the statement starts from a
     directory node `cur` whose tree is `nodes` *)
  Lemma listed_found : forall fuel nodes prefix path n cur id,
    n_subtree cur = Some id -> R id = Some nodes ->
    In (path, n) (ls_nodes fuel R nodes prefix) ->
    exists rel, path = prefix ++ rel /\ node_from_path_go bsearch stored R cur rel = Some n.
  Proof.
    induction fuel as [|f IH]; intros nodes prefix path n cur id Hs Hr Hin; [contradiction|].
    apply in_ls_nodes in Hin. destruct Hin as [m [Hm [[-> ->]|[id' [ns [Hs' [Hr' Hin]]]]]]].
    - exists [raw_name m]. cbn [node_from_path_go]. rewrite Hs, Hr, step_ok by eauto. auto.
    - destruct (IH ns _ path n m id' Hs' Hr' Hin) as [rel [-> Hg]].
      exists (raw_name m :: rel). rewrite <- app_assoc. cbn [node_from_path_go].
      rewrite Hs, Hr, step_ok by eauto. auto.
  Qed.

  Lemma ls_found fuel root path n : In (path, n) (ls fuel R root) ->
    node_from_path bsearch stored R root path = Some n.
  Proof.
    unfold ls, node_from_path. destruct (R root) as [nodes|] eqn:Hr; [|contradiction]. intro Hin.
    destruct (listed_found fuel nodes [] path n (mknode [] (Some root) 0) root eq_refl Hr Hin) as [rel [-> Hg]].
    exact Hg.
  Qed.
End Walk.

Definition wf_repo (R : repo) : Prop := forall id nodes, R id = Some nodes -> names_distinct nodes.
Definition wf_repo_escaped (R : repo) : Prop :=
  forall id nodes, R id = Some nodes -> names_distinct nodes /\ names_escaped nodes.

Lemma node_from_path_finds_listed_scan_stored : forall R fuel root path n, wf_repo_escaped R ->
  In (path, n) (ls fuel R root) -> node_from_path false true R root path = Some n.
Proof.
  intros R fuel root path n W.
  apply (ls_found false true R (fun nodes => names_distinct nodes /\ names_escaped nodes) W).
  intros nodes m [H1 H1'] H2. apply lookup_scan_stored; assumption.
Qed.

(* binary search on the ESCAPED names over a tree sorted by RAW names loses entries:
   raw order  "q" < A < a ; stored  \"q\" sorts between A and a *)
Definition bad_tree : list node :=
  [mknode (escape [34; 113; 34]) None 1; mknode [65] None 2; mknode [97] None 3].
Definition bad_repo : repo := fun id => if id =? 0 then Some bad_tree else None.

Lemma bad_repo_tree id nodes : bad_repo id = Some nodes -> nodes = bad_tree.
Proof. unfold bad_repo. destruct (id =? 0); congruence. Qed.

Lemma bad_repo_wf : wf_repo_escaped bad_repo.
Proof.
  intros id nodes H. apply bad_repo_tree in H. subst nodes. split.
  - unfold names_distinct. vm_compute. repeat constructor; cbn; intuition discriminate.
  - intros n [<-|[<-|[<-|[]]]]; [exists [34; 113; 34] | exists [65] | exists [97]];
      (split; [repeat constructor | vm_compute; reflexivity]).
Qed.

Lemma bad_repo_sorted id nodes : bad_repo id = Some nodes ->
  StronglySorted (fun a b => bytes_cmp (raw_name a) (raw_name b) = Lt) nodes.
Proof.
  intro H. apply bad_repo_tree in H. subst nodes.
  repeat first [apply SSorted_nil | apply Forall_nil | apply SSorted_cons | apply Forall_cons];
    vm_compute; reflexivity.
Qed.

Example ex_tree : let R := bad_repo in
  wf_repo R /\ map fst (ls 3 R 0) = [[[34; 113; 34]]; [[65]]; [[97]]] /\
  node_from_path false false R 0 [[34; 113; 34]] = Some (mknode (escape [34; 113; 34]) None 1) /\
  node_from_path true false R 0 [[34; 113; 34]] = Some (mknode (escape [34; 113; 34]) None 1).
Proof.
  split; [intros id nodes H; apply (bad_repo_wf id nodes H)|].
  vm_compute. repeat split; reflexivity.
Qed.
