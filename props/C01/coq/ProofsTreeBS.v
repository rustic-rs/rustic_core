(* C01 — path lookup by binary search: correct when the key compared is the one the tree is
   sorted by (the unescaped name), as it is in the trees backup writes. *)
From Verif.Base Require Import Tactics.
From Verif.C01 Require Import Model ModelTree ProofsNames ProofsRead ProofsTree.
Local Open Scope N_scope.

Lemma bytes_cmp_eq a b : bytes_cmp a b = Eq <-> a = b.
Proof.
  revert b. induction a as [|x a IH]; destruct b as [|y b]; cbn [bytes_cmp]; try (split; intro; congruence).
  destruct (N.compare_spec x y) as [->|L|L].
  - rewrite IH. split; intro H; [subst; reflexivity | inversion H; reflexivity].
  - split; [discriminate|]. intro H. inversion H; subst. lia.
  - split; [discriminate|]. intro H. inversion H; subst. lia.
Qed.

Lemma bytes_cmp_antisym a b : bytes_cmp b a = CompOpp (bytes_cmp a b).
Proof.
  revert b. induction a as [|x a IH]; destruct b as [|y b]; cbn [bytes_cmp CompOpp]; try reflexivity.
  rewrite (N.compare_antisym x y). destruct (x ?= y); cbn [CompOpp]; [apply IH | reflexivity | reflexivity].
Qed.

Lemma bytes_cmp_trans a : forall b c, bytes_cmp a b = Lt -> bytes_cmp b c = Lt -> bytes_cmp a c = Lt.
Proof.
  induction a as [|x a IH]; intros b c H1 H2.
  - destruct b; [discriminate|]. destruct c; [discriminate | reflexivity].
  - destruct b as [|y b]; [discriminate|]. destruct c as [|z c]; [discriminate|].
    cbn [bytes_cmp] in *.
    destruct (x ?= y) eqn:E1; try discriminate; destruct (y ?= z) eqn:E2; try discriminate.
    + apply N.compare_eq_iff in E1, E2. subst. rewrite N.compare_refl. eapply IH; eassumption.
    + apply N.compare_eq_iff in E1. subst. rewrite E2. reflexivity.
    + apply N.compare_eq_iff in E2. subst. rewrite E1. reflexivity.
    + apply N.compare_lt_iff in E1. apply N.compare_lt_iff in E2.
      rewrite (proj2 (N.compare_lt_iff x z)) by (eapply N.lt_trans; eassumption). reflexivity.
Qed.

Definition raw_lt (a b : node) : Prop := bytes_cmp (raw_name a) (raw_name b) = Lt.
(* a directory as backup writes it: strictly sorted by the unescaped name *)
Definition sorted_by_raw (nodes : list node) : Prop := StronglySorted raw_lt nodes.

Lemma sorted_nth_lt d : forall l i j, sorted_by_raw l -> (i < j)%nat -> (j < length l)%nat ->
  raw_lt (nth i l d) (nth j l d).
Proof.
  induction l as [|a l IH]; intros i j HS Hij Hj; [cbn in Hj; lia|].
  inversion HS as [|? ? HS' Hall]; subst.
  destruct j as [|j]; [lia|]. cbn [length] in Hj. destruct i as [|i]; cbn [nth].
  - rewrite Forall_forall in Hall. apply Hall. apply nth_In. lia.
  - apply IH; [assumption | lia | lia].
Qed.

Lemma sorted_distinct l : sorted_by_raw l -> names_distinct l.
Proof.
  unfold names_distinct. induction 1 as [|a l HS IH Hall]; cbn [map]; constructor; [|assumption].
  intro Hin. apply in_map_iff in Hin. destruct Hin as [b [E Hb]].
  rewrite Forall_forall in Hall. specialize (Hall b Hb). unfold raw_lt in Hall.
  rewrite E, (proj2 (bytes_cmp_eq _ _) eq_refl) in Hall. discriminate.
Qed.

(* cmp orders the positions around j: the true-prefix of the search predicate `cmp != Greater`
   is 0 .. j *)
Lemma binary_search_spec cmp len j : (j < len)%nat ->
  (forall i, (i < len)%nat -> cmp i = Nat.compare i j) -> binary_search cmp len = Some j.
Proof.
  intros Hj Hcmp. unfold binary_search. destruct len as [|l] eqn:EL; [lia|]. rewrite <- EL in *.
  rewrite (bs_loop_spec _ len (S j)); try lia.
  - cbn [pred]. rewrite Hcmp, Nat.compare_refl by exact Hj. reflexivity.
  - intros i Hi. rewrite Hcmp by exact Hi.
    destruct (Nat.compare_spec i j); split; (discriminate || lia || reflexivity).
Qed.

Lemma lookup_bsearch_unescaped nodes n :
  sorted_by_raw nodes -> In n nodes -> lookup true false (raw_name n) nodes = Some n.
Proof.
  intros HS Hin. unfold lookup. cbn [node_key]. set (d := mknode [] None 0).
  destruct (In_nth nodes n d Hin) as [j [Hj Hn]].
  rewrite (binary_search_spec _ _ j Hj); [rewrite <- Hn; apply nth_error_nth', Hj|].
  (* against the name at position j of a sorted tree, position i compares as i does with j *)
  intros i Hi. fold (raw_name (nth i nodes d)). rewrite <- Hn.
  destruct (Nat.compare_spec i j) as [->|L|G].
  - apply bytes_cmp_eq. reflexivity.
  - apply (sorted_nth_lt d nodes i j HS L Hj).
  - rewrite bytes_cmp_antisym, (sorted_nth_lt d nodes j i HS G Hi). reflexivity.
Qed.

Lemma lookup_variants bsearch stored nodes n : negb (bsearch && stored) = true ->
  sorted_by_raw nodes /\ names_escaped nodes -> In n nodes ->
  lookup bsearch stored (raw_name n) nodes = Some n.
Proof.
  intros H [HS NE] Hin. destruct bsearch, stored; try discriminate.
  - apply lookup_bsearch_unescaped; assumption.
  - apply lookup_scan_stored; [apply sorted_distinct| |]; assumption.
  - apply lookup_scan_unescaped; [apply sorted_distinct|]; assumption.
Qed.

Definition wf_repo_sorted (R : repo) : Prop :=
  forall id nodes, R id = Some nodes -> sorted_by_raw nodes /\ names_escaped nodes.

Lemma node_from_path_variants_lemma : forall bsearch stored, negb (bsearch && stored) = true ->
  forall R fuel root path n, wf_repo_sorted R ->
  In (path, n) (ls fuel R root) -> node_from_path bsearch stored R root path = Some n.
Proof.
  intros bsearch stored H R fuel root path n W.
  apply (ls_found bsearch stored R _ W (fun nodes m => lookup_variants bsearch stored nodes m H)).
Qed.

Definition entry_name (e : bytes * option N * N) : bytes := fst (fst e).
Definition entries_ok (entries : list (bytes * option N * N)) : Prop :=
  Forall (fun e => bytes_ok (entry_name e)) entries /\
  StronglySorted (fun a b => bytes_cmp (entry_name a) (entry_name b) = Lt) entries.

Lemma raw_name_mk_node e : bytes_ok (entry_name e) -> raw_name (mk_node e) = entry_name e.
Proof. destruct e as [[raw sub] tag]. apply node_name_roundtrip_lemma. Qed.

Lemma backup_tree_wf entries : entries_ok entries ->
  sorted_by_raw (backup_tree entries) /\ names_escaped (backup_tree entries).
Proof.
  intros [Hok HS]. split.
  - unfold sorted_by_raw, backup_tree. induction HS as [|a l HS IH Hall]; cbn [map]; constructor.
    + apply IH. inversion Hok; assumption.
    + inversion Hok as [|? ? Ha Hl]; subst. rewrite Forall_forall in *. intros m Hm.
      apply in_map_iff in Hm. destruct Hm as [b [<- Hb]]. unfold raw_lt.
      rewrite !raw_name_mk_node by auto. apply Hall. assumption.
  - intros n Hn. unfold backup_tree in Hn. apply in_map_iff in Hn. destruct Hn as [e [<- He]].
    rewrite Forall_forall in Hok. exists (entry_name e). split; [apply Hok; assumption|].
    destruct e as [[raw sub] tag]. reflexivity.
Qed.

(* the last component of a listed path is Node::name() of the listed node, in any repository; for a
   node backup made that is the source name (raw_name_mk_node) *)
Lemma listed_last_component : forall fuel R nodes prefix path n,
  In (path, n) (ls_nodes fuel R nodes prefix) -> exists pre, path = pre ++ [raw_name n].
Proof.
  intros fuel R nodes prefix path n Hin.
  destruct (listed_in_tree R (fun _ => True) (fun _ _ _ => I) _ _ _ _ _ I Hin) as [_ [pre [_ [_ H]]]].
  exists pre. exact H.
Qed.

Lemma backup_names_listed_and_found : forall R fuel root entries e,
  wf_repo_sorted R -> R root = Some (backup_tree entries) -> entries_ok entries -> In e entries ->
  In ([entry_name e], mk_node e) (ls (S fuel) R root) /\
  forall bsearch stored, negb (bsearch && stored) = true ->
    node_from_path bsearch stored R root [entry_name e] = Some (mk_node e).
Proof.
  intros R fuel root entries e W Hr [Hok HS] He.
  assert (Hin : In ([entry_name e], mk_node e) (ls (S fuel) R root)).
  { unfold ls. rewrite Hr. apply in_ls_nodes. exists (mk_node e).
    split; [unfold backup_tree; apply in_map; assumption | left].
    rewrite raw_name_mk_node; [auto|]. rewrite Forall_forall in Hok. apply Hok. assumption. }
  split; [exact Hin|]. intros bsearch stored Hc.
  eapply node_from_path_variants_lemma; eassumption.
Qed.

Definition written_by_backup (R : repo) : Prop :=
  forall id nodes, R id = Some nodes -> exists entries, entries_ok entries /\ nodes = backup_tree entries.

Lemma written_by_backup_wf R : written_by_backup R -> wf_repo_sorted R.
Proof.
  intros W id nodes Hr. destruct (W id nodes Hr) as [entries [Hok ->]]. apply backup_tree_wf. assumption.
Qed.

Lemma backup_repo_lookup : forall bsearch stored, negb (bsearch && stored) = true ->
  forall R fuel root path n, written_by_backup R ->
  In (path, n) (ls fuel R root) -> node_from_path bsearch stored R root path = Some n.
Proof.
  intros bsearch stored Hc R fuel root path n W. apply node_from_path_variants_lemma; [assumption|].
  apply written_by_backup_wf. assumption.
Qed.

Lemma backup_repo_listing : forall fuel R nodes prefix path n, written_by_backup R ->
  (exists entries, entries_ok entries /\ nodes = backup_tree entries) ->
  In (path, n) (ls_nodes fuel R nodes prefix) ->
  exists e pre, n = mk_node e /\ bytes_ok (entry_name e) /\ path = pre ++ [entry_name e].
Proof.
  intros fuel R nodes prefix path n W Hn Hin.
  destruct (listed_in_tree R _ W _ _ _ _ _ Hn Hin) as [ns [pre [[entries [[Hb _] ->]] [Hm ->]]]].
  apply in_map_iff in Hm. destruct Hm as [e [<- He]].
  rewrite Forall_forall in Hb. exists e, pre. rewrite raw_name_mk_node by auto. auto.
Qed.
