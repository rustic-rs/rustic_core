(* C10 — the next prune, run alone to completion, closes every present snapshot: every needed blob is then
   listed UNMARKED by a present index file in a present pack that holds it. *)
From Verif.Base Require Import Tactics.
From Verif.C10 Require Import Extracted Model ProofsBase ProofsView ProofsTruth ProofsSafe.
Local Open Scope nat_scope.

Definition IFRESH (s : st) : Prop := forall f, In f (idxs s) -> fst f < nexti s.

Lemma IFRESH_init : IFRESH init.
Proof. intros f []. Qed.

Lemma IFRESH_step kd s evt s' : IFRESH s -> step kd s evt = Some s' -> IFRESH s'.
Proof.
  intros A H f Hf.
  destruct evt; step_cases H; subst s'; unfold set_bk, set_prn in *; simpl in *; auto.
  1, 2: (* BIndex, PWriteIndex *) apply in_app_iff in Hf; destruct Hf as [Hf|[<-|[]]]; [apply A in Hf; lia|simpl; lia].
  (* PRmIndex *) apply In_remove_key in Hf. apply A. tauto.
Qed.

(* what every reachable state satisfies, whatever the timing *)
Definition WF (kd : time) (s : st) : Prop := TR s /\ PRN kd s /\ IFRESH s.

Lemma WF_step kd s evt s' : WF kd s -> step kd s evt = Some s' -> WF kd s'.
Proof.
  intros (A & B & C) H. split; [eapply TR_step|split; [eapply PRN_step|eapply IFRESH_step]]; eauto.
Qed.

Lemma reachable_wf kd es s : run kd init es = Some s -> WF kd s.
Proof.
  apply (run_invariant_all kd (WF kd) (WF_step kd)).
  split; [apply TR_init|split; [apply PRN_init|apply IFRESH_init]].
Qed.

(* listed unmarked, in a file that the plan does not rebuild (so that it stays), in a present pack that holds
   the blob and is not on the delete list *)
Definition Good (s : st) (q : pst) (b : blob) : Prop :=
  exists f e pk, In f (idxs s) /\ ~ In (fst f) (prw q) /\ In e (unm (snd f)) /\ In b (snd e) /\
                 In pk (packs s) /\ fst pk = fst e /\ In b (snd pk) /\ ~ In (fst pk) (delete_list q).

Lemma Good_listed s q b : Good s q b -> ListedP s b.
Proof. intros (f & e & pk & A & _ & B & C & D & E & F & _). exists f, e, pk. repeat split; assumption. Qed.

Lemma Good_remains s s' q b :
  (forall f, In f (idxs s) -> ~ In (fst f) (prw q) -> In f (idxs s')) ->
  (forall pk, In pk (packs s) -> ~ In (fst pk) (delete_list q) -> In pk (packs s')) ->
  Good s q b -> Good s' q b.
Proof.
  intros Hi Hp (f & e & pk & A1 & A2 & A3 & A4 & A5 & A6 & A7 & A8). exists f, e, pk. auto 10.
Qed.

Definition Used (s : st) (q : pst) : Prop :=
  forall sn b, In sn (snaps s) -> In b (snd sn) -> In b (pused q).

(* By phase: until the prune writes its own index file the files it loaded
   are still there; from the scan on the blobs of all snapshots are used; the repack output exists and is not on the
   delete list; after the index write every used blob is Good. *)
Definition Solo (s : st) (q : pst) : Prop :=
  match pph q with
  | PLoaded => incl (pview q) (idxs s)
  | PScanned => incl (pview q) (idxs s) /\ Used s q
  | PPlanned => incl (pview q) (idxs s) /\ Used s q /\
                forall e, In e (pnew q) -> In e (packs s) /\ ~ In (fst e) (delete_list q)
  | PIndexed => Used s q /\ forall b, In b (pused q) -> Good s q b
  end.

Record SOLO (kd : time) (s : st) : Prop := {
  oWF : WF kd s;
  oQ : exists q, prn s = Some q /\ Solo s q
}.

Lemma SOLO_step kd s evt s' : SOLO kd s -> is_solo_prune_ev evt = true -> step kd s evt = Some s' -> SOLO kd s'.
Proof.
  intros [HW (q & Hq & S)] Hev H.
  pose proof (WF_step _ _ _ _ HW H) as HW'. destruct HW as (HTR & HP & HIF).
  (* the active prune is q: say so in the step before its cases are taken apart *)
  destruct evt; try discriminate Hev; unfold step in H; rewrite ?Hq in H; cbv iota in H; step_cases H; subst s';
    (constructor; auto; eexists; (split; [first [reflexivity|exact Hq]|]));
    unfold Solo in *; simpl;
    try (match goal with X : pph q = _ |- _ => rewrite X in S end).
  - (* Tick *) exact S.
  - (* PScan *) split; [exact S|]. intros sn b Hsn Hb. apply in_flat_map. exists sn. auto.
  - (* PPlan *) destruct S as [VE U]. split; [exact VE|split; [exact U|intros e []]].
  - (* PPack *) destruct S as (VE & U & Hnew). split; [exact VE|split; [exact U|]].
    intros e He. apply in_app_iff in He. destruct He as [He|[<-|[]]].
    + apply Hnew in He. split; [apply in_app_iff|]; tauto.
    + split; [apply in_app_iff; right; left; reflexivity|].
      intro X. apply delete_list_In in X. destruct X as (x & Hx & E & _).
      apply (dmk_lt _ _ _ HTR Hq) in Hx. simpl in E. lia.
  - (* PWriteIndex *) destruct S as (VE & U & Hnew). split; [exact U|]. intros b Hb.
    match goal with X : pph q = PPlanned |- _ => destruct (proj1 (HP q Hq) X) as (pks & OK & Hpks) end.
    match goal with F : forallb _ (pused q) = true |- _ => rewrite forallb_forall in F; pose proof (F b Hb) as Hk end.
    apply orb_true_iff in Hk. rewrite !memb_In in Hk.
    match goal with X : prw q = _ |- _ => rewrite <- X end.
    destruct (kept_listed _ _ _ _ _ OK Hk) as (e & Hbe & Hpk & Hf).
    assert (P : exists pk, In pk (packs s) /\ fst pk = fst e /\ In b (snd pk) /\ ~ In (fst pk) (delete_list q)).
    { destruct Hpk as [He|(Hin & Ho & j & Hx)]; [destruct (Hnew e He); exists e; auto|].
      destruct (owned_pack s q _ pks j e b HTR Hq Hpks Hin Ho Hx Hbe) as (pk & A1 & A2 & A3 & A4).
      exists pk. auto. }
    destruct P as (pk & P1 & P2 & P3 & P4).
    destruct Hf as [He|(j & f & Hv & Hj & He)].
    + (* the new file: its id is fresh, so the plan does not rebuild it *)
      exists (nexti s, new_index (restamp (clock s) q)), e, pk. simpl. rewrite in_app_iff. simpl.
      split; [auto|split; [|auto 10]].
      intro X. eapply plan_rw_view in X; eauto. apply in_map_iff in X. destruct X as (f & E & Hf).
      apply VE, HIF in Hf. simpl in E. lia.
    + exists (j, f), e, pk. simpl. rewrite in_app_iff. apply VE in Hv. auto 10.
  - (* PRmIndex *) destruct S as [U G]. split; [exact U|]. intros b Hb.
    apply (Good_remains s _ q b); [|auto|exact (G b Hb)].
    intros f Hf N. apply In_remove_key. split; [exact Hf|]. intro E. apply N. subst i.
    match goal with X : pph q = PIndexed, M : memb _ (pirm q) = true |- _ =>
      apply memb_In in M; exact (proj1 (proj2 (HP q Hq) X) _ M) end.
  - (* PRmPack *) destruct S as [U G]. split; [exact U|]. intros b Hb.
    apply (Good_remains s _ q b); [auto| |exact (G b Hb)].
    intros pk Hpk N. apply In_remove_key. split; [exact Hpk|]. intro E. apply N. subst p.
    match goal with X : pph q = PIndexed, M : memb _ (pdel q) = true |- _ =>
      apply memb_In in M; exact (proj2 (proj2 (HP q Hq) X) _ M) end.
Qed.

(* One complete prune that runs alone, started in a well-formed state (in which no prune is active, or it could
   not start), closes every present snapshot.  No timing hypothesis. *)
Theorem solo_prune_closes kd s es s' :
  WF kd s -> forallb is_solo_prune_ev es = true ->
  run kd s (PStart :: es ++ [PDone]) = Some s' -> all_closed s' = true.
Proof.
  intros HW Hev Hrun.
  cbn [run] in Hrun. destruct (step kd s PStart) as [s1|] eqn:E1; [|discriminate Hrun].
  rewrite run_app in Hrun. destruct (run kd s1 es) as [s2|] eqn:E2; [|discriminate Hrun].
  cbn [run] in Hrun. destruct (step kd s2 PDone) as [s3|] eqn:E3; inv Hrun.
  assert (S1 : SOLO kd s1).
  { constructor; [exact (WF_step _ _ _ _ HW E1)|].
    unfold step in E1; destruct (prn s); inv E1. eexists. split; [reflexivity|apply incl_refl]. }
  pose proof (run_invariant kd _ _ (SOLO_step kd) es s1 s2 S1 Hev E2) as [(HTR2 & HP2 & _) (q & Hq & S)].
  destruct (step_PDone _ _ _ E3) as (-> & q' & Hq' & Hph). rewrite Hq in Hq'. inv Hq'.
  apply all_closed_iff. intros sn b Hsn Hb. simpl in Hsn. change (ListedP s2 b).
  unfold Solo in S. destruct Hph as [[Hph Hrw]|Hph]; rewrite Hph in S.
  - (* nothing to do: no index file is rebuilt, so every owner is listed unmarked by a file that stays *)
    destruct S as (VE & U & _). destruct (proj1 (HP2 _ Hq) Hph) as (pks & OK & Hpks).
    destruct (plan_owner _ _ _ _ _ _ _ OK b (U sn b Hsn Hb)) as (i & e & Hbe & Hin & Ho & [Hx|(tm & _ & _ & Hi)]);
      [|rewrite Hrw in Hi; destruct Hi].
    destruct (owned_pack s2 _ _ pks i e b HTR2 Hq Hpks Hin Ho (or_introl Hx) Hbe) as (pk & Hpk & E & Hbp & _).
    destruct (dunm_view _ _ Hx) as (f & Hf & He). apply VE in Hf. exists (i, f), e, pk. auto 8.
  - (* complete run *) destruct S as [U G]. exact (Good_listed _ _ _ (G b (U sn b Hsn Hb))).
Qed.
