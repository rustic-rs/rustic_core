(* C10 — the two-phase deletion protocol against concurrent backups: under `timely`, no pack a
   running backup relies on (saw unmarked, or wrote) is ever removed, in any interleaving. *)
From Verif.Base Require Import Tactics.
From Verif.C10 Require Import Model ProofsBase ProofsView ProofsTruth.
Local Open Scope nat_scope.

Definition Present (s : st) (p : pid) : Prop := In p (map fst (packs s)).

Lemma Present_In s p : Present s p <-> exists pk, In pk (packs s) /\ fst pk = p.
Proof. unfold Present. rewrite in_map_iff. split; intros (pk & A & B); eauto. Qed.

Lemma Present_mono s s' p : incl (packs s) (packs s') -> Present s p -> Present s' p.
Proof. unfold Present. intro I. apply incl_map, I. Qed.

(* the bookkeeping of the active prune, whatever the timing: while the plan is being executed, it is a
   valid plan for a set of packs that all still exist (packs are removed only after the index write); after
   the index write, what is left to remove is part of what the plan rebuilds resp. deletes *)
Definition PRN (kd : time) (s : st) : Prop := forall q, prn s = Some q ->
  (pph q = PPlanned -> exists existing, plan_ok kd (ptime q) (pview q) (pused q) existing (pasg q) (prw q) = true /\
                                        forall p, In p existing -> Present s p) /\
  (pph q = PIndexed -> incl (pirm q) (prw q) /\ incl (pdel q) (delete_list q)).

Lemma PRN_init kd : PRN kd init.
Proof. intros q Hq. discriminate Hq. Qed.

Lemma PRN_step kd s evt s' : PRN kd s -> step kd s evt = Some s' -> PRN kd s'.
Proof.
  intros P H q' Hq'.
  destruct evt; step_cases H; subst s'; unfold set_bk, set_prn in *; simpl in *;
    try discriminate Hq'; try (exact (P q' Hq'));
    (* the prune goes on: q' is given by the event; PP and PI are the two parts for the prune before it *)
    try (injection Hq' as <-; match goal with Hq : prn s = Some _ |- _ => destruct (P _ Hq) as [PP PI] end;
         split; intro Hp; simpl in *; try discriminate Hp).
  - (* BPack *) destruct (P q' Hq') as [PP PI]. split; [|exact PI].
    intro Hp. destruct (PP Hp) as (pks & OK & Hpks). exists pks. split; [exact OK|].
    intros p0 Hp0. eapply Present_mono; [|exact (Hpks p0 Hp0)]. apply incl_appl, incl_refl.
  - (* PStart *) injection Hq' as <-. split; intro Hp; discriminate Hp.
  - (* PPlan *) eexists. split; [eassumption|]. auto.
  - (* PPack *) edestruct PP as (pks & OK & Hpks); [eassumption|]. exists pks. split; [exact OK|].
    intros p0 Hp0. eapply Present_mono; [|exact (Hpks p0 Hp0)]. apply incl_appl, incl_refl.
  - (* PWriteIndex *) split; apply incl_refl.
  - (* PRmIndex *) edestruct PI as [I D]; [eassumption|]. split; [|exact D].
    intros x Hx. apply In_remove_nat in Hx. apply I. tauto.
  - (* PRmPack *) edestruct PI as [I D]; [eassumption|]. split; [intros x []|].
    intros x Hx. apply In_remove_nat in Hx. apply D. tauto.
Qed.

Definition Expired (kd : time) (q : pst) (p : pid) : Prop :=
  exists x, In x (dmk (pview q)) /\ fst (fst (snd x)) = p /\ snd (snd x) + kd <= plstart q.

(* what the active prune may come to delete *)
Definition Del (kd : time) (q : pst) (p : pid) : Prop :=
  match pph q with
  | PLoaded | PScanned => Expired kd q p
  | _ => In p (delete_list q)
  end.

Lemma Del_in_view kd q p : Del kd q p -> exists x, In x (dmk (pview q)) /\ fst (fst (snd x)) = p.
Proof.
  unfold Del. intro H. destruct (pph q); try apply delete_list_In in H; destruct H as (x & Hx & E & _); eauto.
Qed.

Lemma Del_view_pid kd q p : Del kd q p -> In p (view_pids (pview q)).
Proof. intro H. apply Del_in_view in H. destruct H as (x & Hx & <-). exact (dmk_view_pids _ _ Hx). Qed.

Lemma Del_not_unm kd q p : Del kd q p -> ~ In p (unm_pids (pview q)).
Proof. intro H. apply Del_in_view in H. destruct H as (x & Hx & <-). apply dmk_view in Hx. tauto. Qed.

Lemma Del_lt kd s q p : TR s -> prn s = Some q -> Del kd q p -> p < nextp s.
Proof. intros T Hq D. apply Del_in_view in D. destruct D as (x & Hx & <-). exact (dmk_lt _ _ _ T Hq Hx). Qed.

(* an entry of the view whose pack exists: the pack holds the entry's blobs, and no prune whose assignment owns it
   has it on its delete list (the assignment is that of the active prune, or the one a plan is about to give it) *)
Lemma owned_pack s q asg pks i e b :
  TR s -> prn s = Some q -> (forall p, In p pks -> Present s p) -> In (fst e) pks ->
  owns (todo_of asg (fst e)) = true ->
  (In (i, e) (dunm (pview q)) \/ exists tm, In (i, (e, tm)) (dmk (pview q))) -> In b (snd e) ->
  exists pk, In pk (packs s) /\ fst pk = fst e /\ In b (snd pk) /\
             forall q', pasg q' = asg -> ~ In (fst pk) (delete_list q').
Proof.
  intros [_ A] Hq Hpks Hin Ho Hx Hb. apply Hpks, Present_In in Hin. destruct Hin as (pk & Hpk & E).
  destruct (all_prn _ _ _ A q Hq) as (V & _).
  assert (T : TRQ s e).
  { destruct Hx as [Hx|(tm & Hx)]; [exact (view_dunm _ _ _ V _ Hx)|exact (view_dmk _ _ _ V _ Hx)]. }
  exists pk. repeat split; auto.
  - exact (proj2 T pk Hpk E b Hb).
  - intros q' <-. rewrite E. apply owns_not_deleted. exact Ho.
Qed.

(* only the start of a prune makes more packs deletable: afterwards the set shrinks, because the plan deletes
   only what had expired when the prune started (`timely_b`) *)
Lemma Del_step kd s evt s' q' p :
  step kd s evt = Some s' -> timely_b kd s' = true -> prn s' = Some q' -> Del kd q' p ->
  evt = PStart \/ exists q, prn s = Some q /\ Del kd q p.
Proof.
  intros H TB Hq' D.
  destruct evt; step_cases H; subst s'; unfold set_bk, set_prn in *; simpl in *; eauto;
    try discriminate Hq'; inv Hq'; right; eexists; (split; [reflexivity|]); unfold Del in *; simpl in *;
    match goal with P : pph _ = _ |- _ => rewrite P end; try exact D.
  (* PPlan *)
  apply delete_list_In in D. simpl in D. destruct D as (x & Hx & Hp & Hdel).
  exists x. split; [exact Hx|split; [exact Hp|]].
  apply (timely_b_spec kd _ _ TB eq_refl (or_introl eq_refl) x Hx). simpl. rewrite Hp. exact Hdel.
Qed.

Definition NoDel (kd : time) (s : st) (p : pid) : Prop := forall q, prn s = Some q -> ~ Del kd q p.
Definition Safe (kd : time) (s : st) (e : entry) : Prop := Present s (fst e) /\ NoDel kd s (fst e).

(* needed: held by a running backup, listed unmarked by a present index file or by the prune's view, or
   written by the prune *)
Definition SAFE (kd : time) (s : st) : Prop := ALL (Safe kd s) (fun _ => True) s.

Lemma SAFE_init kd : SAFE kd init.
Proof. constructor; simpl; intros; try tauto. discriminate. Qed.

Lemma NoDel_step kd s evt s' p :
  step kd s evt = Some s' -> timely_b kd s' = true -> evt <> PStart -> NoDel kd s p -> NoDel kd s' p.
Proof.
  intros H TB N ND q' Hq' D.
  destruct (Del_step _ _ _ _ _ _ H TB Hq' D) as [E|(q & Hq & D0)]; [exact (N E)|exact (ND q Hq D0)].
Qed.

(* a pack is removed only from the removal list of the prune, which is part of its delete list *)
Lemma pack_step kd s evt s' pk :
  PRN kd s -> step kd s evt = Some s' -> In pk (packs s) -> NoDel kd s (fst pk) -> In pk (packs s').
Proof.
  intros P H Hpk ND.
  destruct (step_packs _ _ _ _ H) as [[E _]|[(bl & E & _)|(p & q & E & _ & Hq & Hph & Hp)]]; rewrite E.
  - exact Hpk.
  - apply in_app_iff. auto.
  - apply In_remove_key. split; [exact Hpk|]. intro X. subst p. apply (ND q Hq). unfold Del. rewrite Hph.
    exact (proj2 (proj2 (P q Hq) Hph) _ Hp).
Qed.

Lemma Safe_step kd s evt s' e :
  PRN kd s -> step kd s evt = Some s' -> timely_b kd s' = true -> evt <> PStart -> Safe kd s e -> Safe kd s' e.
Proof.
  intros P H TB N [Pr ND]. split; [|eapply NoDel_step; eauto].
  apply Present_In in Pr. destruct Pr as (pk & Hpk & E). apply Present_In. exists pk. split; [|exact E].
  eapply pack_step; eauto. rewrite E. exact ND.
Qed.

(* a prune that starts now: what a running backup holds is not expired (`timely_a`) *)
Lemma SAFE_PStart kd s s' : SAFE kd s -> timely_a kd s' = true -> step kd s PStart = Some s' -> SAFE kd s'.
Proof.
  intros [A1 A2 _] TA H. step_cases H. subst s'. unfold set_prn in *.
  match goal with |- SAFE kd ?s1 =>
    assert (U : forall f, In f (idxs s) -> IFQ (Safe kd s1) (fun _ => True) (snd f)) end.
  { intros [i f] Hf. split; [|auto]. intros e He. split; [exact (proj1 (proj1 (A2 _ Hf) e He))|].
    intros q Hq D. inv Hq. apply Del_not_unm in D. apply D, In_unm_pids. exists i, f, e. auto. }
  constructor; simpl; [|exact U|].
  - intros c Hc Hr e He. split; [exact (proj1 (A1 c Hc Hr e He))|].
    intros q Hq D. inv Hq. destruct D as (x & Hx & E & L). simpl in Hx, L. apply dmk_view in Hx.
    destruct Hx as [(f & Hf & Hm) _].
    pose proof (timely_a_spec _ _ TA c Hc Hr e He _ _ Hf Hm E) as X. simpl in X. lia.
  - intros q Hq. inv Hq. simpl. split; [exact U|split; intros ? []].
Qed.

Lemma SAFE_step kd s evt s' :
  TR s -> PRN kd s -> SAFE kd s -> timely kd s' = true -> step kd s evt = Some s' -> SAFE kd s'.
Proof.
  intros HTR P S HT H. apply timely_split in HT. destruct HT as [TA TB].
  assert (N : evt = PStart \/ evt <> PStart) by (destruct evt; auto; right; discriminate).
  destruct N as [->|N]; [eapply SAFE_PStart; eauto|].
  apply (ALL_step kd s evt s'); auto.
  - eapply ALL_mono; [| |exact S]; [|auto]. intros e. eapply Safe_step; eauto.
  - (* a fresh pack *)
    intros bl Hin. split; [apply Present_In; eexists; split; [exact Hin|reflexivity]|].
    simpl. eapply NoDel_step; eauto. intros q Hq D. apply (Del_lt _ _ _ _ HTR Hq) in D. lia.
  - (* a pack to be recovered existed when the packs were listed, and is not on the delete list *)
    intros q x Hq Hp Hx St. eapply Safe_step; eauto. destruct (proj1 (P q Hq) Hp) as (pks & OK & Hpks).
    apply stays_owns in St. split; [apply Hpks; eapply plan_mk_owner; eauto|].
    intros q0 Hq0 D. assert (q0 = q) by congruence. subst q0. unfold Del in D. rewrite Hp in D.
    exact (owns_not_deleted _ _ St D).
Qed.

Lemma SAFE_unreferenced kd s q p : SAFE kd s -> prn s = Some q -> Del kd q p ->
  (forall c, In c (bks s) -> running c = true -> forall e, In e (held c) -> fst e <> p) /\
  (forall f, In f (idxs s) -> forall e, In e (unm (snd f)) -> fst e <> p).
Proof.
  intros [A1 A2 _] Hq D. split.
  - intros c Hc Hr e He E. apply (proj2 (A1 c Hc Hr e He) q Hq). rewrite E. exact D.
  - intros f Hf e He E. apply (proj2 (proj1 (A2 f Hf) e He) q Hq). rewrite E. exact D.
Qed.

Lemma held_present_of_SAFE kd s : SAFE kd s -> held_present s = true.
Proof.
  intros [A1 _ _]. apply held_present_iff. intros c Hc R e He. apply Present_In. exact (proj1 (A1 c Hc R e He)).
Qed.
