(* C10 — shared lemmas: list helpers, reflection of the boolean observables and of `timely` / `premise`, step
   inversion and what single events do, the invariant `WANT`, runs. *)
From Verif.Base Require Import Tactics Lists.
From Verif.C10 Require Import Model.
Local Open Scope nat_scope.

Lemma memb_In x l : memb x l = true <-> In x l.
Proof. exact (existsb_Nateqb_In x l). Qed.

Lemma memb_false x l : memb x l = false <-> ~ In x l.
Proof. rewrite <- memb_In. destruct (memb x l); split; congruence. Qed.

Lemma In_replace_at {A} (y : A) l : forall n x, In x (replace_at n y l) -> x = y \/ In x l.
Proof.
  induction l as [|a l IH]; intros [|n] x H; simpl in *; try tauto.
  - destruct H; auto.
  - destruct H; auto. apply IH in H. tauto.
Qed.

Lemma In_replace_at_old {A} (y : A) l : forall n x b, nth_error l n = Some b -> In x l -> x = b \/ In x (replace_at n y l).
Proof.
  induction l as [|a l IH]; intros [|n] x b Hn H; simpl in *; try discriminate.
  - inv Hn. destruct H; auto.
  - destruct H; auto. eapply IH in H; eauto. tauto.
Qed.

Lemma In_replace_at_new {A} (y : A) l : forall n b, nth_error l n = Some b -> In y (replace_at n y l).
Proof.
  induction l as [|a l IH]; intros [|n] b Hn; simpl in *; try discriminate; auto.
  right. eapply IH; eauto.
Qed.

Lemma lookup_In {A} x (l : list (nat * A)) v : lookup x l = Some v -> In (x, v) l.
Proof.
  unfold lookup. destruct (find _ l) as [y|] eqn:F; [|discriminate].
  intro H. inv H. apply find_some in F. destruct F as [Hin E]. apply Nat.eqb_eq in E.
  destruct y; simpl in *; subst; assumption.
Qed.

Lemma In_remove_key {A} x (l : list (nat * A)) y : In y (remove_key x l) <-> In y l /\ fst y <> x.
Proof.
  unfold remove_key. rewrite filter_In. rewrite negb_true_iff, Nat.eqb_neq. intuition.
Qed.

Lemma In_remove_nat x l y : In y (remove_nat x l) <-> In y l /\ y <> x.
Proof.
  unfold remove_nat. rewrite filter_In. rewrite negb_true_iff, Nat.eqb_neq. intuition.
Qed.

Lemma In_blobs_of b es : In b (blobs_of es) <-> exists e, In e es /\ In b (snd e).
Proof. unfold blobs_of. rewrite in_flat_map. tauto. Qed.

(* the shape of every conditional section of the prune's new index, delete list and kept blobs *)
Lemma in_flat_map_if {A B} (c : A -> bool) (g : A -> list B) l y :
  In y (flat_map (fun x => if c x then g x else []) l) <-> exists x, In x l /\ c x = true /\ In y (g x).
Proof.
  rewrite in_flat_map. split; intros (x & Hx & H); exists x.
  - destruct (c x); [auto|destruct H].
  - destruct H as [-> H]. auto.
Qed.

Definition StoredP (s : st) (b : blob) : Prop := exists pk, In pk (packs s) /\ In b (snd pk).
Definition ListedP (s : st) (b : blob) : Prop :=
  exists f e pk, In f (idxs s) /\ In e (unm (snd f)) /\ In b (snd e) /\
                 In pk (packs s) /\ fst pk = fst e /\ In b (snd pk).

Lemma stored_iff s b : stored s b = true <-> StoredP s b.
Proof.
  unfold stored, StoredP. rewrite existsb_exists. split; intros (pk & H1 & H2); exists pk;
    (split; [assumption|apply memb_In; assumption]).
Qed.

Lemma listed_iff s b : listed s b = true <-> ListedP s b.
Proof.
  unfold listed, ListedP. rewrite existsb_exists. split.
  - intros (f & Hf & H). apply existsb_exists in H. destruct H as (e & He & H).
    apply andb_true_iff in H. destruct H as [Hb H]. apply existsb_exists in H.
    destruct H as (pk & Hpk & H). apply andb_true_iff in H. destruct H as [E Hb2].
    apply Nat.eqb_eq in E. apply memb_In in Hb. apply memb_In in Hb2. exists f, e, pk. tauto.
  - intros (f & e & pk & Hf & He & Hb & Hpk & E & Hb2). exists f. split; [assumption|].
    apply existsb_exists. exists e. split; [assumption|]. apply andb_true_iff. split; [apply memb_In; assumption|].
    apply existsb_exists. exists pk. split; [assumption|]. apply andb_true_iff. split; [apply Nat.eqb_eq; assumption|apply memb_In; assumption].
Qed.

Lemma snaps_forall (p : blob -> bool) (P : blob -> Prop) (l : list (sid * list blob)) :
  (forall b, p b = true <-> P b) ->
  forallb (fun sn => forallb p (snd sn)) l = true <-> forall sn b, In sn l -> In b (snd sn) -> P b.
Proof.
  intro R. rewrite forallb_forall. split.
  - intros H sn b Hsn Hb. apply R. specialize (H sn Hsn). rewrite forallb_forall in H. auto.
  - intros H sn Hsn. apply forallb_forall. intros b Hb. apply R. eauto.
Qed.

Lemma all_closed_iff s : all_closed s = true <-> forall sn b, In sn (snaps s) -> In b (snd sn) -> ListedP s b.
Proof. apply snaps_forall, listed_iff. Qed.

Lemma all_stored_iff s : all_stored s = true <-> forall sn b, In sn (snaps s) -> In b (snd sn) -> StoredP s b.
Proof. apply snaps_forall, stored_iff. Qed.

Lemma held_present_iff s : held_present s = true <->
  forall c, In c (bks s) -> running c = true -> forall e, In e (held c) -> exists pk, In pk (packs s) /\ fst pk = fst e.
Proof.
  unfold held_present. rewrite forallb_forall. split.
  - intros H c Hc Hr e He. specialize (H c Hc). rewrite Hr in H. simpl in H. rewrite forallb_forall in H.
    specialize (H e He). apply existsb_exists in H. destruct H as (pk & Hpk & E). apply Nat.eqb_eq in E. eauto.
  - intros H c Hc. destruct (running c) eqn:R; [simpl|reflexivity]. apply forallb_forall. intros e He.
    destruct (H c Hc R e He) as (pk & Hpk & E). apply existsb_exists. exists pk. split; [assumption|].
    apply Nat.eqb_eq. assumption.
Qed.

(* `timely_a` and `premise` have one shape: a condition on every mark on a pack a running backup relies on *)
Lemma marks_cond_spec (P : bst -> entry * time -> bool) s :
  forallb (fun b => negb (running b) ||
     forallb (fun e => forallb (fun m => negb (Nat.eqb (fst (fst m)) (fst e)) || P b m) (marks_of s)) (held b))
    (bks s) = true <->
  forall c, In c (bks s) -> running c = true -> forall e, In e (held c) ->
  forall m, In m (marks_of s) -> fst (fst m) = fst e -> P c m = true.
Proof.
  rewrite forallb_forall. split.
  - intros H c Hc Hr e He m Hm E. specialize (H c Hc). rewrite Hr in H. simpl in H.
    rewrite forallb_forall in H. specialize (H e He). rewrite forallb_forall in H. specialize (H m Hm).
    apply orb_true_iff in H. destruct H as [H|H]; [|exact H].
    apply negb_true_iff, Nat.eqb_neq in H. contradiction.
  - intros H c Hc. destruct (running c) eqn:Hr; [simpl|reflexivity].
    apply forallb_forall. intros e He. apply forallb_forall. intros m Hm.
    destruct (Nat.eqb (fst (fst m)) (fst e)) eqn:E; [simpl|reflexivity]. apply Nat.eqb_eq in E. eauto.
Qed.

Lemma timely_a_spec kd s : timely_a kd s = true ->
  forall c, In c (bks s) -> running c = true -> forall e, In e (held c) ->
  forall f m, In f (idxs s) -> In m (mk (snd f)) -> fst (fst m) = fst e -> clock s < snd m + kd.
Proof.
  intros H c Hc Hr e He f m Hf Hm E. apply Nat.ltb_lt.
  apply (proj1 (marks_cond_spec (fun _ m => clock s <? snd m + kd) s) H c Hc Hr e He m); [|exact E].
  unfold marks_of. apply in_flat_map. eauto.
Qed.

Lemma premise_spec kd s : premise kd s = true ->
  forall c, In c (bks s) -> running c = true -> forall e, In e (held c) ->
  forall m, In m (marks_of s) -> fst (fst m) = fst e -> bt0 c <= snd m /\ clock s < bt0 c + kd.
Proof.
  intros H c Hc Hr e He m Hm E.
  pose proof (proj1 (marks_cond_spec (fun b m => (bt0 b <=? snd m) && (clock s <? bt0 b + kd)) s) H c Hc Hr e He m Hm E) as X.
  apply andb_true_iff in X. destruct X as [A B]. apply Nat.leb_le in A. apply Nat.ltb_lt in B. split; assumption.
Qed.

Lemma timely_b_spec kd s q : timely_b kd s = true -> prn s = Some q ->
  (pph q = PPlanned \/ pph q = PIndexed) ->
  forall x, In x (dmk (pview q)) -> is_delete (todo_of (pasg q) (fst (fst (snd x)))) = true ->
  snd (snd x) + kd <= plstart q.
Proof.
  unfold timely_b. intros H Hq Hp x Hx Hd. rewrite Hq in H.
  assert (H' : negb (is_delete (todo_of (pasg q) (fst (fst (snd x))))) || (snd (snd x) + kd <=? plstart q) = true)
    by (destruct Hp as [Hp|Hp]; rewrite Hp in H; exact (forallb_In H Hx)).
  rewrite Hd in H'. apply Nat.leb_le. exact H'.
Qed.

Lemma timely_split kd s : timely kd s = true -> timely_a kd s = true /\ timely_b kd s = true.
Proof. unfold timely. apply andb_true_iff. Qed.

Lemma ListedP_mono s s' b :
  incl (idxs s) (idxs s') -> incl (packs s) (packs s') -> ListedP s b -> ListedP s' b.
Proof.
  intros Hi Hp (f & e & pk & H1 & H2 & H3 & H4 & H5 & H6). exists f, e, pk. intuition.
Qed.

(* step inversion: splits `H : step kd s e = Some s'` into the enabled cases of the event *)
Ltac step_cases H :=
  unfold step in H;
  repeat match type of H with
         | context [match ?x with _ => _ end] =>
             match x with
             | context [match _ with _ => _ end] => fail 1
             | _ => destruct x eqn:?; try discriminate H
             end
         | context [if ?x then _ else _] => destruct x eqn:?; try discriminate H
         end;
  try (injection H as H); try discriminate.

(* a member of the backup list after the backup at one position was replaced: the new one, or an old one *)
Ltac bk_cases Hc := apply In_replace_at in Hc; destruct Hc as [->|Hc].

Definition WANT (s : st) : Prop :=
  forall c, In c (bks s) -> bph c = BIndexed -> forall b, In b (bwant c) -> In b (blobs_of (held c)).

Lemma WANT_init : WANT init.
Proof. intros c []. Qed.

Lemma WANT_step kd s evt s' : WANT s -> step kd s evt = Some s' -> WANT s'.
Proof.
  intros W H c0 Hc Hp.
  destruct evt; step_cases H; subst s'; unfold set_bk, set_prn in *; simpl in *; try (exact (W c0 Hc Hp));
    try (apply in_app_iff in Hc; destruct Hc as [Hc|[<-|[]]]; [exact (W c0 Hc Hp)|discriminate Hp]);
    (bk_cases Hc; [|exact (W c0 Hc Hp)]); try discriminate Hp.
  (* BIndex: the guard of the event; the own packs are those of the backup, whether any was written or not *)
  all: intros b1 Hb1; match goal with F : forallb _ (bwant _) = true |- _ =>
         rewrite forallb_forall in F; apply F, memb_In in Hb1 end;
       unfold held in *; simpl; match goal with X : bwritten _ = _ |- _ => rewrite X in Hb1 end; exact Hb1.
Qed.

Lemma step_PPlan_time kd s asg rw s' : step kd s (PPlan asg rw) = Some s' ->
  exists q q', prn s = Some q /\ prn s' = Some q' /\ ptime q' = plan_time (plstart q) (clock s).
Proof. intro H. step_cases H. subst s'. eexists. eexists. repeat split. Qed.

Lemma step_PWriteIndex_idx kd s s' : step kd s PWriteIndex = Some s' ->
  exists q, prn s = Some q /\ idxs s' = idxs s ++ [(nexti s, new_index (restamp (clock s) q))].
Proof. intro H. step_cases H. subst s'. eexists. split; reflexivity. Qed.

Lemma step_PDone kd s s' : step kd s PDone = Some s' ->
  s' = set_prn s None /\ exists q, prn s = Some q /\ (pph q = PPlanned /\ prw q = [] \/ pph q = PIndexed).
Proof. intro H. step_cases H; subst s'; eauto 6. Qed.

Lemma step_packs kd s evt s' : step kd s evt = Some s' ->
  (packs s' = packs s /\ nextp s' = nextp s) \/
  (exists bl, packs s' = packs s ++ [(nextp s, bl)] /\ nextp s' = S (nextp s)) \/
  (exists p q, packs s' = remove_key p (packs s) /\ nextp s' = nextp s /\
               prn s = Some q /\ pph q = PIndexed /\ In p (pdel q)).
Proof.
  intro H. destruct evt; step_cases H; subst s'; unfold set_bk, set_prn; simpl; eauto.
  right; right. eexists _, _. rewrite <- memb_In. eauto.
Qed.

Lemma run_cons kd s e es : run kd s (e :: es) = match step kd s e with Some s1 => run kd s1 es | None => None end.
Proof. reflexivity. Qed.

Lemma run_app kd : forall es1 es2 s, run kd s (es1 ++ es2) =
  match run kd s es1 with Some s' => run kd s' es2 | None => None end.
Proof.
  induction es1 as [|e es1 IH]; intros; simpl; [reflexivity|].
  destruct (step kd s e); [apply IH|reflexivity].
Qed.

Lemma run_invariant kd (P : st -> Prop) (ok : ev -> bool) :
  (forall s e s', P s -> ok e = true -> step kd s e = Some s' -> P s') ->
  forall es s s', P s -> forallb ok es = true -> run kd s es = Some s' -> P s'.
Proof.
  intros Hstep. induction es as [|e es IH]; intros s s' HP Hok Hr; simpl in *.
  - inv Hr. assumption.
  - apply andb_true_iff in Hok. destruct Hok as [H1 H2].
    destruct (step kd s e) as [s1|] eqn:E; [|discriminate].
    apply (IH s1 s'); [eapply Hstep; eauto|assumption|assumption].
Qed.

Lemma run_invariant_all kd (P : st -> Prop) :
  (forall s e s', P s -> step kd s e = Some s' -> P s') ->
  forall es s s', P s -> run kd s es = Some s' -> P s'.
Proof.
  intros Hstep es s s' HP. apply (run_invariant kd P (fun _ => true)); [eauto|assumption|].
  now apply forallb_forall.
Qed.
