(* C10 — the snapshot half: under `timely`, every blob of every present snapshot stays in a present pack. *)
From Verif.Base Require Import Tactics.
From Verif.C10 Require Import Extracted Model ProofsBase ProofsView ProofsTruth ProofsSafe.
Local Open Scope nat_scope.

Definition Guarded (kd : time) (s : st) (b : blob) : Prop :=
  exists pk, In pk (packs s) /\ In b (snd pk) /\ NoDel kd s (fst pk).

Lemma Guarded_step kd s evt s' b :
  PRN kd s -> step kd s evt = Some s' -> timely_b kd s' = true -> evt <> PStart -> Guarded kd s b -> Guarded kd s' b.
Proof.
  intros P H TB N (pk & A & B & C). exists pk.
  split; [eapply pack_step; eauto|split; [exact B|eapply NoDel_step; eauto]].
Qed.

(* what a backup is about to reference lies in packs it holds: present, truthful, undeletable *)
Lemma want_Guarded kd s c b :
  TR s -> SAFE kd s -> WANT s -> In c (bks s) -> bph c = BIndexed -> In b (bwant c) -> Guarded kd s b.
Proof.
  intros [_ [T1 _ _]] [A1 _ _] W Hc Hp Hb.
  assert (Hr : running c = true) by (unfold running; rewrite Hp; reflexivity).
  apply (W c Hc Hp), In_blobs_of in Hb. destruct Hb as (e & He & Hb).
  destruct (A1 c Hc Hr e He) as [Pr ND]. apply Present_In in Pr. destruct Pr as (pk & Hpk & E).
  exists pk. split; [exact Hpk|split; [|rewrite E; exact ND]].
  exact (proj2 (T1 c Hc Hr e He) pk Hpk E b Hb).
Qed.

(* a snapshot that predates the prune is not guarded from the start: before the scan nothing is known about
   it, after the scan its blobs are accounted as used, and the plan must give every used blob an owner *)
Definition Acct (q : pst) (sn : sid * list blob) (b : blob) : Prop :=
  fst sn < psidmark q /\ match pph q with PLoaded => True | PScanned => In b (pused q) | _ => False end.

Record SNAP (kd : time) (s : st) : Prop := {
  nS : forall sn b, In sn (snaps s) -> In b (snd sn) -> StoredP s b;
  nM : forall q, prn s = Some q -> forall sn b, In sn (snaps s) -> In b (snd sn) -> Guarded kd s b \/ Acct q sn b;
  nI : forall sn, In sn (snaps s) -> fst sn < nexts s
}.

Lemma SNAP_init kd : SNAP kd init.
Proof. constructor; simpl; intros; tauto. Qed.

(* a snapshot after the step was there before it, or is new and guarded; of the former, only what becomes of
   those not yet guarded is left open *)
Lemma SNAP_frame kd s evt s' :
  PRN kd s -> SNAP kd s -> timely_b kd s' = true -> step kd s evt = Some s' ->
  (forall sn, In sn (snaps s') -> In sn (snaps s) \/
     fst sn < nexts s' /\ forall b, In b (snd sn) -> Guarded kd s' b) ->
  nexts s <= nexts s' ->
  (forall q' sn b, prn s' = Some q' -> In sn (snaps s) -> In b (snd sn) ->
     (forall q, prn s = Some q -> Acct q sn b) -> Guarded kd s' b \/ Acct q' sn b) ->
  SNAP kd s'.
Proof.
  intros P [S M I] TB H Is En A.
  assert (G : forall q, prn s = Some q -> forall b, Guarded kd s b -> Guarded kd s' b).
  { intros q Hq b. eapply Guarded_step; eauto. intros ->. step_cases H. }
  constructor.
  - intros sn b Hsn Hb. destruct (Is sn Hsn) as [Hsn0|[_ N]];
      [|destruct (N b Hb) as (pk & ? & ? & _); exists pk; split; assumption].
    destruct (S sn b Hsn0 Hb) as (pk & Hpk & Hbp).
    destruct (step_packs _ _ _ _ H) as [[E _]|[(bl & E & _)|(p & q & E & _ & Hq & Hph & _)]].
    + exists pk. rewrite E. auto.
    + exists pk. rewrite E. split; [apply in_app_iff|]; auto.
    + (* a pack is removed: the prune has planned, so the blob has a guarded owner *)
      destruct (M q Hq sn b Hsn0 Hb) as [g|[_ F]]; [|rewrite Hph in F; destruct F].
      destruct (G q Hq b g) as (pk' & ? & ? & _). exists pk'. auto.
  - intros q' Hq' sn b Hsn Hb. destruct (Is sn Hsn) as [Hsn0|[_ N]]; [|left; auto]. destruct (prn s) as [q|] eqn:Hq.
    + destruct (M q eq_refl sn b Hsn0 Hb) as [g|a]; [left; exact (G q eq_refl b g)|].
      apply A; auto. intros q0 Hq0. inv Hq0. exact a.
    + apply A; auto. intros q0 Hq0. discriminate Hq0.
  - intros sn Hsn. destruct (Is sn Hsn) as [Hsn0|[L _]]; [exact (Nat.lt_le_trans _ _ _ (I sn Hsn0) En)|exact L].
Qed.

Lemma SNAP_step kd s evt s' :
  TR s -> PRN kd s -> SAFE kd s -> WANT s -> SNAP kd s -> timely kd s' = true -> step kd s evt = Some s' -> SNAP kd s'.
Proof.
  intros HTR P HS W N HT H. apply timely_split in HT. destruct HT as [_ TB].
  pose proof H as H0.
  destruct evt; step_cases H0; subst s'; unfold set_bk, set_prn in *;
    (* a snapshot sn with blob b0 that was not guarded stays accounted as it was (A) unless the event moves the
       prune on *)
    (apply (SNAP_frame kd s _ _ P N TB H); simpl;
      [first [solve [auto]|intros sn Hsn; apply In_remove_key in Hsn; tauto|idtac]|solve [auto]|
       intros q' sn b0 Hq' Hsn Hb0 A; try discriminate Hq'; try (right; exact (A _ Hq'))]);
    (* the prune moves on from q (phase X) to q': L and U are how sn was accounted in q *)
    try (inv Hq'; try (match goal with Hq : prn s = Some _, X : pph _ = _ |- _ =>
                          destruct (A _ Hq) as [L U]; rewrite X in U end); try contradiction).
  - (* BSnap: the new snapshot is guarded, by what the backup holds *)
    intros sn Hsn. apply in_app_iff in Hsn. destruct Hsn as [Hsn|[<-|[]]]; [auto|right]. split; [simpl; lia|].
    intros b0 Hb0. eapply Guarded_step; eauto; [discriminate|]. eapply want_Guarded; eauto using nth_error_In.
  - (* PStart: every present snapshot predates the prune *)
    right. split; [exact (nI _ _ N sn Hsn)|exact I].
  - (* PScan: ... and is now accounted as used *)
    right. split; [exact L|]. apply in_flat_map. exists sn. auto.
  - (* PPlan: a used blob has an owner that existed at the pack listing and is not deleted *)
    left. match goal with OK : plan_ok _ _ _ _ _ _ _ = true |- _ =>
            destruct (plan_owner _ _ _ _ _ _ _ OK b0 U) as (i & e & Hbe & Hin & Ho & Hx) end.
    edestruct owned_pack with (asg := asg) (i := i) (b := b0) as (pk & Hpk & _ & Hb & ND);
      [exact HTR|eassumption|exact (fun _ X => X)|exact Hin|exact Ho|destruct Hx as [Hx|(tm & Hx & _)]; eauto|exact Hbe|].
    exists pk. split; [exact Hpk|split; [exact Hb|]]. intros q0 Hq0 D. inv Hq0. eapply ND; [|exact D]. reflexivity.
Qed.
