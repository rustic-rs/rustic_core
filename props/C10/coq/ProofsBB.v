(* C10 — overlapping backups (no prune event): every snapshot ever written is closed. *)
From Verif.Base Require Import Tactics.
From Verif.C10 Require Import Model ProofsBase.
Local Open Scope nat_scope.

Definition idx_exact (s : st) : Prop := forall f e, In f (idxs s) -> In e (unm (snd f)) -> In e (packs s).
Definition InIdx (s : st) (e : entry) : Prop := exists f, In f (idxs s) /\ In e (unm (snd f)).

Definition BK (s : st) (c : bst) : Prop :=
  running c = true ->
  (forall e, In e (bview c) -> InIdx s e) /\
  (forall e, In e (bwritten c) -> In e (packs s) /\ (bph c = BIndexed -> InIdx s e)).

Definition BB (s : st) : Prop :=
  idx_exact s /\ WANT s /\
  (forall sn b, In sn (snaps s) -> In b (snd sn) -> ListedP s b) /\
  (forall c, In c (bks s) -> BK s c).

Lemma InIdx_mono s s' e : incl (idxs s) (idxs s') -> InIdx s e -> InIdx s' e.
Proof. intros Hi (f & H1 & H2). exists f. auto. Qed.

Lemma BK_mono s s' c : incl (idxs s) (idxs s') -> incl (packs s) (packs s') -> BK s c -> BK s' c.
Proof.
  intros Hi Hp H Hr. destruct (H Hr) as [A B]. split.
  - intros e He. eapply InIdx_mono; eauto.
  - intros e He. destruct (B e He) as [B1 B2]. split; [auto|]. intro X. eapply InIdx_mono; eauto.
Qed.

Lemma backup_step_mono kd s e s' : is_backup_ev e = true -> step kd s e = Some s' ->
  incl (idxs s) (idxs s') /\ incl (packs s) (packs s').
Proof.
  intros Hev H. destruct e; try discriminate Hev; step_cases H; subst s'; simpl;
    auto using incl_refl, incl_appl.
Qed.

Lemma BB_step kd s e s' : BB s -> is_backup_ev e = true -> step kd s e = Some s' -> BB s'.
Proof.
  intros (Hx & W & Hs & Hb) Hev H.
  pose proof (WANT_step _ _ _ _ W H) as W'.
  destruct (backup_step_mono _ _ _ _ Hev H) as [Mi Mp].
  (* what was there stays fine; the cases are about the backup the event belongs to and what it writes *)
  assert (Hx' : forall f e, In f (idxs s) -> In e (unm (snd f)) -> In e (packs s')) by (intros; eapply Mp, Hx; eauto).
  assert (Hs' : forall sn b, In sn (snaps s) -> In b (snd sn) -> ListedP s' b) by (intros; eapply ListedP_mono; eauto).
  assert (Hb' : forall c, In c (bks s) -> BK s' c) by (intros; eapply BK_mono; eauto).
  destruct e; try discriminate Hev; step_cases H; subst s'; unfold set_bk in *; simpl in *;
    try (match goal with Hn : nth_error (bks s) _ = Some ?b, Hp : bph ?b = _ |- _ =>
           pose proof (Hb b (nth_error_In _ _ Hn)) as Hk; unfold BK, running in Hk; rewrite Hp in Hk;
           destruct (Hk eq_refl) as [A B]; clear Hk end);
    (split; [|split; [exact W'|split]]); auto;
    (* the backup at the event's position: what it has seen (A before the event), what it has written (B) *)
    try (intros c0 Hc; bk_cases Hc; [|auto]; intro Hr; try discriminate Hr; split; simpl;
         try solve [intros ? [] | intros e He; exact (A e He) | intros e He; split; [apply B; exact He|discriminate]]).
  - (* BStart *) intros c0 Hc. apply in_app_iff in Hc. destruct Hc as [Hc|[<-|[]]]; [auto|].
    intros _. split; intros ? [].
  - (* BRead, file present *) intros e He. apply in_app_iff in He. destruct He as [He|He]; [exact (A e He)|].
    match goal with L : lookup _ _ = Some _ |- _ => apply lookup_In in L; eexists; split; [exact L|exact He] end.
  - (* BRead, file gone *) intros e He. rewrite app_nil_r in He. exact (A e He).
  - (* BPack *) intros e He. split; [|discriminate]. apply in_app_iff in He. apply in_app_iff.
    destruct He as [He|He]; [left; apply B; exact He|auto].
  - (* BIndex, own index file written: it lists what the backup wrote *)
    intros f e0 Hf He. apply in_app_iff in Hf. destruct Hf as [Hf|[<-|[]]]; [eauto|].
    simpl in He. apply B. match goal with X : bwritten _ = _ |- _ => rewrite X end. exact He.
  - (* BIndex, the writing backup: what it had seen stays listed *) intros e0 He. eapply InIdx_mono; [exact Mi|exact (A e0 He)].
  - (* BIndex, the writing backup: what it wrote is present and listed by the new file *) intros e0 He. split.
    + apply B. match goal with X : bwritten _ = _ |- _ => rewrite X end. exact He.
    + intros _. eexists. split; [apply in_app_iff; right; left; reflexivity|exact He].
  - (* BSnap: a wanted blob is in a held entry, which is listed and names a present pack *)
    intros sn b0 Hsn Hb0. apply in_app_iff in Hsn. destruct Hsn as [Hsn|[<-|[]]]; [eauto|].
    match goal with Hn : nth_error (bks s) _ = Some ?b, Hp : bph ?b = _ |- _ =>
      apply (W b (nth_error_In _ _ Hn) Hp), In_blobs_of in Hb0 end.
    destruct Hb0 as (e0 & He & Hb0). unfold held in He. apply in_app_iff in He.
    assert (X : InIdx s e0) by (destruct He as [He|He]; [auto|exact (proj2 (B e0 He) eq_refl)]).
    destruct X as (f & Hf & Hu). exists f, e0, e0. repeat split; eauto.
Qed.

Lemma BB_quiet s : idx_exact s -> (forall b, In b (bks s) -> running b = false) -> all_closed s = true -> BB s.
Proof.
  intros Hx Hnr Hc. split; [exact Hx|split; [|split; [apply all_closed_iff; exact Hc|]]]; intros c Hin R.
  - pose proof (Hnr c Hin) as X. unfold running in X. rewrite R in X. discriminate X.
  - rewrite (Hnr c Hin) in R. discriminate R.
Qed.

Lemma BB_closed s : BB s -> all_closed s = true.
Proof. intros (_ & _ & H & _). apply all_closed_iff. exact H. Qed.
