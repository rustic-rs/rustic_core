(* C10 — the schedules around the slow prune whose computed runs are the non-vacuity examples of Props.v. *)
From Verif.Base Require Import Tactics.
From Verif.C10 Require Import Extracted Model.
Local Open Scope nat_scope.

(* timely_b along a run (the prune-side half of the hypothesis) *)
Fixpoint run_tb (kd : time) (s : st) (es : list ev) : bool :=
  timely_b kd s &&
  match es with
  | [] => true
  | e :: es' => match step kd s e with Some s' => run_tb kd s' es' | None => false end
  end.

(* The slow-prune schedule (Model.slow_prune_run): prune 1 plans at t = 0 and is slow; a backup loads the
   index at t = 5; prune 1 publishes its marks at t = 6; prune 2 starts at t = 10 = 0 + keep_delete and
   deletes; the backup (7 < 10 long) finishes at t = 12.  With marks dated by the plan time this was a path
   of the model that lost a blob.  With the facts of the repaired source (marks stamped at the index write,
   expiry tested against the prune's start) it is no longer a path (Props.slow_prune_rejected). *)
Definition slow_prune_prefix : list ev := firstn 26 slow_prune_run.   (* up to prune 2's scan *)

(* what the repaired code does on that schedule: prune 2 keeps the marked pack, the backup finishes inside the
   premise (started at 5 <= 6 = publication, 12 < 5 + 10), nothing is lost, and the next prune recovers *)
Definition slow_prune_fixed_run : list ev :=
  slow_prune_prefix ++
  [ PPlan [(0, KeepMarked)] []; PDone;                            (* t = 10: nothing to do *)
    Tick; Tick; BIndex 1; BSnap 1 ].                              (* t = 12: the backup references blob 1 *)
Definition slow_prune_recover : list ev :=
  [ PStart; PScan; PPlan [(0, Recover)] [1]; PWriteIndex; PRmIndex 1; PDone ].
