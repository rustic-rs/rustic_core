(* C10 — the prune's de-duplicated view, what a valid plan guarantees, what the index it writes contains,
   and runs under `timely`. *)
From Verif.Base Require Import Tactics Lists.
From Verif.C10 Require Import Extracted Model ProofsBase.
Local Open Scope nat_scope.

Lemma first_occ_In {A} (key : A -> nat) : forall l seen x, In x (first_occ key seen l) -> In x l.
Proof.
  induction l as [|a l IH]; intros seen x H; simpl in *; [assumption|].
  destruct (memb (key a) seen); [right; eauto|]. destruct H; [left; assumption|right; eauto].
Qed.

Lemma In_tagged {A} (g : ifile -> list A) (v : list (iid * ifile)) i a :
  In (i, a) (flat_map (fun f => map (fun e => (fst f, e)) (g (snd f))) v) <-> exists f, In (i, f) v /\ In a (g f).
Proof.
  rewrite in_flat_map. split.
  - intros ([i' f] & Hf & H). simpl in H. apply in_map_iff in H. destruct H as (e' & E & He). inv E. eauto.
  - intros (f & Hf & He). exists (i, f). split; [assumption|]. simpl. apply in_map_iff. eauto.
Qed.

Lemma In_all_unm v i e : In (i, e) (all_unm v) <-> exists f, In (i, f) v /\ In e (unm f).
Proof. apply In_tagged. Qed.

Lemma In_all_mk v i m : In (i, m) (all_mk v) <-> exists f, In (i, f) v /\ In m (mk f).
Proof. apply In_tagged. Qed.

Lemma In_unm_pids v p : In p (unm_pids v) <-> exists i f e, In (i, f) v /\ In e (unm f) /\ fst e = p.
Proof.
  unfold unm_pids. rewrite in_map_iff. split.
  - intros ([i e] & E & H). apply In_all_unm in H. destruct H as (f & H). exists i, f, e. tauto.
  - intros (i & f & e & Hf & He & E). exists (i, e). split; [exact E|]. apply In_all_unm. eauto.
Qed.

Lemma In_view_pids v p : In p (view_pids v) <->
  exists i f, In (i, f) v /\ ((exists e, In e (unm f) /\ fst e = p) \/ (exists m, In m (mk f) /\ fst (fst m) = p)).
Proof.
  unfold view_pids. rewrite in_app_iff, In_unm_pids, in_map_iff. split.
  - intros [(i & f & e & H)|([i m] & E & H)].
    + exists i, f. split; [tauto|]. left. exists e. tauto.
    + apply In_all_mk in H. destruct H as (f & Hf & Hm). exists i, f. eauto.
  - intros (i & f & Hf & [(e & H)|(m & Hm & E)]); [left; exists i, f, e; tauto|].
    right. exists (i, m). split; [exact E|]. apply In_all_mk. eauto.
Qed.

Lemma dunm_view v x : In x (dunm v) -> exists f, In (fst x, f) v /\ In (snd x) (unm f).
Proof. intro H. apply first_occ_In in H. destruct x. apply In_all_unm. exact H. Qed.

Lemma dmk_view v x : In x (dmk v) ->
  (exists f, In (fst x, f) v /\ In (snd x) (mk f)) /\ ~ In (fst (fst (snd x))) (unm_pids v).
Proof.
  unfold dmk. intro H. apply first_occ_In in H. apply filter_In in H. destruct H as [H1 H2]. split.
  - destruct x. apply In_all_mk. exact H1.
  - apply negb_true_iff in H2. apply memb_false. exact H2.
Qed.

Lemma dmk_view_pids v x : In x (dmk v) -> In (fst (fst (snd x))) (view_pids v).
Proof.
  intro H. apply dmk_view in H. destruct H as [(f & Hf & Hm) _]. apply In_view_pids.
  exists (fst x), f. split; [exact Hf|]. right. exists (snd x). auto.
Qed.

Lemma is_delete_todo t : is_delete t = true <-> t = Some Delete.
Proof. destruct t as [[]|]; simpl; split; congruence. Qed.

Lemma stays_owns t : stays_listed t = true -> owns t = true.
Proof. destruct t as [[]|]; auto. Qed.

Lemma delete_list_In q p : In p (delete_list q) <->
  exists x, In x (dmk (pview q)) /\ fst (fst (snd x)) = p /\ is_delete (todo_of (pasg q) p) = true.
Proof.
  unfold delete_list. rewrite in_flat_map_if. split.
  - intros (x & Hx & D & [<-|[]]). eauto.
  - intros (x & Hx & <- & D). exists x. simpl. auto.
Qed.

Lemma owns_not_deleted q p : owns (todo_of (pasg q) p) = true -> ~ In p (delete_list q).
Proof.
  intros O D. apply delete_list_In in D. destruct D as (_ & _ & _ & D).
  destruct (todo_of (pasg q) p) as [[]|]; discriminate.
Qed.

Lemma not_deleted_unm q x : In x (dunm (pview q)) -> ~ In (fst (snd x)) (delete_list q).
Proof.
  intros Hx D. apply delete_list_In in D. destruct D as (y & Hy & Ey & _). apply dmk_view in Hy. destruct Hy as [_ Hy].
  apply Hy. rewrite Ey. apply In_unm_pids. destruct (dunm_view _ _ Hx) as (f & Hf & He). exists (fst x), f, (snd x). auto.
Qed.

Lemma view_pid_of_delete q p : In p (delete_list q) -> In p (view_pids (pview q)).
Proof. intro D. apply delete_list_In in D. destruct D as (x & Hx & <- & _). exact (dmk_view_pids _ _ Hx). Qed.

Lemma kept_blobs_In q b : In b (kept_blobs q) <->
  (exists x, In x (dunm (pview q)) /\ stays_listed (todo_of (pasg q) (fst (snd x))) = true /\ In b (snd (snd x))) \/
  (exists x, In x (dmk (pview q)) /\ stays_listed (todo_of (pasg q) (fst (fst (snd x)))) = true /\ In b (snd (fst (snd x)))).
Proof. unfold kept_blobs. rewrite in_app_iff, !in_flat_map_if. tauto. Qed.

(* whichever operator the source's expiry test has (>= or >, `expiry_nonstrict`), the non-strict bound follows *)
Lemma expired_le kd T tm : expired kd T tm = true -> tm + kd <= T.
Proof. unfold expired. destruct expiry_nonstrict; intro H; [apply Nat.leb_le in H|apply Nat.ltb_lt in H]; lia. Qed.

Section Plan.
  Variables (kd T : time) (v : list (iid * ifile)) (used : list blob) (existing : list pid)
            (asg : list (pid * todo)) (rw : list iid).
  Hypothesis OK : plan_ok kd T v used existing asg rw = true.

  (* the four conjuncts of `plan_ok`: unmarked entries, marked entries, used blobs, rebuilt files *)
  Local Ltac parts U M B R :=
    pose proof OK as U; unfold plan_ok in U;
    apply andb_true_iff in U; destruct U as [U R]; apply andb_true_iff in U; destruct U as [U B];
    apply andb_true_iff in U; destruct U as [U M].

  Lemma plan_unm_owner x : In x (dunm v) -> owns (todo_of asg (fst (snd x))) = true -> In (fst (snd x)) existing.
  Proof.
    parts U M B R. intros Hx Ho. apply forallb_forall with (x := x) in U; [|exact Hx].
    destruct x as [i [p bl]]. simpl in U, Ho |- *.
    destruct (todo_of asg p) as [[]|]; try discriminate; apply memb_In.
    - exact U.
    - apply andb_true_iff in U. tauto.
  Qed.

  Lemma plan_mk_owner x : In x (dmk v) -> owns (todo_of asg (fst (fst (snd x)))) = true ->
    todo_of asg (fst (fst (snd x))) = Some Recover /\ In (fst x) rw /\ In (fst (fst (snd x))) existing.
  Proof.
    parts U M B R. intros Hx Ho. apply forallb_forall with (x := x) in M; [|exact Hx].
    destruct x as [i [[p bl] tm]]. simpl in M, Ho |- *.
    destruct (todo_of asg p) as [[]|]; try discriminate.
    apply andb_true_iff in M. rewrite !memb_In in M. tauto.
  Qed.

  Lemma plan_delete_expired x : In x (dmk v) ->
    todo_of asg (fst (fst (snd x))) = Some Delete -> snd (snd x) + kd <= T.
  Proof.
    parts U M B R. intros Hx Hd. apply forallb_forall with (x := x) in M; [|exact Hx].
    destruct x as [i [[p bl] tm]]. simpl in M, Hd |- *. rewrite Hd in M.
    apply andb_true_iff in M. apply expired_le. tauto.
  Qed.

  Lemma plan_owns_used b : In b used ->
    (exists x, In x (dunm v) /\ In b (snd (snd x)) /\ owns (todo_of asg (fst (snd x))) = true) \/
    (exists x, In x (dmk v) /\ In b (snd (fst (snd x))) /\ owns (todo_of asg (fst (fst (snd x)))) = true).
  Proof.
    parts U M B R. intro Hb. apply forallb_forall with (x := b) in B; [|exact Hb]. apply orb_true_iff in B.
    destruct B as [H|H]; apply existsb_exists in H; destruct H as (x & Hx & H); apply andb_true_iff in H;
      rewrite memb_In in H; [left|right]; exists x; tauto.
  Qed.

  Lemma plan_rw_view i : In i rw -> In i (map fst v).
  Proof. parts U M B R. intro Hi. apply memb_In. apply forallb_forall with (x := i) in R; assumption. Qed.

  (* every used blob has an owner that existed when the packs were listed and that the plan keeps: listed
     unmarked (Keep / Repack), or listed marked in a file that is rebuilt (Recover) *)
  Lemma plan_owner b : In b used ->
    exists i e, In b (snd e) /\ In (fst e) existing /\ owns (todo_of asg (fst e)) = true /\
      (In (i, e) (dunm v) \/ exists tm, In (i, (e, tm)) (dmk v) /\ todo_of asg (fst e) = Some Recover /\ In i rw).
  Proof.
    intro Hb. destruct (plan_owns_used b Hb) as [([i e] & Hx & Hbx & Ho)|([i [e tm]] & Hx & Hbx & Ho)]; exists i, e.
    - pose proof (plan_unm_owner _ Hx Ho). auto.
    - destruct (plan_mk_owner _ Hx Ho) as (A & B & C). eauto 8.
  Qed.
End Plan.

Lemma In_new_index_unm q e : In e (unm (new_index q)) <->
  (exists x, In x (dunm (pview q)) /\ In (fst x) (prw q) /\
             stays_listed (todo_of (pasg q) (fst (snd x))) = true /\ e = snd x) \/
  (exists x, In x (dmk (pview q)) /\ In (fst x) (prw q) /\
             stays_listed (todo_of (pasg q) (fst (fst (snd x)))) = true /\ e = fst (snd x)) \/
  In e (pnew q).
Proof.
  unfold new_index. cbn [unm]. rewrite !in_app_iff, !in_flat_map_if.
  assert (S : forall (a : entry), In e [a] <-> e = a) by (simpl; intuition).
  split; (intros [(x & Hx & C & H)|[(x & Hx & C & H)|H]]; [left|right; left|right; right; exact H]); exists x.
  1,2: apply andb_true_iff in C; rewrite memb_In in C; apply S in H; tauto.
  1,2: destruct H as (H1 & H2); apply S in H2; rewrite andb_true_iff, memb_In; tauto.
Qed.

(* where the index write leaves a blob that its guard found: under an entry that is repack output or whose pack
   the plan owns, listed unmarked by the new file or by a file of the view that is not rebuilt *)
Lemma kept_listed kd T q pks b : plan_ok kd T (pview q) (pused q) pks (pasg q) (prw q) = true ->
  In b (kept_blobs q) \/ In b (blobs_of (pnew q)) ->
  exists e, In b (snd e) /\
    (In e (pnew q) \/
     In (fst e) pks /\ owns (todo_of (pasg q) (fst e)) = true /\
     exists i, In (i, e) (dunm (pview q)) \/ exists tm, In (i, (e, tm)) (dmk (pview q))) /\
    (In e (unm (new_index q)) \/ exists i f, In (i, f) (pview q) /\ ~ In i (prw q) /\ In e (unm f)).
Proof.
  intros OK [Hb|Hb].
  - apply kept_blobs_In in Hb. destruct Hb as [([i e] & Hx & St & Hb)|([i [e tm]] & Hx & St & Hb)];
      apply stays_owns in St as Ho; simpl in *; exists e; (split; [exact Hb|split]).
    (* an unmarked entry of the view, then a marked one: each time its pack first, then the file that lists it *)
    + right. split; [exact (plan_unm_owner _ _ _ _ _ _ _ OK _ Hx Ho)|]. eauto.
    + destruct (memb i (prw q)) eqn:Mi.
      * left. apply In_new_index_unm. left. exists (i, e). apply memb_In in Mi. auto.
      * right. destruct (dunm_view _ _ Hx) as (f0 & Hf0 & He). apply memb_false in Mi. eauto.
    + right. destruct (plan_mk_owner _ _ _ _ _ _ _ OK _ Hx Ho) as (_ & _ & Hin). eauto 6.
    + (* a marked entry stays listed only as Recover: its file is rebuilt *)
      left. destruct (plan_mk_owner _ _ _ _ _ _ _ OK _ Hx Ho) as (_ & Hrw & _).
      apply In_new_index_unm. right; left. exists (i, (e, tm)). auto.
  - apply In_blobs_of in Hb. destruct Hb as (e & He & Hb). exists e. split; [exact Hb|split; [auto|]].
    left. apply In_new_index_unm. auto.
Qed.

(* the marks of the index file a prune writes, each with the time source the executor table gives its decision
   (Extracted.v) *)
Lemma In_new_index_mk q m : In m (mk (new_index q)) ->
  (exists x ts, In x (dunm (pview q)) /\ (ts = ts_Repack \/ ts = ts_MarkDelete) /\
                m = (snd x, mark_time ts (ptime q) 0)) \/
  (exists x, In x (dmk (pview q)) /\ m = (fst (snd x), mark_time ts_KeepMarked (ptime q) (snd (snd x)))) \/
  (exists p, In p (punref q) /\ m = ((p, []), mark_time ts_Unreferenced (ptime q) 0)).
Proof.
  unfold new_index. cbn [mk]. rewrite !in_app_iff, !in_flat_map, in_map_iff.
  intros [(x & Hx & H)|[(x & Hx & H)|(p & E & Hp)]].
  - left. exists x. destr_if; [|destruct H].
    destruct (todo_of (pasg q) (fst (snd x))) as [[]|]; simpl in H; try tauto; destruct H as [<-|[]]; eauto.
  - right; left. exists x. destr_if; [|destruct H].
    destruct (todo_of (pasg q) (fst (fst (snd x)))) as [[]|]; simpl in H; try tauto; destruct H as [<-|[]]; auto.
  - right; right. eauto.
Qed.

Lemma run_timely_timely kd : forall es s s', run_timely kd s es = Some s' -> timely kd s' = true.
Proof.
  induction es as [|e es IH]; intros s s' H; simpl in H; destruct (timely kd s) eqn:T; try discriminate.
  - inv H. assumption.
  - destruct (step kd s e) as [s1|]; [eauto|discriminate].
Qed.

Lemma run_timely_invariant kd (P : st -> Prop) :
  (forall s e s', P s -> timely kd s' = true -> step kd s e = Some s' -> P s') ->
  forall es s s', P s -> run_timely kd s es = Some s' -> P s'.
Proof.
  intros Hstep. induction es as [|e es IH]; intros s s' HP Hr; simpl in Hr; destruct (timely kd s); try discriminate.
  - inv Hr. assumption.
  - destruct (step kd s e) as [s1|] eqn:E; [|discriminate].
    apply (IH s1 s'); [|assumption]. apply (Hstep s e s1 HP); [|exact E].
    destruct es; simpl in Hr; destruct (timely kd s1); congruence.
Qed.
