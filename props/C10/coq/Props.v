(* C10 — property theorems about backups and non-instant prunes running concurrently, for
   EVERY interleaving of their backend operations (Model.v). *)
From Verif.Base Require Import Tactics.
From Verif.C10 Require Import Extracted Model ProofsBase ProofsBB ProofsWitness ProofsView ProofsSafe ProofsTruth ProofsMain ProofsSnap ProofsRecover ProofsFacts.
Local Open Scope nat_scope.

(* Overlapping backups need no hypothesis: from any repository whose index is exact, whose
   snapshots are closed and on which no backup is running, every interleaving of the operations
   of any number of backups leaves every snapshot closed (each needed blob listed unmarked by a
   present index file in a present pack that holds it). *)
Theorem backup_backup_safe : forall kd s0 es s,
  (forall f e, In f (idxs s0) -> In e (unm (snd f)) -> In e (packs s0)) ->
  (forall b, In b (bks s0) -> running b = false) ->
  all_closed s0 = true ->
  forallb is_backup_ev es = true -> run kd s0 es = Some s -> all_closed s = true.
Proof.
  intros kd s0 es s Hx Hnr Hc Hev Hr.
  eapply BB_closed, (run_invariant kd BB _ (BB_step kd)); eauto using BB_quiet.
Qed.
Print Assumptions backup_backup_safe.

Theorem backup_backup_safe_from_empty : forall kd es s,
  forallb is_backup_ev es = true -> run kd init es = Some s -> all_closed s = true.
Proof. intros. eapply backup_backup_safe; eauto; simpl; intros; tauto. Qed.
Print Assumptions backup_backup_safe_from_empty.

(* On every path all of whose states satisfy the hypothesis `timely` ((a) no pack a running backup relies
   on carries an expired mark, (b) a prune deletes only packs expired when it started), for every
   interleaving of any number of backups with non-overlapping non-instant prunes: every blob of every
   PRESENT snapshot lies in an existing pack, and every pack a running backup saw unmarked or wrote still
   exists.  Invariant: ProofsMain.FULL = ProofsTruth.TR (fresh pack ids, truthful index entries),
   ProofsSafe.PRN (the prune's own bookkeeping), ProofsSafe.SAFE (two-phase deletion: needed packs exist and are
   not deletable), ProofsBase.WANT, ProofsSnap.SNAP (a snapshot's blobs lie in undeletable packs, or the snapshot
   predates a prune that has not planned yet and accounts them as used from its scan on). *)
Theorem no_referenced_pack_deleted : forall kd es s,
  run_timely kd init es = Some s -> all_stored s = true /\ held_present s = true.
Proof. intros kd es s H. exact (FULL_safe kd s (FULL_run kd es init s (FULL_init kd) H)). Qed.
Print Assumptions no_referenced_pack_deleted.

(* the half about running backups alone *)
Theorem no_referenced_pack_deleted_partial : forall kd es s,
  run_timely kd init es = Some s -> held_present s = true.
Proof. intros kd es s H. exact (proj2 (no_referenced_pack_deleted kd es s H)). Qed.
Print Assumptions no_referenced_pack_deleted_partial.

(* a snapshot written while a prune is active lies in packs that prune cannot delete *)
Theorem snapshot_blobs_protected : forall kd es s q sn b,
  run_timely kd init es = Some s -> prn s = Some q -> In sn (snaps s) -> psidmark q <= fst sn -> In b (snd sn) ->
  exists pk, In pk (packs s) /\ In b (snd pk) /\ ~ Del kd q (fst pk).
Proof.
  intros kd es s q sn b H Hq Hsn L Hb. pose proof (fSNAP _ _ (FULL_run _ _ _ _ (FULL_init kd) H)) as N.
  destruct (nM _ _ N q Hq sn b Hsn Hb) as [(pk & A & B & C)|[X _]]; [|lia].
  exists pk. split; [exact A|split; [exact B|exact (C q Hq)]].
Qed.
Print Assumptions snapshot_blobs_protected.

(* The mechanism: on such paths a pack on a prune's delete list is relied on by no running backup
   and is listed unmarked by no present index file. *)
Theorem delete_only_unreferenced : forall kd es s q p,
  run_timely kd init es = Some s -> prn s = Some q -> (pph q = PPlanned \/ pph q = PIndexed) ->
  In p (delete_list q) ->
  (forall c, In c (bks s) -> running c = true -> forall e, In e (held c) -> fst e <> p) /\
  (forall f, In f (idxs s) -> forall e, In e (unm (snd f)) -> fst e <> p).
Proof.
  intros kd es s q p H Hq Hp Hd.
  apply (SAFE_unreferenced kd s q p (fSAFE _ _ (FULL_run _ _ _ _ (FULL_init kd) H)) Hq). unfold Del. destruct Hp as [-> | ->]; exact Hd.
Qed.
Print Assumptions delete_only_unreferenced.

(* After ONE further complete prune that runs alone (PStart, then any scan / plan / repack / index write /
   removals the model admits, then PDone; no concurrent command, no abort), started in ANY reachable state
   in which no prune is active, every present snapshot is closed: each needed blob is listed UNMARKED by a
   present index file in a present pack that holds it.  No timing hypothesis: it follows from `plan_ok`
   (every used blob has an existing Keep / Recover / Repack owner), the executor steps, truthfulness of
   index entries and freshness of pack and index ids.  prune||prune is excluded by the model (PStart needs
   `prn = None`). *)
Theorem next_prune_recovers : forall kd es0 s es s',
  run kd init es0 = Some s -> prn s = None ->
  forallb is_solo_prune_ev es = true ->
  run kd s (PStart :: es ++ [PDone]) = Some s' -> all_closed s' = true.
Proof.
  intros kd es0 s es s' Hr _. exact (solo_prune_closes kd s es s' (reachable_wf _ _ _ Hr)).
Qed.
Print Assumptions next_prune_recovers.

(* Example: the hypotheses are satisfiable on a state that is NOT closed (a backup reused a marked pack). *)
Theorem next_prune_recovers_instance :
  exists s s', run recover_kd init recover_run = Some s /\ prn s = None /\ all_closed s = false /\
               forallb is_solo_prune_ev recover_prune_mid = true /\
               run recover_kd s (PStart :: recover_prune_mid ++ [PDone]) = Some s' /\ all_closed s' = true.
Proof.
  (* every conjunct is evaluated: `split` alone would decide the equations by unification, which takes minutes *)
  eexists. eexists. repeat (split; [vm_compute; reflexivity|]). vm_compute; reflexivity.
Qed.
Print Assumptions next_prune_recovers_instance.

(* the plan facts it rests on *)
Theorem next_prune_recovers_partial_owns : forall kd T v used existing asg rw b,
  plan_ok kd T v used existing asg rw = true -> In b used ->
  (exists x, In x (dunm v) /\ In b (snd (snd x)) /\ owns (todo_of asg (fst (snd x))) = true) \/
  (exists x, In x (dmk v) /\ In b (snd (fst (snd x))) /\ owns (todo_of asg (fst (fst (snd x)))) = true).
Proof. intros kd T v used existing asg rw b H. exact (plan_owns_used _ _ _ _ _ _ _ H b). Qed.
Print Assumptions next_prune_recovers_partial_owns.

(* a MARKED pack that owns a used blob is recovered: its index file is rebuilt, the pack exists,
   and the new index lists it unmarked *)
Theorem next_prune_recovers_partial_marked : forall kd T q used existing x,
  plan_ok kd T (pview q) used existing (pasg q) (prw q) = true -> In x (dmk (pview q)) ->
  owns (todo_of (pasg q) (fst (fst (snd x)))) = true ->
  In (fst (fst (snd x))) existing /\ In (fst (snd x)) (unm (new_index q)).
Proof.
  intros kd T q used existing x H Hx Ho.
  destruct (plan_mk_owner _ _ _ _ _ _ _ H x Hx Ho) as (A & B & C). split; [exact C|].
  apply In_new_index_unm. right; left. exists x. rewrite A. auto.
Qed.
Print Assumptions next_prune_recovers_partial_marked.

Theorem delete_only_expired : forall kd T v used existing asg rw x,
  plan_ok kd T v used existing asg rw = true -> In x (dmk v) ->
  todo_of asg (fst (fst (snd x))) = Some Delete -> snd (snd x) + kd <= T.
Proof. intros kd T v used existing asg rw x H. exact (plan_delete_expired _ _ _ _ _ _ _ H x). Qed.
Print Assumptions delete_only_expired.

(* Example (non-vacuity): a backup reuses a blob from a pack that a concurrent prune marks; the
   path satisfies `timely`; afterwards the snapshot is stored but not closed; the next prune
   recovers the pack and the snapshot is closed. *)
Theorem next_prune_recovers_example :
  exists s s', run_timely recover_kd init recover_run = Some s /\
               all_stored s = true /\ all_closed s = false /\
               run_timely recover_kd s recover_prune = Some s' /\ all_closed s' = true.
Proof. eexists. eexists. repeat (split; [vm_compute; reflexivity|]). vm_compute; reflexivity. Qed.
Print Assumptions next_prune_recovers_example.

(* Example (non-vacuity of `timely` with a real deletion). *)
Theorem timely_delete_example :
  exists s, run_timely 3 init timely_delete_run = Some s /\ all_stored s = true /\ all_closed s = true /\
            held_present s = true /\ length (packs s) = 1.
Proof. eexists. repeat (split; [vm_compute; reflexivity|]). vm_compute; reflexivity. Qed.
Print Assumptions timely_delete_example.

(* the executor table of prune_repository as regenerated from prune.rs (Extracted.v): which decision goes to
   which index section is the model's *)
Theorem source_exec_table_matches_model : forall t, source_section t = model_section t.
Proof. destruct t; reflexivity. Qed.
Print Assumptions source_exec_table_matches_model.

(* the time facts regenerated from prune.rs and indexer.rs: the delete marks are stamped when the index file
   holding them is written (Indexer::release_removals with Timestamp::now(), right before indexer.finalize());
   the plan time is taken BEFORE the repository is read; expiry is `plan_time - keep_delete >= mark_time`; kept
   marks keep their time *)
Theorem source_time_facts :
  marks_stamped_at_write = true /\ plan_time_after_scan = false /\ expiry_nonstrict = true /\
  ts_MarkDelete = Stamp /\ ts_Repack = Stamp /\ ts_Unreferenced = Stamp /\ ts_KeepMarked = KeepOld.
Proof. repeat split; reflexivity. Qed.
Print Assumptions source_time_facts.

(* every mark in the index a prune writes carries the stamp time of the (re-stamped) plan, or is a mark of its
   view with its old time *)
Theorem fresh_marks_carry_plan_time : forall q m, In m (mk (new_index q)) ->
  snd m = ptime q \/ exists x, In x (dmk (pview q)) /\ m = snd x.
Proof.
  intros q m Hm. destruct (In_new_index_mk q m Hm) as [(x & ts & _ & [-> | ->] & ->)|[(x & Hx & ->)|(p & _ & ->)]];
    try (left; reflexivity).
  right. exists x. split; [exact Hx|]. destruct x as [i [e tm]]. reflexivity.
Qed.
Print Assumptions fresh_marks_carry_plan_time.

(* ... and that stamp is the clock at the index write: marks carry their PUBLICATION time *)
Theorem published_marks_carry_write_time : forall kd s s', step kd s PWriteIndex = Some s' ->
  exists q f, prn s = Some q /\ idxs s' = idxs s ++ [(nexti s, f)] /\
    forall m, In m (mk f) -> snd m = clock s \/ exists x, In x (dmk (pview q)) /\ m = snd x.
Proof.
  intros kd s s' H. destruct (step_PWriteIndex_idx _ _ _ H) as (q & Hq & E). exists q. eexists. split; [exact Hq|split; [exact E|]].
  intros m Hm. apply fresh_marks_carry_plan_time in Hm. exact Hm.
Qed.
Print Assumptions published_marks_carry_write_time.

(* the time expiry is tested against is the clock when the prune STARTED (before index load and scan) *)
Theorem plan_time_is_start_time : forall kd s asg rw s', step kd s (PPlan asg rw) = Some s' ->
  exists q q', prn s = Some q /\ prn s' = Some q' /\ ptime q' = plstart q.
Proof. exact step_PPlan_time. Qed.
Print Assumptions plan_time_is_start_time.

(* hence hypothesis (b) of `timely` holds in every reachable state: it is a property of the code now *)
Theorem timely_b_by_construction : forall kd es s, run kd init es = Some s -> timely_b kd s = true.
Proof.
  intros kd es s. apply (run_invariant_all kd (fun s => timely_b kd s = true)); [|reflexivity].
  intros s0 e s1 T H. exact (TB_step kd s0 e s1 eq_refl T H).
Qed.
Print Assumptions timely_b_by_construction.

(* REPAIRED (fix fb81608 in /repo, formerly the open finding prune-marks-carry-plan-time):
   for every interleaving of any number of backups with non-overlapping prunes in which every running backup
   started before the marks on the packs it relies on were stamped — i.e. published — and is younger than
   keep_delete (`premise`), no data of any snapshot is lost and no pack a running backup deduplicated against
   is deleted. *)
Theorem started_before_publication_safe : forall kd es s,
  run_prem kd init es = Some s -> all_stored s = true /\ held_present s = true.
Proof.
  intros kd es s H. apply (no_referenced_pack_deleted kd es). apply run_prem_timely; auto.
Qed.
Print Assumptions started_before_publication_safe.

(* the slow-prune schedule is no longer a path: the mark carries the publication time 6, prune 2 (started at
   10 = plan time of prune 1 + keep_delete) must keep the pack *)
Theorem slow_prune_rejected :
  run slow_prune_kd init slow_prune_run = None /\
  exists s, run slow_prune_kd init slow_prune_prefix = Some s /\ clock s = 10 /\
            marks_of s = [((0, [1]), 6)] /\
            step slow_prune_kd s (PPlan [(0, Delete)] [1]) = None /\
            exists s', step slow_prune_kd s (PPlan [(0, KeepMarked)] []) = Some s'.
Proof.
  split; [vm_compute; reflexivity|]. eexists. repeat (split; [vm_compute; reflexivity|]).
  eexists. vm_compute. reflexivity.
Qed.
Print Assumptions slow_prune_rejected.

(* Example (non-vacuity of `premise`): what the repaired code does on that schedule *)
Theorem slow_prune_fixed_example :
  exists s s', run_prem slow_prune_kd init slow_prune_fixed_run = Some s /\
               short_backups slow_prune_kd s = true /\ all_stored s = true /\ all_closed s = false /\
               run_prem slow_prune_kd s slow_prune_recover = Some s' /\ all_closed s' = true.
Proof.
  eexists. eexists. repeat (split; [vm_compute; reflexivity|]). vm_compute; reflexivity.
Qed.
Print Assumptions slow_prune_fixed_example.
