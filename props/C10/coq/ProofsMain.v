(* C10 — the invariant of the paths all of whose states satisfy `timely`, and the example schedules. *)
From Verif.Base Require Import Tactics.
From Verif.C10 Require Import Model ProofsBase ProofsView ProofsTruth ProofsSafe ProofsSnap.
Local Open Scope nat_scope.

Record FULL (kd : time) (s : st) : Prop := {
  fTR : TR s; fPRN : PRN kd s; fSAFE : SAFE kd s; fWANT : WANT s; fSNAP : SNAP kd s
}.

Lemma FULL_init kd : FULL kd init.
Proof. constructor; [apply TR_init|apply PRN_init|apply SAFE_init|apply WANT_init|apply SNAP_init]. Qed.

Lemma FULL_step kd s e s' : FULL kd s -> timely kd s' = true -> step kd s e = Some s' -> FULL kd s'.
Proof.
  intros [A B C D E] T H.
  constructor; [eapply TR_step|eapply PRN_step|eapply SAFE_step|eapply WANT_step|eapply SNAP_step]; eauto.
Qed.

Lemma FULL_run kd es s s' : FULL kd s -> run_timely kd s es = Some s' -> FULL kd s'.
Proof. apply run_timely_invariant, FULL_step. Qed.

Lemma FULL_safe kd s : FULL kd s -> all_stored s = true /\ held_present s = true.
Proof.
  intro F. split; [apply all_stored_iff, (nS _ _ (fSNAP _ _ F))|exact (held_present_of_SAFE _ _ (fSAFE _ _ F))].
Qed.

(* a marked pack that holds a blob a late backup reused is recovered by the next prune *)
Definition recover_kd : time := 10.
Definition recover_run : list ev :=
  [ BStart [1]; BList 0; BPack 0 [1]; BIndex 0; BAbort 0;          (* pack 0 = {1}, no snapshot needs it *)
    PStart; PScan; PPlan [(0, MarkDelete)] [0]; Tick;
    BStart [1]; BList 1; BRead 1 0;                                 (* a backup loads the index: pack 0 unmarked *)
    PWriteIndex; PRmIndex 0; PDone;                                 (* the prune publishes the mark *)
    Tick; BIndex 1; BSnap 1 ].                                      (* the backup (short) finishes: needs blob 1 *)
Definition recover_prune : list ev :=
  [ PStart; PScan; PPlan [(0, Recover)] [1]; PWriteIndex; PRmIndex 1; PDone ].

(* the hypothesis is satisfiable together with an actual deletion: a prune deletes an expired pack
   while a backup (that never saw it unmarked) runs *)
Definition timely_delete_run : list ev :=
  [ BStart [1]; BList 0; BPack 0 [1]; BIndex 0; BAbort 0;
    PStart; PScan; PPlan [(0, MarkDelete)] [0]; PWriteIndex; PRmIndex 0; PDone;
    Tick; Tick; Tick;
    BStart [1]; BList 1; BRead 1 1;                                 (* sees only the marked pack: not in the view *)
    PStart; PScan; PPlan [(0, Delete)] [1]; BPack 1 [1]; PWriteIndex; PRmIndex 1; PRmPack 0; PDone;
    BIndex 1; BSnap 1 ].
