(* C10 — where index entries come from.  An entry occurs in the view or among the own packs of a running
   backup, in a present index file, or in the view, the repack output or the unreferenced packs of the
   active prune.  `ALL_step` says once how a step can bring an entry to such a place; the invariant `TR`
   (pack ids are fresh, and an entry tells the truth about the pack it names) is one instance, the
   protection of needed packs (ProofsSafe) another. *)
From Verif.Base Require Import Tactics.
From Verif.C10 Require Import Extracted Model ProofsBase ProofsView.
Local Open Scope nat_scope.

(* Qu for entries listed unmarked (or held by a backup), Qm for marked ones *)
Definition IFQ (Qu Qm : entry -> Prop) (f : ifile) : Prop :=
  (forall e, In e (unm f) -> Qu e) /\ (forall m, In m (mk f) -> Qm (fst m)).

Record ALL (Qu Qm : entry -> Prop) (s : st) : Prop := {
  all_held : forall c, In c (bks s) -> running c = true -> forall e, In e (held c) -> Qu e;
  all_idxs : forall f, In f (idxs s) -> IFQ Qu Qm (snd f);
  all_prn : forall q, prn s = Some q ->
     (forall f, In f (pview q) -> IFQ Qu Qm (snd f)) /\ (forall e, In e (pnew q) -> Qu e) /\
     (forall p, In p (punref q) -> Qm (p, []))
}.

Lemma IFQ_mono (Qu Qm Qu' Qm' : entry -> Prop) f :
  (forall e, Qu e -> Qu' e) -> (forall e, Qm e -> Qm' e) -> IFQ Qu Qm f -> IFQ Qu' Qm' f.
Proof. intros Mu Mm [A B]. split; auto. Qed.

Lemma ALL_mono (Qu Qm Qu' Qm' : entry -> Prop) s :
  (forall e, Qu e -> Qu' e) -> (forall e, Qm e -> Qm' e) -> ALL Qu Qm s -> ALL Qu' Qm' s.
Proof.
  intros Mu Mm [A1 A2 A3]. constructor.
  - eauto.
  - intros f Hf. eapply IFQ_mono; eauto.
  - intros q Hq. destruct (A3 q Hq) as (V & N & U). split; [|split]; auto.
    intros f Hf. eapply IFQ_mono; eauto.
Qed.

Section View.
  Variables (Qu Qm : entry -> Prop) (v : list (iid * ifile)).
  Hypothesis V : forall f, In f v -> IFQ Qu Qm (snd f).

  Lemma view_dunm x : In x (dunm v) -> Qu (snd x).
  Proof. intro H. apply dunm_view in H. destruct H as (f & Hf & He). exact (proj1 (V _ Hf) _ He). Qed.

  Lemma view_dmk x : In x (dmk v) -> Qm (fst (snd x)).
  Proof. intro H. apply dmk_view in H. destruct H as [(f & Hf & He) _]. exact (proj2 (V _ Hf) _ He). Qed.
End View.

(* the index a prune writes: a recovered pack moves from the marked to the unmarked section *)
Lemma new_index_Q (Qu Qm : entry -> Prop) q :
  (forall e, Qu e -> Qm e) ->
  (forall f, In f (pview q) -> IFQ Qu Qm (snd f)) -> (forall e, In e (pnew q) -> Qu e) ->
  (forall p, In p (punref q) -> Qm (p, [])) ->
  (forall x, In x (dmk (pview q)) -> stays_listed (todo_of (pasg q) (fst (fst (snd x)))) = true -> Qu (fst (snd x))) ->
  IFQ Qu Qm (new_index q).
Proof.
  intros QQ V N U R. split.
  - intros e He. apply In_new_index_unm in He.
    destruct He as [(x & Hx & _ & _ & ->)|[(x & Hx & _ & S & ->)|He]]; [eapply view_dunm; eauto|auto|auto].
  - intros m Hm. apply In_new_index_mk in Hm.
    destruct Hm as [(x & ts & Hx & _ & ->)|[(x & Hx & ->)|(p & Hp & ->)]]; simpl;
      [apply QQ; eapply view_dunm; eauto|eapply view_dmk; eauto|auto].
Qed.

(* A step keeps `ALL Qu Qm`, provided the entry of a freshly written pack is fine, the blob-less mark of an
   existing pack is fine, and so is the entry of a pack that the index write recovers. *)
Lemma ALL_step kd s evt s' (Qu Qm : entry -> Prop) :
  ALL Qu Qm s -> (forall e, Qu e -> Qm e) ->
  (forall bl, In (nextp s, bl) (packs s') -> Qu (nextp s, bl)) ->
  (forall pk, In pk (packs s) -> Qm (fst pk, [])) ->
  (forall q x, prn s = Some q -> pph q = PPlanned -> In x (dmk (pview q)) ->
     stays_listed (todo_of (pasg q) (fst (fst (snd x)))) = true -> Qu (fst (snd x))) ->
  step kd s evt = Some s' -> ALL Qu Qm s'.
Proof.
  intros [A1 A2 A3] QQ HN HP HR H.
  destruct evt; step_cases H; subst s'; unfold set_bk, set_prn in *; simpl in *;
    (* the backup the event is about is running: what it held stays available as A1b *)
    try (match goal with Hn : nth_error (bks s) _ = Some ?b |- _ =>
           assert (A1b : forall e, In e (bview b) \/ In e (bwritten b) -> Qu e);
           [intros e0 He0; apply in_app_iff in He0; revert e0 He0; apply A1; [exact (nth_error_In _ _ Hn)|
              first [assumption|unfold running; match goal with P : bph b = _ |- _ => rewrite P end; reflexivity]]|]
         end);
    (* the prune the event is about *)
    try (destruct (A3 _ eq_refl) as (Vw & Nw & Uw));
    (* the clauses about what the event leaves alone hold as before; left are the backup at the event's position
       (c0, with e0 among what it holds) resp. the prune after the event *)
    (constructor; simpl); auto;
    try (intros c0 Hc Hr e0 He; bk_cases Hc; [|solve [eauto]]; unfold held in He; simpl in He);
    try (intros q0 Hq0; inv Hq0; simpl; (split; [|split]); auto; try (intros ? [])).
  - (* BStart *) intros c0 Hc Hr e0 He. apply in_app_iff in Hc. destruct Hc as [Hc|[<-|[]]]; [eauto|destruct He].
  - (* BList *) destruct He.
  - (* BRead, file present *) rewrite !in_app_iff in He. destruct He as [[He|He]|He]; auto.
    match goal with L : lookup _ _ = Some _ |- _ => apply lookup_In in L; exact (proj1 (A2 _ L) _ He) end.
  - (* BRead, file gone *) rewrite app_nil_r, in_app_iff in He. auto.
  - (* BPack *) rewrite !in_app_iff in He. destruct He as [He|[He|[<-|[]]]]; auto.
    apply HN. apply in_app_iff. right. left. reflexivity.
  - (* BIndex, nothing written *) rewrite app_nil_r in He. auto.
  - (* BIndex, own index file written *)
    match goal with W : bwritten _ = _ |- _ => rewrite <- W in He end. apply A1b, in_app_iff, He.
  - intros f Hf. apply in_app_iff in Hf. destruct Hf as [Hf|[<-|[]]]; [auto|].
    split; simpl; [|intros m []]. intros e0 He. apply A1b. right.
    match goal with W : bwritten _ = _ |- _ => rewrite W end. exact He.
  - (* BSnap *) discriminate Hr.
  - (* BAbort *) discriminate Hr.
  - (* PPlan: the unreferenced packs exist *)
    intros p1 Hp. apply filter_In in Hp. destruct Hp as [Hp _]. apply in_map_iff in Hp.
    destruct Hp as (pk & <- & Hp). auto.
  - (* PPack *) intros e0 He. apply in_app_iff in He. destruct He as [He|[<-|[]]]; [auto|].
    apply HN. apply in_app_iff. right. left. reflexivity.
  - (* PWriteIndex *) intros f Hf. apply in_app_iff in Hf. destruct Hf as [Hf|[<-|[]]]; [auto|]. simpl.
    apply new_index_Q; simpl; eauto.
  - (* PRmIndex *) intros f Hf. apply In_remove_key in Hf. apply A2. tauto.
Qed.

Definition Truthful (s : st) (e : entry) : Prop :=
  forall pk, In pk (packs s) -> fst pk = fst e -> incl (snd e) (snd pk).
Definition TRQ (s : st) (e : entry) : Prop := fst e < nextp s /\ Truthful s e.
Definition TR (s : st) : Prop := (forall pk, In pk (packs s) -> fst pk < nextp s) /\ ALL (TRQ s) (TRQ s) s.

Lemma TR_step kd s evt s' : TR s -> step kd s evt = Some s' -> TR s'.
Proof.
  intros [P1 A] H.
  assert (X : (forall pk, In pk (packs s') -> fst pk < nextp s') /\ nextp s <= nextp s' /\
              (forall e, TRQ s e -> TRQ s' e) /\ (forall bl, In (nextp s, bl) (packs s') -> TRQ s' (nextp s, bl))).
  { destruct (step_packs _ _ _ _ H) as [[E1 E2]|[(bl & E1 & E2)|(p & q & E1 & E2 & _)]];
      unfold TRQ, Truthful; rewrite E1, E2; (split; [|split; [lia|split]]).
    - exact P1.
    - auto.
    - intros bl Hin. apply P1 in Hin. simpl in Hin. lia.
    - intros pk Hpk. apply in_app_iff in Hpk. destruct Hpk as [Hpk|[<-|[]]]; [apply P1 in Hpk|simpl]; lia.
    - intros e [L W]. split; [lia|]. intros pk Hpk E. apply in_app_iff in Hpk.
      destruct Hpk as [Hpk|[<-|[]]]; [auto|]. simpl in E. lia.
    - intros bl' Hin. split; [simpl; lia|]. intros pk Hpk E. simpl in E.
      (* the only pack with the fresh id is the new one *)
      assert (N : forall pk0, In pk0 (packs s ++ [(nextp s, bl)]) -> fst pk0 = nextp s -> pk0 = (nextp s, bl)).
      { intros pk0 H0 E0. apply in_app_iff in H0. destruct H0 as [H0|[<-|[]]]; [apply P1 in H0; lia|reflexivity]. }
      rewrite (N _ Hin eq_refl), (N _ Hpk E). apply incl_refl.
    - intros pk Hpk. apply In_remove_key in Hpk. apply P1. tauto.
    - intros e [L W]. split; [lia|]. intros pk Hpk E. apply In_remove_key in Hpk. destruct Hpk. auto.
    - intros bl Hin. apply In_remove_key in Hin. destruct Hin as [Hin _]. apply P1 in Hin. simpl in Hin. lia. }
  destruct X as (P1' & Le & Mo & Nw). split; [exact P1'|].
  apply (ALL_step kd s evt s'); auto.
  - eapply ALL_mono; eauto.
  - intros pk Hpk. apply P1 in Hpk. split; [simpl; lia|]. intros ? _ _ ? [].
  - intros q x Hq _ Hx _. destruct (all_prn _ _ _ A q Hq) as (V & _).
    apply Mo. eapply view_dmk; eauto.
Qed.

Lemma TR_init : TR init.
Proof. split; [intros ? []|]. constructor; simpl; intros; try tauto. discriminate. Qed.

Lemma dmk_lt s q x : TR s -> prn s = Some q -> In x (dmk (pview q)) -> fst (fst (snd x)) < nextp s.
Proof. intros [_ A] Hq Hx. exact (proj1 (view_dmk _ _ _ (proj1 (all_prn _ _ _ A q Hq)) x Hx)). Qed.
