(* C10 — `Concurrent`: backups and non-instant prunes on one repository as a labelled
   transition system whose steps are the BACKEND OPERATIONS of each command
   (commands/prune.rs: PrunePlan::from_prune_options / PrunePlan::new / decide_packs /
   prune_repository; index.rs: GlobalIndex::new_from_collector uses `.packs` only;
   archiver.rs: packs -> index -> snapshot; repofile/indexfile.rs: packs / packs_to_delete).

   Abstract repository: present packs (id, blob ids), present index files (unmarked
   entries, marked entries with their mark time), present snapshots (needed blob set).
   Clock: monotone, advanced by `Tick`.

   backup  = BStart (want) ; BList (list index files) ; BRead i (read one listed file: the
             dedup VIEW is the union of the `.packs` sections of the files it managed to
             read — a file removed meanwhile is simply not seen: any mixture of old and new
             index files) ; BPack (write a pack, fresh id) ; BIndex (write own index file;
             enabled when every wanted blob is in the view or in an own pack) ; BSnap.
   prune   = PStart (list + read the index files.  Only one prune is active at a time, so
             the listed files are immutable and stay present until this prune removes them
             itself: reading them one by one equals reading them at once) ;
             PScan (read all snapshots: used blobs; all must be found in the view) ;
             PPlan asg rw (list packs; PLAN TIME T := `plan_time`: the clock of PStart, or, with
             the unrepaired source, the clock now — there `PrunePlan::new` takes
             `Zoned::now()` after the scan —; the decision per pack is supplied by the
             event and validated by `plan_ok`, which states what decide_packs /
             check_existing_packs guarantee: the admissible to-dos per mark state,
             Delete only with `mark_time + keep_delete <= T`, every used blob owned by a
             pack that is kept / recovered / repacked and exists) ;
             PPack (repack output, fresh id) ; PWriteIndex (new index file: kept and
             recovered packs + new packs unmarked; repacked and unused packs marked with
             the stamp time (`restamp`: the clock of this write, or, with the unrepaired
             source, T = `prune_plan.time`); still-young marked packs with their old time;
             existing packs no index file lists marked with the stamp time and no blobs) ;
             PRmIndex i ; PRmPack p ; PDone.   BAbort / PAbort: the command stops.
   Any interleaving of any number of backups with (non-overlapping) prunes is a path. *)
From Verif.Base Require Import Tactics.
From Verif.C10 Require Import Extracted.
Local Open Scope nat_scope.

Definition pid := nat.
Definition blob := nat.
Definition iid := nat.
Definition sid := nat.
Definition time := nat.
Definition entry := (pid * list blob)%type.

Record ifile := { unm : list entry; mk : list (entry * time) }.

Definition memb (x : nat) (l : list nat) : bool := existsb (Nat.eqb x) l.
Definition blobs_of (es : list entry) : list blob := flat_map snd es.

Inductive bphase := BNew | BListed | BIndexed | BDone.
Record bst := { bph : bphase; bt0 : time; bt1 : time; btodo : list iid;
                bview : list entry; bwritten : list entry; bwant : list blob }.

Inductive todo := Keep | Repack | MarkDelete | KeepMarked | Recover | Delete.
Inductive pphase := PLoaded | PScanned | PPlanned | PIndexed.

Record pst := {
  pph : pphase;
  plstart : time;                     (* clock when the prune listed the index files *)
  psidmark : sid;                     (* ghost: next snapshot id at that moment *)
  pview : list (iid * ifile);
  pused : list blob;
  pscanmark : sid;                    (* ghost: next snapshot id at the scan *)
  ptime : time;                       (* prune_plan.time *)
  pasg : list (pid * todo);
  prw : list iid;                     (* index files that are rebuilt (PrunePlan.index_files after filter_index_files) *)
  punref : list pid;                  (* existing packs no listed index file mentions *)
  pnew : list entry;                  (* repack output *)
  pirm : list iid;                    (* old index files still to remove *)
  pdel : list pid                     (* packs still to remove *)
}.

Record st := {
  clock : time;
  packs : list entry;
  idxs : list (iid * ifile);
  snaps : list (sid * list blob);
  bks : list bst;
  prn : option pst;
  nextp : pid; nexti : iid; nexts : sid
}.

Definition init : st :=
  {| clock := 0; packs := []; idxs := []; snaps := []; bks := []; prn := None;
     nextp := 0; nexti := 0; nexts := 0 |}.

Inductive ev :=
| Tick
| BStart (want : list blob)
| BList (c : nat)
| BRead (c : nat) (i : iid)
| BPack (c : nat) (bl : list blob)
| BIndex (c : nat)
| BSnap (c : nat)
| BAbort (c : nat)
| PStart
| PScan
| PPlan (asg : list (pid * todo)) (rw : list iid)
| PPack (bl : list blob)
| PWriteIndex
| PRmIndex (i : iid)
| PRmPack (p : pid)
| PDone
| PAbort
| Forget (n : sid).          (* a snapshot file is removed (forget) *)

(* ---- small list helpers *)
Fixpoint replace_at {A} (n : nat) (y : A) (l : list A) : list A :=
  match n, l with
  | _, [] => []
  | O, _ :: l' => y :: l'
  | S n', x :: l' => x :: replace_at n' y l'
  end.

Definition remove_nat (x : nat) (l : list nat) : list nat := filter (fun y => negb (Nat.eqb x y)) l.
Definition remove_key {A} (x : nat) (l : list (nat * A)) : list (nat * A) :=
  filter (fun y => negb (Nat.eqb x (fst y))) l.
Definition lookup {A} (x : nat) (l : list (nat * A)) : option A :=
  match find (fun y => Nat.eqb x (fst y)) l with Some y => Some (snd y) | None => None end.

Definition running (b : bst) : bool := match bph b with BDone => false | _ => true end.
Definition held (b : bst) : list entry := bview b ++ bwritten b.

(* ---- the prune's de-duplicated view (PrunePlan::new) *)
Definition all_unm (v : list (iid * ifile)) : list (iid * entry) :=
  flat_map (fun f => map (fun e => (fst f, e)) (unm (snd f))) v.
Definition all_mk (v : list (iid * ifile)) : list (iid * (entry * time)) :=
  flat_map (fun f => map (fun e => (fst f, e)) (mk (snd f))) v.

(* keep the first occurrence of every key *)
Fixpoint first_occ {A} (key : A -> nat) (seen : list nat) (l : list A) : list A :=
  match l with
  | [] => []
  | x :: r => if memb (key x) seen then first_occ key seen r
              else x :: first_occ key (key x :: seen) r
  end.

Definition dunm (v : list (iid * ifile)) : list (iid * entry) :=
  first_occ (fun x => fst (snd x)) [] (all_unm v).
Definition unm_pids (v : list (iid * ifile)) : list pid := map (fun x => fst (snd x)) (all_unm v).
Definition dmk (v : list (iid * ifile)) : list (iid * (entry * time)) :=
  first_occ (fun x => fst (fst (snd x))) []
    (filter (fun x => negb (memb (fst (fst (snd x))) (unm_pids v))) (all_mk v)).
Definition view_pids (v : list (iid * ifile)) : list pid :=
  unm_pids v ++ map (fun x => fst (fst (snd x))) (all_mk v).

Definition todo_of (asg : list (pid * todo)) (p : pid) : option todo := lookup p asg.

Definition owns (t : option todo) : bool :=
  match t with Some Keep | Some Recover | Some Repack => true | _ => false end.
Definition stays_listed (t : option todo) : bool :=
  match t with Some Keep | Some Recover => true | _ => false end.
Definition is_delete (t : option todo) : bool := match t with Some Delete => true | _ => false end.

(* ---- source facts (Extracted.v, regenerated from prune.rs on every run) enter here *)
(* the time an index entry gets: `into_index_pack_with_time(prune_time)` stamps, `into_index_pack(prune_time)`
   keeps the old time (`old`; an unmarked pack has no mark time: 0 = expired long ago) *)
Definition mark_time (src : tsrc) (stamp old : time) : time :=
  match src with Stamp => stamp | KeepOld => old end.
(* decide_packs (true, 0, _): `plan_time - keep_delete >= mark_time` (or `>`), in natural numbers *)
Definition expired (kd T tm : time) : bool :=
  if expiry_nonstrict then tm + kd <=? T else tm + kd <? T.
(* `from_prune_options` takes the plan time before the repository is read (`start`); with the unrepaired source
   `PrunePlan::new` takes it after the index load, the snapshot scan and the pack listing (`now`) *)
Definition plan_time (start now : time) : time := if plan_time_after_scan then now else start.
(* model's reading of the executor table; `source_exec_table_matches_model` (Props.v) pins it to the source *)
Definition model_section (t : todo) : option isec :=
  match t with
  | Keep | Recover => Some Unmarked
  | Repack | MarkDelete | KeepMarked => Some Marked
  | Delete => None
  end.
Definition source_section (t : todo) : option isec :=
  match t with
  | Keep => Some sec_Keep | Recover => Some sec_Recover | Repack => Some sec_Repack
  | MarkDelete => Some sec_MarkDelete | KeepMarked => Some sec_KeepMarked | Delete => None
  end.

(* what decide_packs + check_existing_packs + filter_index_files guarantee about a plan *)
Definition plan_ok (kd T : time) (v : list (iid * ifile)) (used : list blob) (existing : list pid)
           (asg : list (pid * todo)) (rw : list iid) : bool :=
  forallb (fun x => let i := fst x in let p := fst (snd x) in
             match todo_of asg p with
             | Some Keep => memb p existing
             | Some Repack => memb p existing && memb i rw
             | Some MarkDelete => memb i rw
             | _ => false
             end) (dunm v)
  && forallb (fun x => let i := fst x in let p := fst (fst (snd x)) in let tm := snd (snd x) in
             match todo_of asg p with
             | Some KeepMarked => true
             | Some Recover => memb p existing && memb i rw
             | Some Delete => expired kd T tm && memb i rw
             | _ => false
             end) (dmk v)
  && forallb (fun b =>
        existsb (fun x => memb b (snd (snd x)) && owns (todo_of asg (fst (snd x)))) (dunm v)
        || existsb (fun x => memb b (snd (fst (snd x))) && owns (todo_of asg (fst (fst (snd x))))) (dmk v)) used
  && forallb (fun i => memb i (map fst v)) rw.

(* blobs that only a repacked pack owns must be in the repack output before the new index is written *)
Definition kept_blobs (q : pst) : list blob :=
  flat_map (fun x => if stays_listed (todo_of (pasg q) (fst (snd x))) then snd (snd x) else []) (dunm (pview q))
  ++ flat_map (fun x => if stays_listed (todo_of (pasg q) (fst (fst (snd x)))) then snd (fst (snd x)) else []) (dmk (pview q)).

Definition new_index (q : pst) : ifile :=
  let T := ptime q in
  {| unm :=
       flat_map (fun x => if memb (fst x) (prw q) && stays_listed (todo_of (pasg q) (fst (snd x))) then [snd x] else []) (dunm (pview q))
       ++ flat_map (fun x => if memb (fst x) (prw q) && stays_listed (todo_of (pasg q) (fst (fst (snd x)))) then [fst (snd x)] else []) (dmk (pview q))
       ++ pnew q;
     mk :=
       flat_map (fun x => if memb (fst x) (prw q) then
                            match todo_of (pasg q) (fst (snd x)) with
                            | Some Repack => [(snd x, mark_time ts_Repack T 0)]
                            | Some MarkDelete => [(snd x, mark_time ts_MarkDelete T 0)]
                            | _ => [] end else []) (dunm (pview q))
       ++ flat_map (fun x => if memb (fst x) (prw q) then
                            match todo_of (pasg q) (fst (fst (snd x))) with
                            | Some KeepMarked => [(fst (snd x), mark_time ts_KeepMarked T (snd (snd x)))]
                            | _ => [] end else []) (dmk (pview q))
       ++ map (fun p => ((p, []), mark_time ts_Unreferenced T 0)) (punref q) |}.

(* the stamp of the delete marks: the plan time, or (marks_stamped_at_write) the clock when the index file
   holding them is written — `release_removals` runs right before `indexer.finalize()` *)
Definition restamp (now : time) (q : pst) : pst :=
  {| pph := pph q; plstart := plstart q; psidmark := psidmark q; pview := pview q; pused := pused q;
     pscanmark := pscanmark q; ptime := if marks_stamped_at_write then now else ptime q; pasg := pasg q;
     prw := prw q; punref := punref q; pnew := pnew q; pirm := pirm q; pdel := pdel q |}.

Definition delete_list (q : pst) : list pid :=
  flat_map (fun x => if is_delete (todo_of (pasg q) (fst (fst (snd x)))) then [fst (fst (snd x))] else []) (dmk (pview q)).

Definition set_bk (s : st) (c : nat) (b : bst) : st :=
  {| clock := clock s; packs := packs s; idxs := idxs s; snaps := snaps s;
     bks := replace_at c b (bks s); prn := prn s; nextp := nextp s; nexti := nexti s; nexts := nexts s |}.
Definition set_prn (s : st) (q : option pst) : st :=
  {| clock := clock s; packs := packs s; idxs := idxs s; snaps := snaps s;
     bks := bks s; prn := q; nextp := nextp s; nexti := nexti s; nexts := nexts s |}.

Definition with_phase (q : pst) (ph : pphase) : pst :=
  {| pph := ph; plstart := plstart q; psidmark := psidmark q; pview := pview q; pused := pused q;
     pscanmark := pscanmark q; ptime := ptime q; pasg := pasg q; prw := prw q; punref := punref q;
     pnew := pnew q; pirm := pirm q; pdel := pdel q |}.

(* None = the event is not enabled in this state.  `kd` = the prune's keep_delete. *)
Definition step (kd : time) (s : st) (e : ev) : option st :=
  match e with
  | Tick => Some {| clock := S (clock s); packs := packs s; idxs := idxs s; snaps := snaps s;
                    bks := bks s; prn := prn s; nextp := nextp s; nexti := nexti s; nexts := nexts s |}
  | BStart want =>
      Some {| clock := clock s; packs := packs s; idxs := idxs s; snaps := snaps s;
              bks := bks s ++ [{| bph := BNew; bt0 := clock s; bt1 := 0; btodo := []; bview := [];
                                  bwritten := []; bwant := want |}];
              prn := prn s; nextp := nextp s; nexti := nexti s; nexts := nexts s |}
  | BList c =>
      match nth_error (bks s) c with
      | Some b => match bph b with
                  | BNew => Some (set_bk s c {| bph := BListed; bt0 := bt0 b; bt1 := 0; btodo := map fst (idxs s);
                                                bview := []; bwritten := []; bwant := bwant b |})
                  | _ => None end
      | None => None
      end
  | BRead c i =>
      match nth_error (bks s) c with
      | Some b => match bph b with
                  | BListed =>
                      if memb i (btodo b) then
                        let got := match lookup i (idxs s) with Some f => unm f | None => [] end in
                        Some (set_bk s c {| bph := BListed; bt0 := bt0 b; bt1 := 0; btodo := remove_nat i (btodo b);
                                            bview := bview b ++ got; bwritten := bwritten b; bwant := bwant b |})
                      else None
                  | _ => None end
      | None => None
      end
  | BPack c bl =>
      match nth_error (bks s) c with
      | Some b => match bph b with
                  | BListed =>
                      let s' := set_bk s c {| bph := BListed; bt0 := bt0 b; bt1 := 0; btodo := btodo b; bview := bview b;
                                              bwritten := bwritten b ++ [(nextp s, bl)]; bwant := bwant b |} in
                      Some {| clock := clock s'; packs := packs s' ++ [(nextp s, bl)]; idxs := idxs s'; snaps := snaps s';
                              bks := bks s'; prn := prn s'; nextp := S (nextp s); nexti := nexti s'; nexts := nexts s' |}
                  | _ => None end
      | None => None
      end
  | BIndex c =>
      match nth_error (bks s) c with
      | Some b => match bph b with
                  | BListed =>
                      if forallb (fun x => memb x (blobs_of (held b))) (bwant b) then
                        let s' := set_bk s c {| bph := BIndexed; bt0 := bt0 b; bt1 := 0; btodo := btodo b; bview := bview b;
                                                bwritten := bwritten b; bwant := bwant b |} in
                        match bwritten b with
                        | [] => Some s'
                        | _ => Some {| clock := clock s'; packs := packs s';
                                       idxs := idxs s' ++ [(nexti s, {| unm := bwritten b; mk := [] |})];
                                       snaps := snaps s'; bks := bks s'; prn := prn s';
                                       nextp := nextp s'; nexti := S (nexti s); nexts := nexts s' |}
                        end
                      else None
                  | _ => None end
      | None => None
      end
  | BSnap c =>
      match nth_error (bks s) c with
      | Some b => match bph b with
                  | BIndexed =>
                      let s' := set_bk s c {| bph := BDone; bt0 := bt0 b; bt1 := clock s; btodo := btodo b; bview := bview b;
                                              bwritten := bwritten b; bwant := bwant b |} in
                      Some {| clock := clock s'; packs := packs s'; idxs := idxs s';
                              snaps := snaps s' ++ [(nexts s, bwant b)]; bks := bks s'; prn := prn s';
                              nextp := nextp s'; nexti := nexti s'; nexts := S (nexts s) |}
                  | _ => None end
      | None => None
      end
  | BAbort c =>
      match nth_error (bks s) c with
      | Some b => if running b then
                    Some (set_bk s c {| bph := BDone; bt0 := bt0 b; bt1 := clock s; btodo := btodo b; bview := bview b;
                                        bwritten := bwritten b; bwant := bwant b |})
                  else None
      | None => None
      end
  | PStart =>
      match prn s with
      | None => Some (set_prn s (Some {| pph := PLoaded; plstart := clock s; psidmark := nexts s; pview := idxs s;
                                         pused := []; pscanmark := 0; ptime := 0; pasg := []; prw := []; punref := [];
                                         pnew := []; pirm := []; pdel := [] |}))
      | Some _ => None
      end
  | PScan =>
      match prn s with
      | Some q => match pph q with
                  | PLoaded =>
                      let used := flat_map snd (snaps s) in
                      let known := blobs_of (map snd (all_unm (pview q))) ++ blobs_of (map (fun x => fst (snd x)) (all_mk (pview q))) in
                      if forallb (fun b => memb b known) used then
                        Some (set_prn s (Some {| pph := PScanned; plstart := plstart q; psidmark := psidmark q; pview := pview q;
                                                 pused := used; pscanmark := nexts s; ptime := 0; pasg := []; prw := [];
                                                 punref := []; pnew := []; pirm := []; pdel := [] |}))
                      else None
                  | _ => None end
      | None => None
      end
  | PPlan asg rw =>
      match prn s with
      | Some q => match pph q with
                  | PScanned =>
                      let existing := map fst (packs s) in
                      if plan_ok kd (plan_time (plstart q) (clock s)) (pview q) (pused q) existing asg rw then
                        Some (set_prn s (Some {| pph := PPlanned; plstart := plstart q; psidmark := psidmark q; pview := pview q;
                                                 pused := pused q; pscanmark := pscanmark q; ptime := plan_time (plstart q) (clock s); pasg := asg; prw := rw;
                                                 punref := filter (fun p => negb (memb p (view_pids (pview q)))) existing;
                                                 pnew := []; pirm := []; pdel := [] |}))
                      else None
                  | _ => None end
      | None => None
      end
  | PPack bl =>
      match prn s with
      | Some q => match pph q with
                  | PPlanned =>
                      let q' := {| pph := PPlanned; plstart := plstart q; psidmark := psidmark q; pview := pview q;
                                   pused := pused q; pscanmark := pscanmark q; ptime := ptime q; pasg := pasg q; prw := prw q;
                                   punref := punref q; pnew := pnew q ++ [(nextp s, bl)]; pirm := []; pdel := [] |} in
                      Some {| clock := clock s; packs := packs s ++ [(nextp s, bl)]; idxs := idxs s; snaps := snaps s;
                              bks := bks s; prn := Some q'; nextp := S (nextp s); nexti := nexti s; nexts := nexts s |}
                  | _ => None end
      | None => None
      end
  | PWriteIndex =>
      match prn s with
      | Some q => match pph q, prw q with
                  | PPlanned, _ :: _ =>
                      if forallb (fun b => memb b (kept_blobs q) || memb b (blobs_of (pnew q))) (pused q) then
                        let q' := {| pph := PIndexed; plstart := plstart q; psidmark := psidmark q; pview := pview q;
                                     pused := pused q; pscanmark := pscanmark q; ptime := ptime q; pasg := pasg q; prw := prw q;
                                     punref := punref q; pnew := pnew q; pirm := prw q; pdel := delete_list q |} in
                        Some {| clock := clock s; packs := packs s; idxs := idxs s ++ [(nexti s, new_index (restamp (clock s) q))]; snaps := snaps s;
                                bks := bks s; prn := Some q'; nextp := nextp s; nexti := S (nexti s); nexts := nexts s |}
                      else None
                  | _, _ => None end
      | None => None
      end
  | PRmIndex i =>
      match prn s with
      | Some q => match pph q with
                  | PIndexed =>
                      if memb i (pirm q) then
                        let q' := {| pph := PIndexed; plstart := plstart q; psidmark := psidmark q; pview := pview q;
                                     pused := pused q; pscanmark := pscanmark q; ptime := ptime q; pasg := pasg q; prw := prw q;
                                     punref := punref q; pnew := pnew q; pirm := remove_nat i (pirm q); pdel := pdel q |} in
                        Some {| clock := clock s; packs := packs s; idxs := remove_key i (idxs s); snaps := snaps s;
                                bks := bks s; prn := Some q'; nextp := nextp s; nexti := nexti s; nexts := nexts s |}
                      else None
                  | _ => None end
      | None => None
      end
  | PRmPack p =>
      match prn s with
      | Some q => match pph q, pirm q with
                  | PIndexed, [] =>
                      if memb p (pdel q) then
                        let q' := {| pph := PIndexed; plstart := plstart q; psidmark := psidmark q; pview := pview q;
                                     pused := pused q; pscanmark := pscanmark q; ptime := ptime q; pasg := pasg q; prw := prw q;
                                     punref := punref q; pnew := pnew q; pirm := []; pdel := remove_nat p (pdel q) |} in
                        Some {| clock := clock s; packs := remove_key p (packs s); idxs := idxs s; snaps := snaps s;
                                bks := bks s; prn := Some q'; nextp := nextp s; nexti := nexti s; nexts := nexts s |}
                      else None
                  | _, _ => None end
      | None => None
      end
  | PDone =>
      match prn s with
      | Some q => match pph q, prw q, pirm q, pdel q with
                  | PPlanned, [], _, _ => Some (set_prn s None)       (* "nothing to do" *)
                  | PIndexed, _, [], [] => Some (set_prn s None)
                  | _, _, _, _ => None end
      | None => None
      end
  | PAbort =>
      match prn s with
      | Some _ => Some (set_prn s None)
      | None => None
      end
  | Forget n =>
      Some {| clock := clock s; packs := packs s; idxs := idxs s; snaps := remove_key n (snaps s);
              bks := bks s; prn := prn s; nextp := nextp s; nexti := nexti s; nexts := nexts s |}
  end.

Fixpoint run (kd : time) (s : st) (es : list ev) : option st :=
  match es with
  | [] => Some s
  | e :: es' => match step kd s e with Some s' => run kd s' es' | None => None end
  end.

(* ---- observables (all executable) *)

(* the blob is stored in a present pack *)
Definition stored (s : st) (b : blob) : bool := existsb (fun e => memb b (snd e)) (packs s).
(* the blob is listed UNMARKED by a present index file in a present pack that holds it *)
Definition listed (s : st) (b : blob) : bool :=
  existsb (fun f => existsb (fun e => memb b (snd e) &&
                                      existsb (fun pk => Nat.eqb (fst pk) (fst e) && memb b (snd pk)) (packs s))
                            (unm (snd f))) (idxs s).
Definition snap_stored (s : st) (sn : sid * list blob) : bool := forallb (stored s) (snd sn).
Definition snap_closed (s : st) (sn : sid * list blob) : bool := forallb (listed s) (snd sn).
Definition all_stored (s : st) : bool := forallb (snap_stored s) (snaps s).
Definition all_closed (s : st) : bool := forallb (snap_closed s) (snaps s).
(* every pack a running backup relies on (saw unmarked, or wrote) still exists *)
Definition held_present (s : st) : bool :=
  forallb (fun b => negb (running b) ||
                    forallb (fun e => existsb (fun pk => Nat.eqb (fst pk) (fst e)) (packs s)) (held b)) (bks s).

Definition is_backup_ev (e : ev) : bool :=
  match e with
  | Tick | BStart _ | BList _ | BRead _ _ | BPack _ _ | BIndex _ | BSnap _ | BAbort _ => true
  | _ => false
  end.
Definition is_solo_prune_ev (e : ev) : bool :=
  match e with
  | Tick | PScan | PPlan _ _ | PPack _ | PWriteIndex | PRmIndex _ | PRmPack _ => true
  | _ => false
  end.

(* ---- the hypothesis the safety proof needs, as an executable state predicate:
   (a) while a backup runs, no pack it relies on carries a mark whose keep-delete time has expired;
   (b) a prune deletes only packs whose keep-delete time had expired when the prune STARTED
       (the code compares with the plan time, which the unrepaired source takes later). *)
Definition marks_of (s : st) : list (entry * time) := flat_map (fun f => mk (snd f)) (idxs s).
Definition timely_a (kd : time) (s : st) : bool :=
  forallb (fun b => negb (running b) ||
     forallb (fun e => forallb (fun m => negb (Nat.eqb (fst (fst m)) (fst e)) || (clock s <? snd m + kd))
                               (marks_of s)) (held b)) (bks s).
Definition timely_b (kd : time) (s : st) : bool :=
  match prn s with
  | Some q => match pph q with
              | PPlanned | PIndexed =>
                  forallb (fun x => negb (is_delete (todo_of (pasg q) (fst (fst (snd x)))))
                                    || (snd (snd x) + kd <=? plstart q)) (dmk (pview q))
              | _ => true end
  | None => true
  end.
Definition timely (kd : time) (s : st) : bool := timely_a kd s && timely_b kd s.

(* run that also demands `timely` of every state reached *)
Fixpoint run_timely (kd : time) (s : st) (es : list ev) : option st :=
  if timely kd s then
    match es with
    | [] => Some s
    | e :: es' => match step kd s e with Some s' => run_timely kd s' es' | None => None end
    end
  else None.

(* the premise in the form the repaired code supports: a running backup started before the marks on the packs
   it relies on were stamped (= published, when marks are stamped at the index write) and is younger than
   keep_delete *)
Definition premise (kd : time) (s : st) : bool :=
  forallb (fun b => negb (running b) ||
     forallb (fun e => forallb (fun m => negb (Nat.eqb (fst (fst m)) (fst e)) ||
                                         ((bt0 b <=? snd m) && (clock s <? bt0 b + kd)))
                               (marks_of s)) (held b)) (bks s).
Fixpoint run_prem (kd : time) (s : st) (es : list ev) : option st :=
  if premise kd s then
    match es with
    | [] => Some s
    | e :: es' => match step kd s e with Some s' => run_prem kd s' es' | None => None end
    end
  else None.

(* the literal premise of the property: every finished backup was shorter than keep_delete *)
Definition short_backups (kd : time) (s : st) : bool :=
  forallb (fun b => match bph b with BDone => bt1 b - bt0 b <? kd | _ => false end) (bks s).

(* ---- the witness against the literal premise with the unrepaired source (marks carry the PLAN time), which the
   line comments follow; with the present facts the run stops at the second PPlan (Props.slow_prune_rejected) *)
Definition slow_prune_kd : time := 10.
Definition slow_prune_run : list ev :=
  [ BStart [1]; BList 0; BPack 0 [1]; BIndex 0; BAbort 0;        (* pack 0 holds blob 1, indexed, no snapshot needs it *)
    PStart; PScan; PPlan [(0, MarkDelete)] [0];                   (* prune plans at T = 0: pack 0 is unused *)
    Tick; Tick; Tick; Tick; Tick;                                (* ... and is slow (repacking elsewhere) *)
    BStart [1]; BList 1; BRead 1 0;                               (* t = 5: a backup loads the index: pack 0 unmarked *)
    Tick; PWriteIndex; PRmIndex 0; PDone;                         (* t = 6: marks dated T = 0 become visible *)
    Tick; Tick; Tick; Tick;
    PStart; PScan; PPlan [(0, Delete)] [1];                       (* t = 10: 0 + 10 <= 10: delete *)
    PWriteIndex; PRmIndex 1; Tick; PRmPack 0; PDone;              (* t = 11: pack 0 removed *)
    Tick; BIndex 1; BSnap 1 ].                                    (* t = 12: the backup (7 < 10 long) references blob 1 *)
