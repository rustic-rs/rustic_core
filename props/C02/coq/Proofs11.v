(* C02 — find_used_blobs is complete: the walk over the trees collects every blob key needed to
   restore the snapshots it starts from, with its type. *)
From Verif.Base Require Import Tactics.
From Verif.C02 Require Import ModelBase Extracted Model ModelUsed Proofs2.
Local Open Scope N_scope.

(* blob key k is needed to restore the tree t *)
Inductive reach (st : tstore) : id -> N -> Prop :=
| r_self : forall t, reach st t (used_key Tree t)
| r_file : forall t ns c i, st t = Some ns -> In (NFile c) ns -> In i c -> reach st t (used_key Data i)
| r_dir : forall t ns s k, st t = Some ns -> In (NDir s) ns -> reach st s k -> reach st t k.

(* what the walk maintains for every visited tree v: it could be loaded, its keys are collected and
   its subtrees are visited or queued *)
Definition streamed (st : tstore) (todo visited : list id) (acc : list N) (v : id) : Prop :=
  exists ns, st v = Some ns
    /\ (forall n k, In n ns -> In k (node_keys n) -> In k acc)
    /\ (forall n s, In n ns -> In s (node_subs n) -> In s visited \/ In s todo).

Definition walk_inv (st : tstore) (todo visited : list id) (acc : list N) : Prop :=
  forall v, In v visited -> streamed st todo visited acc v.

Lemma streamed_mono : forall st todo visited acc todo' visited' acc' v,
  streamed st todo visited acc v -> (forall k, In k acc -> In k acc') ->
  (forall s, In s visited \/ In s todo -> In s visited' \/ In s todo') ->
  streamed st todo' visited' acc' v.
Proof.
  intros st todo visited acc todo' visited' acc' v (ns & E & K & S) HA HS.
  exists ns. split; [exact E|]. split; [intros n k Hn Hk; exact (HA k (K n k Hn Hk))|intros n s Hn Hs; exact (HS s (S n s Hn Hs))].
Qed.

Lemma walk_spec : forall fuel st todo visited acc out,
  walk fuel st todo visited acc = Some out -> walk_inv st todo visited acc ->
  (forall k, In k acc -> In k out)
  /\ exists visited', walk_inv st [] visited' out /\ (forall v, In v visited \/ In v todo -> In v visited').
Proof.
  induction fuel as [|f IH]; intros st [|t rest] visited acc out H Inv; cbn [walk] in H; try discriminate.
  1, 2: (* nothing queued *)
    injection H as <-; split; [auto|]; exists visited; split; [exact Inv|]; intros v [Hv|[]]; exact Hv.
  destruct (mem t visited) eqn:M.
  - (* already streamed *)
    apply mem_In in M.
    destruct (IH _ _ _ _ _ H) as (A & v' & B & C).
    { intros v Hv. apply (streamed_mono _ _ _ _ _ _ _ _ (Inv v Hv)); [auto|]. intros s [X|[<-|X]]; auto. }
    split; [exact A|]. exists v'. split; [exact B|]. intros v [Hv|[<-|Hv]]; apply C; auto.
  - destruct (st t) as [ns|] eqn:E; [|discriminate].
    destruct (IH _ _ _ _ _ H) as (A & v' & B & C).
    { intros v [<-|Hv].
      - exists ns. split; [exact E|].
        split; [intros n k Hn Hk|intros n s Hn Hs; right]; apply in_or_app; left; apply in_flat_map; exists n; auto.
      - apply (streamed_mono _ _ _ _ _ _ _ _ (Inv v Hv)); [intros; apply in_or_app; auto|].
        intros s [X|[<-|X]]; [left; right; exact X|left; left; reflexivity|right; apply in_or_app; auto]. }
    split; [intros k Hk; apply A, in_or_app; auto|]. exists v'. split; [exact B|].
    intros v [Hv|[<-|Hv]]; apply C; [left; right; exact Hv|left; left; reflexivity|right; apply in_or_app; auto].
Qed.

(* once nothing is queued, the visited trees are closed under subtrees: all they reach is collected *)
Lemma closed_reach : forall st visited out,
  walk_inv st [] visited out -> forall t k, reach st t k -> In t visited -> In (used_key Tree t) out -> In k out.
Proof.
  intros st visited out Inv t k R. induction R as [t|t ns c i E Hn Hi|t ns s k E Hn R IH]; intros Hv Hk; [exact Hk| |];
    destruct (Inv t Hv) as (ns' & E' & K & S); rewrite E in E'; injection E' as <-.
  - apply (K (NFile c)); [exact Hn|]. cbn [node_keys]. apply in_map. exact Hi.
  - apply IH; [destruct (S (NDir s) s Hn (or_introl eq_refl)) as [X|[]]; exact X|].
    apply (K (NDir s)); [exact Hn|]. left. reflexivity.
Qed.

Lemma forget_spec : forall ids snaps s, In s (forget ids snaps) <-> In s snaps /\ ~ In (fst s) ids.
Proof.
  intros ids snaps s. unfold forget. rewrite filter_In, Bool.negb_true_iff, <- Bool.not_true_iff_false, mem_In. tauto.
Qed.

(* example: root 1 = { file [10;11]; dir 2 }, tree 2 = { file [11]; symlink } ; snapshots (100,1), (101,2) *)
Definition ex_store : tstore := fun t =>
  if t =? 1 then Some [NFile [10; 11]; NDir 2] else if t =? 2 then Some [NFile [11]; NOther] else None.
Example ex_find_used :
  find_used 10 ex_store (roots_of (forget [101] [(100, 1); (101, 2)]))
  = Some [used_key Data 11; used_key Data 10; used_key Data 11; used_key Tree 2; used_key Tree 1].
Proof. vm_compute. reflexivity. Qed.
Example ex_find_used_missing_tree : find_used 10 ex_store [3] = None.
Proof. vm_compute. reflexivity. Qed.
