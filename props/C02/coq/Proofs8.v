(* C02 — the planner as a whole (what a successful plan_with guarantees) and the executor: where the
   entry of a planned pack ends up in the new index set, and with which time.  From both: used blobs
   stay available, a needed marked pack is recovered, a mark set by a run carries the time of that
   run and a mark carried over keeps its time (second sentence of the property: marked packs stay
   available for keep-delete). *)
From Verif.Base Require Import Tactics Lists.
From Verif.C02 Require Import ModelBase Extracted Model Spec Proofs Proofs2 Proofs3 Proofs4.
Local Open Scope N_scope.

Lemma map_static_ids : forall l l', map static l = map static l' -> map pp_id l = map pp_id l'.
Proof.
  intros l l' H. apply (f_equal (map (fun '(_, i, _, _, _, _, _) => i))) in H.
  rewrite !map_map in H. exact H.
Qed.

(* the index entry a planned pack stands for: decisions change, the entry does not *)
Definition ipack_of (p : ppack) : ipack := mkIPack (pp_id p) (pp_blobs p) (pp_time p) (pp_size p).
Definition entry_of (fs : list ifile) (p : ppack) : Prop :=
  exists f, nth_error fs (pp_idx p) = Some f /\ In (ipack_of p) (if pp_mark p then f_del f else f_packs f).

Lemma from_file_entry : forall fs p0 p, from_file fs 0 p0 -> static p = static p0 -> entry_of fs p.
Proof.
  intros fs p0 p (k & f & ip & N1 & N2 & N3 & N4) S.
  apply static_fields in S as (S1 & S2 & _ & S4 & S5 & S6 & S7).
  exists f. unfold ipack_of. rewrite S1, S2, S4, S5, S6, S7, N2. split; [exact N1|].
  rewrite N4. destruct ip. cbn. destruct (pp_mark p0); exact N3.
Qed.

Set Implicit Arguments.
Record plan_facts (dec : popts -> list ppack -> option (list (id * todo)))
                  (o : popts) (fs : list ifile) (used : list id) (existing : list (id * N)) (pl : plan_t) : Prop := {
  (* the planned packs are the packs decided by the table, with the candidates settled by dec *)
  pf_src : exists ps1 d, dec o ps1 = Some d /\ pl_packs pl = map (apply_repack d) ps1
                         /\ forall p, In p ps1 -> decided o p;
  pf_entry : forall p, In p (pl_packs pl) -> entry_of fs p;
  pf_nodup : NoDup (map pp_id (pl_packs pl));
  pf_exist : forall p, In p (pl_packs pl) -> pp_todo p = Keep \/ pp_todo p = Recover \/ pp_todo p = Repack ->
                       In (pp_id p) (map fst existing);
  pf_unref : forall e, In e (pl_unref pl) -> In e existing /\ forall p, In p (pl_packs pl) -> fst e <> pp_id p;
  (* a used key is held by a pack that stays, or is still wanted (in used_ids) and held by a pack that is repacked *)
  pf_cover : forall x, In x used ->
      (exists p, In p (pl_packs pl) /\ (pp_todo p = Keep \/ pp_todo p = Recover) /\ In x (ids (pp_blobs p)))
      \/ (pl_left pl x <> None /\ exists p, In p (pl_packs pl) /\ pp_todo p = Repack /\ In x (ids (pp_blobs p)));
  (* a planned pack still carries the answer of the decision table *)
  pf_decided : forall p, In p (pl_packs pl) -> decided o p;
  pf_final : forall p, In p (pl_packs pl) -> final_ok o p;
  pf_forced : forall p, In p (pl_packs pl) -> forces_rewrite (pp_todo p) (o_instant o) = true ->
                        In (pp_idx p) (pl_rewritten pl)
}.
Unset Implicit Arguments.

Lemma plan_with_facts : forall dec o fs used existing pl,
  plan_with dec o fs used existing = inr pl -> plan_facts dec o fs used existing pl.
Proof.
  intros dec o fs used existing pl H. unfold plan_with in H.
  destruct (plan_new fs) as [mods ps0] eqn:PN.
  destruct (check_used (count_used (umap0 used) ps0) used) eqn:CK; cbn [negb] in H; [|discriminate].
  destruct (decide_packs o (count_used (umap0 used) ps0) ps0) as [m1 ps1] eqn:DP.
  destruct (dec o ps1) as [d|] eqn:D; [|discriminate].
  destruct (cep existing m1 (map (apply_repack d) ps1)) as [e|[unref m2]] eqn:CE; [discriminate|]. injection H as <-.
  destruct (plan_new_spec _ _ _ PN) as (FF & ND & LM & PE).
  destruct (decide_packs_spec _ _ _ _ _ PE CK DP) as [(ST & _ & CV) DC].
  destruct (cep_spec _ _ _ _ _ CE) as (CU & CA & CC & CD).
  assert (ST2 : map static (map (apply_repack d) ps1) = map static ps0).
  { rewrite map_map, <- ST. apply map_ext. intro a. apply apply_repack_static. }
  assert (EN : forall p, In p (map (apply_repack d) ps1) -> entry_of fs p).
  { intros p Hp. apply (in_map static) in Hp. rewrite ST2 in Hp. apply in_map_iff in Hp as (p0 & E0 & H0).
    exact (from_file_entry _ _ _ (FF p0 H0) (eq_sym E0)). }
  constructor; cbn [pl_packs pl_unref pl_left pl_mods pl_rewritten].
  - exists ps1, d. auto.
  - exact EN.
  - rewrite (map_static_ids _ _ ST2). exact ND.
  - exact CA.
  - exact CC.
  - intros x Hx. destruct (CV x Hx) as (M1 & p1 & H1 & I1 & _ & G).
    (* the good pack holding x stays, or it was a candidate and is repacked: then x is still wanted,
       unless a pack that stays holds it too *)
    pose proof (in_map (apply_repack d) _ _ H1) as H2.
    pose proof (static_fields _ _ (apply_repack_static d p1)) as (_ & _ & _ & _ & _ & _ & B2).
    rewrite <- B2 in I1.
    assert (Stays : pp_todo (apply_repack d p1) = Keep \/ pp_todo (apply_repack d p1) = Recover ->
                    exists p, In p (map (apply_repack d) ps1) /\ (pp_todo p = Keep \/ pp_todo p = Recover) /\ In x (ids (pp_blobs p)))
      by (intro K; exists (apply_repack d p1); auto).
    destruct (apply_repack_todo d p1) as [[Cn E]|[_ [K|[K|K]]]].
    + left. apply Stays. rewrite E. destruct G as [G|[G|G]]; [auto|auto|contradiction].
    + left. apply Stays. auto.
    + destruct (m2 x) eqn:L; [right; split; [discriminate|exists (apply_repack d p1); auto]|].
      destruct (CD x) as [[_ Q]|[Z _]]; [left; exact Q|congruence].
    + destruct (CU _ H2 K).
  - intros p Hp. apply in_map_iff in Hp as (p1 & <- & H1). exact (apply_repack_decided _ _ _ (DC p1 H1)).
  - intros p Hp. apply in_map_iff in Hp as (p1 & <- & H1). exact (apply_repack_final _ _ _ (DC p1 H1)).
  - (* pp_idx is the position of an index file, and every index file has its `modified` flag *)
    intros p Hp F. apply (rewritten_forced _ _ _ p Hp F). destruct (EN p Hp) as (f & N & _).
    rewrite LM. apply nth_error_Some. rewrite N. discriminate.
Qed.

(* the time a delete mark written by this run carries *)
Definition mark_time (o : popts) : Z := if marks_restamped then o_rel o else o_now o.

Lemma restamp_now : forall o, restamp o (Some (o_now o)) = Some (mark_time o).
Proof. intro o. unfold restamp, mark_time. destruct marks_restamped; [rewrite Z.eqb_refl|]; reflexivity. Qed.

Lemma mark_time_bounds : forall o, (o_now o <= o_rel o)%Z -> (o_now o <= mark_time o <= o_rel o)%Z.
Proof. intros o H. unfold mark_time. destruct marks_restamped; lia. Qed.

(* what release_removals may do to the time of an entry of `packs_to_delete` *)
Definition restamped (o : popts) (t t' : Z) : Prop :=
  (t <> o_now o -> t' = t) /\ ((o_now o <= o_rel o)%Z -> (t <= t')%Z) /\ (marks_restamped = false -> t' = t).

Lemma restamped_refl : forall o t, restamped o t t.
Proof. intros o t. split; [reflexivity|]. split; [lia|reflexivity]. Qed.

Lemma restamp_some : forall o t, exists t', restamp o (Some t) = Some t' /\ restamped o t t'.
Proof.
  intros o t. unfold restamp. destruct marks_restamped eqn:M; [|exists t; split; [reflexivity|apply restamped_refl]].
  destruct (Z.eqb_spec t (o_now o)) as [->|]; [|exists t; split; [reflexivity|apply restamped_refl]].
  exists (o_rel o). split; [reflexivity|]. split; [congruence|]. split; [lia|discriminate].
Qed.

(* the input stream of the repacker for packs of type t *)
Definition sel (t : btype) (inputs : list (btype * (id * blob))) : list (id * blob) :=
  map snd (filter (fun x => btype_eqb (fst x) t) inputs).

Lemma sel_In : forall t inputs sb, In sb (sel t inputs) <-> In (t, sb) inputs.
Proof.
  intros t inputs sb. unfold sel. rewrite in_map_iff. split.
  - intros ([t' sb'] & E & H). apply filter_In in H as [H B]. cbn [fst snd] in *. subst sb'.
    destruct t', t; try discriminate; exact H.
  - intro H. exists (t, sb). split; [reflexivity|]. apply filter_In. split; [exact H|destruct t; reflexivity].
Qed.

Definition listed (sec : ifile -> list ipack) (out : outcome_t) (e : ipack) : Prop :=
  exists f, In f (out_index out) /\ In e (sec f).

Lemma listed_fields : forall sec out i bs t sz, listed sec out (mkIPack i bs t sz) ->
  exists f e, In f (out_index out) /\ In e (sec f) /\ p_id e = i /\ p_blobs e = bs /\ p_time e = t.
Proof. intros sec out i bs t sz (f & Hf & He). exists f, (mkIPack i bs t sz). auto. Qed.

Section Exec.
Variables (dec : popts -> list ppack -> option (list (id * todo)))
          (packer : list (id * blob) -> list newpack) (nid : id) (o : popts) (fs : list ifile)
          (used : list id) (existing : list (id * N)) (pl : plan_t).
Hypothesis PF : plan_facts dec o fs used existing pl.
Let out := execute packer nid o fs pl.

Lemma processed_iff : forall p, In p (processed pl) <-> In p (pl_packs pl) /\ In (pp_idx p) (pl_rewritten pl).
Proof. intro p. unfold processed, in_rewritten. rewrite filter_In, existsb_Nateqb_In. reflexivity. Qed.

(* when some index file is rewritten: one new index file takes the entries of all processed packs
   and of the packs written by the repackers *)
Lemma execute_rewritten : forall k, In k (pl_rewritten pl) ->
  out_new out = packer (sel Tree (repack_inputs (pl_left pl) (processed pl)))
                ++ packer (sel Data (repack_inputs (pl_left pl) (processed pl)))
  /\ exists nf, In nf (out_index out)
       /\ f_packs nf = sec_packs o (processed pl) ++ map (np_ipack (o_now o)) (out_new out)
       /\ (forall e, In e (sec_del o (processed pl)) -> In (del_entry o e) (f_del nf)).
Proof.
  intros k IR. unfold out, execute. destruct (pl_rewritten pl); [destruct IR|]. cbn [out_new out_index].
  split; [reflexivity|]. eexists. split; [apply in_or_app; right; left; reflexivity|]. split; [reflexivity|].
  intros e He. cbn [f_del]. apply in_map, in_or_app. right. exact He.
Qed.

Lemma rewritten_listed : forall q, In q (pl_packs pl) -> In (pp_idx q) (pl_rewritten pl) ->
  match exec_table (pp_todo q) (o_instant o) with
  | XPacks md => listed f_packs out (to_ipack (o_now o) md q)
  | XDel md => listed f_del out (del_entry o (to_ipack (o_now o) md q))
  | _ => True
  end.
Proof.
  intros q Hq IR. assert (Hpr : In q (processed pl)) by (apply processed_iff; auto).
  destruct (execute_rewritten _ IR) as (_ & nf & Hnf & Ep & Ed).
  destruct (exec_table (pp_todo q) (o_instant o)) eqn:E; try exact I; exists nf; (split; [exact Hnf|]).
  - rewrite Ep. apply in_or_app. left. apply in_flat_map. exists q. split; [exact Hpr|]. rewrite E. left. reflexivity.
  - apply Ed, in_flat_map. exists q. split; [exact Hpr|]. rewrite E. left. reflexivity.
Qed.

Lemma untouched_listed : forall q, In q (pl_packs pl) -> ~ In (pp_idx q) (pl_rewritten pl) ->
  listed (if pp_mark q then f_del else f_packs) out (ipack_of q).
Proof.
  intros q Hq NR. destruct (pf_entry PF q Hq) as (f & N & I). exists f. split; [|destruct (pp_mark q); exact I].
  unfold out, execute. destruct (pl_rewritten pl) eqn:R; cbn [out_index]; [eapply nth_error_In; eauto|].
  apply in_or_app. left. unfold untouched. apply in_map_iff. exists (pp_idx q, f). split; [reflexivity|].
  apply filter_In. split; [exact (enum_from_In fs _ 0%nat f N)|]. rewrite R.
  apply Bool.negb_true_iff, Bool.not_true_is_false. rewrite existsb_Nateqb_In. exact NR.
Qed.

Lemma forced_in_rewritten : forall p, In p (pl_packs pl) ->
  pp_todo p = Recover \/ pp_todo p = Repack \/ (pp_todo p = MarkDelete /\ o_instant o = false) ->
  In (pp_idx p) (pl_rewritten pl).
Proof. intros p Hp F. exact (pf_forced PF p Hp (forces_rewrite_spec _ _ F)). Qed.

Lemma removed_sub : forall i, In i (out_removed out) ->
  (o_instant o = true /\ In i (map fst (pl_unref pl)))
  \/ (exists p, In p (pl_packs pl) /\ pp_id p = i /\ exec_table (pp_todo p) (o_instant o) = XRemove).
Proof.
  intros i H. unfold out, execute in H.
  assert (U : In i (if o_instant o then map fst (pl_unref pl) else []) -> o_instant o = true /\ In i (map fst (pl_unref pl)))
    by (destruct (o_instant o); [auto|intros []]).
  destruct (pl_rewritten pl) eqn:R; cbn [out_removed] in H; [left; exact (U H)|].
  apply in_app_or in H as [H|H]; [left; exact (U H)|].
  right. unfold removed_of in H. apply in_flat_map in H as (p & Hp & K).
  exists p. split; [apply processed_iff, Hp|].
  destruct (exec_table (pp_todo p) (o_instant o)); cbn [In] in K; try contradiction. destruct K as [K|[]]. auto.
Qed.

Lemma not_removed : forall q md, In q (pl_packs pl) ->
  exec_table (pp_todo q) (o_instant o) = XPacks md -> ~ In (pp_id q) (out_removed out).
Proof.
  intros q md Hq E K. apply removed_sub in K as [[_ K]|(p & Hp & Ep & Xp)].
  - apply in_map_iff in K as (e & Ee & He). exact (proj2 (pf_unref PF e He) q Hq Ee).
  - assert (p = q) by (eapply NoDup_map_inj; [apply (pf_nodup PF)|exact Hp|exact Hq|exact Ep]).
    subst p. congruence.
Qed.

Lemma entry_listed : forall q b, In q (pl_packs pl) -> In b (pp_blobs q) -> listed_before fs (pp_id q) b.
Proof.
  intros q b Hq Hb. destruct (pf_entry PF q Hq) as (f & N & I).
  exists f, (ipack_of q). split; [eapply nth_error_In; eauto|].
  split; [destruct (pp_mark q); auto|]. split; [reflexivity|exact Hb].
Qed.

Lemma kept_listed : forall q, In q (pl_packs pl) -> pp_todo q = Keep \/ pp_todo q = Recover ->
  exists t, listed f_packs out (mkIPack (pp_id q) (pp_blobs q) t (pp_size q))
            /\ (pp_todo q = Recover -> t = Some (o_now o)).
Proof.
  intros q Hq K. destruct (in_dec Nat.eq_dec (pp_idx q) (pl_rewritten pl)) as [IR|NR].
  - pose proof (rewritten_listed q Hq IR) as L. rewrite (exec_kept _ _ K) in L.
    eexists. split; [exact L|]. intros ->. reflexivity.
  - (* untouched index file: only Keep can be there, and Keep is decided for unmarked packs only *)
    assert (Kq : pp_todo q = Keep).
    { destruct K as [K|K]; [exact K|]. destruct NR. apply forced_in_rewritten; auto. }
    pose proof (untouched_listed q Hq NR) as L. rewrite (proj1 (pf_final PF q Hq) (or_introl Kq)) in L.
    exists (pp_time q). split; [exact L|congruence].
Qed.

Lemma removed_taken : forall i, In i (out_removed out) -> taken fs existing i.
Proof.
  intros i H. apply removed_sub in H as [[_ H]|(p & Hp & Ep & _)].
  - left. apply in_map_iff in H as (e & Ee & He). apply in_map_iff. exists e. split; [exact Ee|].
    apply (pf_unref PF e He).
  - right. destruct (pf_entry PF p Hp) as (f & N & I).
    exists f, (ipack_of p). split; [eapply nth_error_In; eauto|]. split; [destruct (pp_mark p); auto|exact Ep].
Qed.

Lemma needed_marked_recovered : forall p x,
  In p (pl_packs pl) -> pp_mark p = true -> In x used -> In x (ids (pp_blobs p)) ->
  (forall q, In q (pl_packs pl) -> In x (ids (pp_blobs q)) -> q = p) ->
  pp_todo p = Recover /\ listed f_packs out (mkIPack (pp_id p) (pp_blobs p) (Some (o_now o)) (pp_size p)).
Proof.
  intros p x Hp Mk Hx Ix Uq.
  (* the pack holding x that stays or is repacked is p, and p is marked: it can only be recovered *)
  assert (R : pp_todo p = Recover).
  { destruct (pf_final PF p Hp) as (FK & _).
    destruct (pf_cover PF x Hx) as [(q & Hq & K & Iq)|(_ & q & Hq & K & Iq)];
      rewrite (Uq q Hq Iq) in K; [destruct K as [K|K]; [|exact K]|]; rewrite FK in Mk by auto; discriminate. }
  split; [exact R|]. destruct (kept_listed p Hp (or_intror R)) as (t & L & T). rewrite (T R) in L. exact L.
Qed.

(* Repack marks as well: the old pack goes to `packs_to_delete` once its used blobs were copied *)
Lemma fresh_mark_listed : forall p, o_instant o = false -> In p (pl_packs pl) -> pp_todo p = MarkDelete \/ pp_todo p = Repack ->
  listed f_del out (mkIPack (pp_id p) (pp_blobs p) (Some (mark_time o)) (pp_size p)).
Proof.
  intros p NI Hp K.
  assert (IR : In (pp_idx p) (pl_rewritten pl)) by (apply (forced_in_rewritten p Hp); destruct K; auto).
  pose proof (rewritten_listed p Hp IR) as L. rewrite NI, (exec_marks _ K) in L.
  unfold del_entry, to_ipack in L. cbn [p_id p_blobs p_time p_size new_time] in L. rewrite restamp_now in L. exact L.
Qed.

(* a pack left marked (KeepMarked) stays in `packs_to_delete` — whether or not its index file is
   rewritten — with its old mark time, unless that is, to the nanosecond, the plan time of this run
   and the source re-stamps: then it moves forward to the release time *)
Lemma kept_mark_listed : forall p t, o_instant o = false -> In p (pl_packs pl) -> pp_todo p = KeepMarked -> pp_time p = Some t ->
  exists t', listed f_del out (mkIPack (pp_id p) (pp_blobs p) (Some t') (pp_size p)) /\ restamped o t t'.
Proof.
  intros p t NI Hp K Tm. destruct (in_dec Nat.eq_dec (pp_idx p) (pl_rewritten pl)) as [IR|NR].
  - pose proof (rewritten_listed p Hp IR) as L. rewrite NI, K, exec_kept_mark in L.
    unfold del_entry, to_ipack in L. cbn [p_id p_blobs p_time p_size new_time] in L. rewrite Tm in L.
    destruct (restamp_some o t) as (t' & E & R). rewrite E in L. eauto.
  - pose proof (untouched_listed p Hp NR) as L.
    rewrite (proj1 (proj2 (pf_final PF p Hp)) K) in L. unfold ipack_of in L. rewrite Tm in L.
    exists t. split; [exact L|apply restamped_refl].
Qed.
Hypothesis PK : packer_ok packer (taken fs existing).

Lemma keeps_used : forall x, In x used -> avail_after (o_now o) fs existing out x.
Proof.
  intros x Hx. destruct (pf_cover PF x Hx) as [(q & Hq & K & Iq)|(L & q & Hq & K & Iq)].
  - (* some kept/recovered pack holds x *)
    left. destruct (kept_listed q Hq K) as (t & (f & Hf & Hp) & _).
    apply in_map_iff in Iq as (b & Exb & Hb).
    exists f, (mkIPack (pp_id q) (pp_blobs q) t (pp_size q)), b. cbn [p_id p_blobs].
    split; [exact Hf|]. split; [exact Hp|]. split; [exact Hb|]. split; [exact Exb|].
    split; [apply (pf_exist PF q Hq); tauto|].
    split; [exact (not_removed q _ Hq (exec_kept _ _ K))|apply entry_listed; assumption].
  - (* only repacked packs hold x: the first of them hands x to a repacker, which writes a copy (of
       this or of another handed-over entry of the key) into a fresh pack *)
    right.
    assert (IR : In (pp_idx q) (pl_rewritten pl)) by (apply forced_in_rewritten; auto).
    assert (Hpr : In q (processed pl)) by (apply processed_iff; auto).
    destruct (repack_inputs_covers (processed pl) (pl_left pl) x L) as (t & src & b & Hin & Eb).
    { exists q. split; [exact Hpr|]. split; [rewrite K; reflexivity|exact Iq]. }
    destruct (execute_rewritten _ IR) as (En & nf & Hnf & Ep & _).
    destruct (PK (sel t (repack_inputs (pl_left pl) (processed pl)))) as [P1 P2].
    destruct (P1 (src, b)) as (np & [src' b'] & Hnp & Hsb & Hsl & Eid); [apply sel_In; exact Hin|]. cbn [snd] in Eid.
    apply sel_In, repack_inputs_from in Hsl as (q' & Hq' & Rq' & -> & Hb' & _). apply processed_iff in Hq' as [Hq' _].
    assert (Hnps : In np (out_new out)) by (rewrite En; apply in_or_app; destruct t; auto).
    exists np, (pp_id q'), b'. split; [exact Hnps|]. split; [exact Hsb|]. split; [congruence|].
    split; [apply entry_listed; assumption|].
    split; [apply (pf_exist PF q' Hq'); right; right; apply exec_repacks_inv; exact Rq'|].
    split; [intro X; exact (P2 np Hnp (removed_taken _ X))|].
    exists nf. split; [exact Hnf|].
    rewrite Ep. apply in_or_app. right. apply in_map. exact Hnps.
Qed.

End Exec.

Lemma prune_with_inr : forall dec packer nid o fs used existing pl out,
  prune_with dec packer nid o fs used existing = inr (pl, out) ->
  plan_facts dec o fs used existing pl /\ out = execute packer nid o fs pl.
Proof.
  intros dec packer nid o fs used existing pl out H. unfold prune_with in H.
  destruct (plan_with dec o fs used existing) as [e|pl'] eqn:P; [discriminate|]. injection H as <- <-.
  split; [exact (plan_with_facts _ _ _ _ _ _ P)|reflexivity].
Qed.
