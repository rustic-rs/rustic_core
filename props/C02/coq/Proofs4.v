(* C02 — the steps of the planner around decide_packs, one by one.  PrunePlan::new (de-duplication
   of index listings): every planned pack stands for an index entry and pack ids are unique; the
   unmarked and the marked listings are de-duplicated apart (two `processed` sets), a marked
   listing then yields to an unmarked one of the same pack.  Then apply_repack,
   check_existing_packs, filter_index_files, and what the executor hands to the repackers. *)
From Verif.Base Require Import Tactics Lists.
From Verif.C02 Require Import ModelBase Extracted Model Proofs Proofs2 Proofs3.
Local Open Scope N_scope.

(* the ids `l` pass the filter of a set that held `seen` and holds `s` afterwards *)
Definition fresh (seen s l : list id) : Prop :=
  NoDup l /\ (forall i, In i l -> ~ In i seen) /\ (forall i, In i s <-> In i seen \/ In i l).

Lemma fresh_nil : forall s, fresh s s [].
Proof. intro s. split; [constructor|]. split; [intros i []|]. intro i. cbn [In]. tauto. Qed.

Lemma fresh_app : forall seen s1 s2 a b, fresh seen s1 a -> fresh s1 s2 b -> fresh seen s2 (a ++ b).
Proof.
  intros seen s1 s2 a b (Na & Da & Sa) (Nb & Db & Sb).
  assert (Dab : forall i, In i a -> ~ In i b) by (intros i Hi K; apply (Db i K), Sa; auto).
  split; [|split].
  - apply NoDup_app_iff. auto.
  - intros i Hi K. apply in_app_or in Hi as [Hi|Hi]; [exact (Da i Hi K)|apply (Db i Hi), Sa; auto].
  - intro i. rewrite Sb, Sa, in_app_iff. tauto.
Qed.

Lemma dedup_spec : forall l seen s r d,
  dedup seen l = (s, r, d) -> (forall p, In p r -> In p l) /\ fresh seen s (map p_id r).
Proof.
  induction l as [|p tl IH]; intros seen s r d H; cbn [dedup] in H.
  - injection H as <- <- _. split; [intros p []|apply fresh_nil].
  - destruct (mem (p_id p) seen) eqn:M.
    + destruct (dedup seen tl) as [[s1 r1] d1] eqn:E. injection H as <- <- <-. destruct (IH _ _ _ _ E) as [A F].
      split; [intros q Hq; right; exact (A q Hq)|exact F].
    + destruct (dedup (p_id p :: seen) tl) as [[s1 r1] d1] eqn:E. injection H as <- <- <-. destruct (IH _ _ _ _ E) as [A F].
      split; [intros q [Hq|Hq]; [left; exact Hq|right; exact (A q Hq)]|].
      apply (fresh_app seen (p_id p :: seen) s1 [p_id p]); [|exact F].
      split; [repeat constructor; intros []|]. split; [|intro i; cbn [In]; tauto].
      intros i [<-|[]]. rewrite <- mem_In. congruence.
Qed.

Definition ids_of (b : bool) (ps : list ppack) : list id :=
  map pp_id (filter (fun p => Bool.eqb (pp_mark p) b) ps).

Lemma ids_of_app : forall b x y, ids_of b (x ++ y) = ids_of b x ++ ids_of b y.
Proof. intros. unfold ids_of. rewrite filter_app, map_app. reflexivity. Qed.

Lemma ids_of_new : forall n b b' r,
  ids_of b (map (of_ipack n b') r) = if Bool.eqb b' b then map p_id r else [].
Proof.
  intros n b b' r. unfold ids_of.
  induction r as [|p t IH]; cbn [map filter of_ipack pp_mark]; [destruct (Bool.eqb b' b); reflexivity|].
  destruct (Bool.eqb b' b); [cbn [map]; f_equal|]; exact IH.
Qed.

(* provenance: the planned pack is the image of an index entry of file number pp_idx *)
Definition from_file (fs : list ifile) (base : nat) (pp : ppack) : Prop :=
  exists k f ip, nth_error fs k = Some f /\ pp_idx pp = (base + k)%nat
    /\ (if pp_mark pp then In ip (f_del f) else In ip (f_packs f))
    /\ pp = of_ipack (base + k) (pp_mark pp) ip.

Lemma from_file_head : forall f tl n (b : bool) ip,
  In ip (if b then f_del f else f_packs f) -> from_file (f :: tl) n (of_ipack n b ip).
Proof.
  intros f tl n b ip H. exists 0%nat, f, ip. cbn [nth_error of_ipack pp_idx pp_mark]. rewrite Nat.add_0_r.
  destruct b; auto.
Qed.

Lemma from_file_tail : forall f tl n pp, from_file tl (S n) pp -> from_file (f :: tl) n pp.
Proof.
  intros f tl n pp (k & g & ip & N1 & N2 & N3 & N4). exists (S k), g, ip.
  rewrite Nat.add_succ_r. auto.
Qed.

Lemma from_file_pending : forall fs n pp, from_file fs n pp -> is_pending pp = true.
Proof. intros fs n pp (k & f & ip & _ & _ & _ & E). rewrite E. reflexivity. Qed.

Lemma new_files_spec : forall fs n seen seend seenF mods ps,
  new_files n seen seend fs = (seenF, mods, ps) ->
  (forall pp, In pp ps -> from_file fs n pp)
  /\ fresh seen seenF (ids_of false ps) /\ (exists s, fresh seend s (ids_of true ps))
  /\ length mods = length fs.
Proof.
  induction fs as [|f tl IH]; intros n seen seend seenF mods ps H; cbn [new_files] in H.
  - injection H as <- <- <-. pose proof fresh_nil. split; [intros pp []|]. eauto.
  - destruct (dedup seen (f_packs f)) as [[seen1 r1] d1] eqn:D1.
    destruct (dedup seend (f_del f)) as [[seend1 r2] d2] eqn:D2.
    destruct (new_files (S n) seen1 seend1 tl) as [[sF ms] rest] eqn:R. injection H as <- <- <-.
    destruct (dedup_spec _ _ _ _ _ D1) as [A1 F1]. destruct (dedup_spec _ _ _ _ _ D2) as [A2 F2].
    destruct (IH _ _ _ _ _ _ R) as (P & U & [s M] & Ln).
    split; [|rewrite !ids_of_app, !ids_of_new; cbn [Bool.eqb app length]; split; [|split; [exists s|]]].
    + intros pp Hpp. rewrite !in_app_iff, !in_map_iff in Hpp.
      destruct Hpp as [(ip & <- & Hip)|[(ip & <- & Hip)|Hpp]];
        [apply from_file_head, A1|apply from_file_head, A2|apply from_file_tail, P]; assumption.
    + exact (fresh_app _ _ _ _ _ F1 U).
    + exact (fresh_app _ _ _ _ _ F2 M).
    + f_equal. exact Ln.
Qed.

Lemma NoDup_ids_filter : forall (K : ppack -> bool) l,
  (forall b, NoDup (ids_of b l)) ->
  (forall p q, In p l -> In q l -> K p = true -> K q = true -> pp_mark p <> pp_mark q -> pp_id p <> pp_id q) ->
  NoDup (map pp_id (filter K l)).
Proof.
  intros K l. induction l as [|a t IH]; intros H D; cbn [filter]; [constructor|].
  assert (IHt : NoDup (map pp_id (filter K t))).
  { apply IH; [|intros p q Hp Hq; apply D; right; assumption].
    intro b. specialize (H b). unfold ids_of in *. cbn [filter] in H.
    destruct (Bool.eqb (pp_mark a) b); [inv H|]; assumption. }
  destruct (K a) eqn:Ka; [|exact IHt]. cbn [map]. constructor; [|exact IHt].
  intro I. apply in_map_iff in I as (y & E & Hy). apply filter_In in Hy as [Hy Ky].
  destruct (Bool.bool_dec (pp_mark y) (pp_mark a)) as [G|G].
  - specialize (H (pp_mark a)). unfold ids_of in H. cbn [filter] in H. rewrite Bool.eqb_reflx in H. inv H.
    apply H2, in_map_iff. exists y. split; [exact E|]. apply filter_In. split; [exact Hy|]. rewrite G. apply Bool.eqb_reflx.
  - exact (D y a (or_intror Hy) (or_introl eq_refl) Ky Ka G E).
Qed.

Lemma mods_fix_length : forall seenF ps mods n, length (mods_fix n seenF ps mods) = length mods.
Proof. induction mods as [|[fid m] t IH]; intro n; cbn [mods_fix length]; [reflexivity|]. f_equal. apply IH. Qed.

Lemma plan_new_spec : forall fs mods ps,
  plan_new fs = (mods, ps) ->
  (forall pp, In pp ps -> from_file fs 0 pp)
  /\ NoDup (map pp_id ps)
  /\ length mods = length fs
  /\ (forall pp, In pp ps -> is_pending pp = true).
Proof.
  intros fs mods ps H. unfold plan_new in H.
  destruct (new_files 0 [] [] fs) as [[seenF ms] ps0] eqn:E. injection H as <- <-.
  destruct (new_files_spec _ _ _ _ _ _ _ E) as (P & (U1 & _ & U3) & [s (M1 & _)] & Ln).
  assert (FF : forall pp, In pp (filter (keep_after_new seenF) ps0) -> from_file fs 0 pp)
    by (intros pp Hpp; apply filter_In in Hpp; apply P, Hpp).
  split; [exact FF|]. split; [|split; [rewrite mods_fix_length; exact Ln|intros pp Hpp; exact (from_file_pending _ _ _ (FF pp Hpp))]].
  apply NoDup_ids_filter; [intros []; assumption|].
  (* a marked listing that is kept has an id not listed unmarked *)
  assert (X : forall p q, In q ps0 -> keep_after_new seenF p = true -> pp_mark p = true -> pp_mark q = false ->
                          pp_id p <> pp_id q).
  { intros p q Hq Kp Mp Mq Eq. unfold keep_after_new in Kp. rewrite Mp in Kp. cbn [negb orb] in Kp.
    apply Bool.negb_true_iff in Kp. rewrite Eq in Kp.
    assert (I : In (pp_id q) seenF); [|apply mem_In in I; congruence].
    apply U3. right. unfold ids_of. apply in_map, filter_In. rewrite Mq. auto. }
  intros p q Hp Hq Kp Kq G. destruct (pp_mark p) eqn:Mp, (pp_mark q) eqn:Mq; try congruence.
  - exact (X p q Hq Kp Mp Mq).
  - intro Eq. exact (X q p Hp Kq Mq Mp (eq_sym Eq)).
Qed.

Lemma apply_repack_static : forall d p, static (apply_repack d p) = static p.
Proof. intros d p. unfold apply_repack. destruct (pp_cand p); reflexivity. Qed.

Lemma apply_repack_pp_info : forall d p, pp_info (apply_repack d p) = pp_info p.
Proof. intros d p. unfold apply_repack. destruct (pp_cand p); reflexivity. Qed.

Lemma apply_repack_info : forall d p, info_of (apply_repack d p) = info_of p.
Proof. intros d p. unfold apply_repack. destruct (pp_cand p); reflexivity. Qed.

Lemma apply_repack_guards : forall o d p, guards_of o (apply_repack d p) = guards_of o p.
Proof. intros o d p. unfold apply_repack. destruct (pp_cand p); reflexivity. Qed.

Lemma apply_repack_cand : forall d p, pp_cand (apply_repack d p) = pp_cand p.
Proof. intros d p. unfold apply_repack. destruct (pp_cand p) eqn:C; [reflexivity|exact C]. Qed.

(* settling the candidates leaves the table's answer in place: it reads the decision of a candidate
   off pp_cand, which stays *)
Lemma apply_repack_decided : forall o d p, decided o p -> decided o (apply_repack d p).
Proof.
  intros o d p [Np T]. unfold apply_repack. destruct (pp_cand p) as [r|] eqn:C; [|exact (conj Np T)].
  unfold outcome_of in T. rewrite C in T. exact (conj Np T).
Qed.

Lemma apply_repack_todo : forall d p,
  (pp_cand p = None /\ apply_repack d p = p)
  \/ (pp_cand p <> None /\ (pp_todo (apply_repack d p) = Keep \/ pp_todo (apply_repack d p) = Repack
                           \/ pp_todo (apply_repack d p) = Undecided)).
Proof.
  intros d p. unfold apply_repack. destruct (pp_cand p) as [r|]; [right|left; split; reflexivity].
  split; [discriminate|]. cbn [pp_todo]. destruct (lookup (pp_id p) d) as [[]|]; auto.
Qed.

(* after apply_repack: what the decision of a pack tells about the pack *)
Definition final_ok (o : popts) (p : ppack) : Prop :=
  (pp_todo p = Keep \/ pp_todo p = Repack -> pp_mark p = false)
  /\ (pp_todo p = KeepMarked -> pp_mark p = true)
  /\ (pp_todo p = Delete ->
        pp_mark p = true /\ pi_used_blobs (info_of p) = 0
        /\ exists t, pp_time p = Some t /\ (t <= o_now o - o_keep_delete o)%Z).

Lemma apply_repack_final : forall o d p, decided o p -> final_ok o (apply_repack d p).
Proof.
  intros o d p Dp. destruct (apply_repack_decided o d p Dp) as (_ & T). apply decide_table_inv in T. unfold outcome_of in T. rewrite apply_repack_cand in T.
  destruct (apply_repack_todo d p) as [[Cn E]|[Cn K]].
  - (* not a candidate: the table's decision stands *)
    rewrite E in T |- *. rewrite Cn in T.
    split; [intros [K|K]; rewrite K in T; [exact T|destruct T]|].
    split; intro K; rewrite K in T; [apply T|exact T].
  - (* a candidate is unmarked and becomes Keep or Repack *)
    destruct (pp_cand p); [|congruence]. destruct T as [Mk _].
    split; [intros _; exact Mk|]. split; intro X; destruct K as [K|[K|K]]; congruence.
Qed.

Lemma lookup_In : forall {A} k (l : list (id * A)) v, lookup k l = Some v -> In (k, v) l.
Proof.
  induction l as [|[k' v'] t IH]; intros v H; cbn [lookup] in H; [discriminate|].
  destruct (N.eqb_spec k k') as [<-|]; [inv H; left; reflexivity|right; apply IH; exact H].
Qed.

Lemma lookup_all : forall {A} (d : list (id * A)) v k,
  (forall e, In e d -> snd e = v) -> In k (map fst d) -> lookup k d = Some v.
Proof.
  induction d as [|[k' v'] tl IH]; intros v k H Hin; [destruct Hin|]. cbn [lookup].
  destruct (N.eqb_spec k k') as [->|Ne]; [f_equal; exact (H _ (or_introl eq_refl))|].
  apply IH; [intros e He; apply H; right; exact He|]. destruct Hin as [Hin|Hin]; [cbn in Hin; congruence|exact Hin].
Qed.

Lemma del_blobs_spec : forall bs m x, del_blobs m bs x = if mem x (ids bs) then None else m x.
Proof.
  unfold del_blobs. induction bs as [|b t IH]; intros m x; cbn [fold_left]; [reflexivity|].
  rewrite IH, mem_ids_cons. unfold del. destruct (mem x (ids t)), (x =? b_key b); reflexivity.
Qed.

Lemma cep_spec : forall ps ex m unref m2,
  cep ex m ps = inr (unref, m2) ->
  (forall p, In p ps -> pp_todo p <> Undecided)
  /\ (forall p, In p ps -> pp_todo p = Keep \/ pp_todo p = Recover \/ pp_todo p = Repack -> In (pp_id p) (map fst ex))
  /\ (forall e, In e unref -> In e ex /\ forall p, In p ps -> fst e <> pp_id p)
  /\ (forall x, (m2 x = None /\ exists p, In p ps /\ (pp_todo p = Keep \/ pp_todo p = Recover) /\ In x (ids (pp_blobs p)))
                \/ (m2 x = m x /\ forall p, In p ps -> pp_todo p = Keep \/ pp_todo p = Recover -> ~ In x (ids (pp_blobs p)))).
Proof.
  induction ps as [|p tl IH]; intros ex m unref m2 H; cbn [cep] in H.
  - injection H as <- <-. split; [intros p []|]. split; [intros p []|]. split; [intros e He; split; [exact He|intros p []]|].
    intro x. right. split; [reflexivity|intros p []].
  - pose proof (cep_table_err (pp_todo p)) as TE. pose proof (cep_table_drops (pp_todo p)) as TD.
    pose proof (cep_table_checks (pp_todo p)) as TC.
    destruct (cep_table (pp_todo p)) as [[err drops] chk]. cbn [fst snd] in TE, TD, TC.
    destruct err; [discriminate|].
    assert (Hchk : chk = true -> In (pp_id p) (map fst ex)).
    { intros ->. destruct (lookup (pp_id p) ex) as [s|] eqn:L; [|discriminate].
      apply lookup_In in L. exact (in_map fst _ _ L). }
    assert (H' : cep (ex_remove (pp_id p) ex) (if drops then del_blobs m (pp_blobs p) else m) tl = inr (unref, m2)).
    { destruct chk; [|exact H]. destruct (lookup (pp_id p) ex) as [s|]; [|discriminate].
      destruct (s =? pp_size p); [exact H|discriminate]. }
    destruct (IH _ _ _ _ H') as (A & B & C & D).
    (* the listing shrinks along the way *)
    assert (Ex : forall e, In e (ex_remove (pp_id p) ex) -> In e ex /\ fst e <> pp_id p).
    { intros e He. apply filter_In in He as [He Ne]. apply Bool.negb_true_iff, N.eqb_neq in Ne. auto. }
    split; [|split; [|split]].
    + intros q [<-|Hq]; [intro U; apply TE in U; discriminate|exact (A q Hq)].
    + intros q [<-|Hq] K; [exact (Hchk (TC K))|].
      apply (B q Hq), in_map_iff in K as (e & E & He). apply in_map_iff. exists e. split; [exact E|apply Ex, He].
    + intros e He. destruct (C e He) as [C1 C2]. apply Ex in C1 as [C1 C3]. split; [exact C1|].
      intros q [<-|Hq]; [exact C3|exact (C2 q Hq)].
    + intro x. destruct (D x) as [(D1 & q & Hq & Kq)|[D1 D2]];
        [left; split; [exact D1|]; exists q; split; [right; exact Hq|exact Kq]|].
      destruct drops.
      * rewrite del_blobs_spec in D1. destruct (mem x (ids (pp_blobs p))) eqn:Mx.
        -- left. split; [exact D1|]. exists p. split; [left; reflexivity|]. split; [apply TD; reflexivity|apply mem_In; exact Mx].
        -- right. split; [exact D1|]. intros q [<-|Hq] K; [|exact (D2 q Hq K)]. rewrite <- mem_In. congruence.
      * right. split; [exact D1|]. intros q [<-|Hq] K; [|exact (D2 q Hq K)]. apply TD in K. discriminate.
Qed.

Lemma enum_from_In : forall {A} (l : list A) k n a, nth_error l k = Some a -> In ((n + k)%nat, a) (enum_from n l).
Proof.
  induction l as [|h t IH]; intros k n a H; destruct k; cbn [nth_error] in H; try discriminate.
  - inv H. rewrite Nat.add_0_r. left. reflexivity.
  - cbn [enum_from]. right. rewrite Nat.add_succ_r. apply (IH k (S n)). exact H.
Qed.

Lemma rewritten_forced : forall instant mods ps p,
  In p ps -> forces_rewrite (pp_todo p) instant = true -> (pp_idx p < length mods)%nat ->
  In (pp_idx p) (rewritten instant mods ps).
Proof.
  intros instant mods ps p Hp F L. unfold rewritten.
  destruct (nth_error mods (pp_idx p)) as [[fid md]|] eqn:N; [|apply nth_error_None in N; lia].
  apply (enum_from_In mods _ 0%nat) in N. cbn [Nat.add] in N.
  assert (MM : must_modify instant ps (pp_idx p) md = true).
  { unfold must_modify. apply Bool.orb_true_iff. right. apply existsb_exists. exists p. split; [|exact F].
    apply filter_In. split; [exact Hp|apply Nat.eqb_refl]. }
  replace (existsb _ (enum_from 0 mods)) with true
    by (symmetry; apply existsb_exists; exists (pp_idx p, (fid, md)); split; [exact N|exact MM]).
  apply in_map_iff. exists (pp_idx p, (fid, md)). split; [reflexivity|]. apply filter_In. split; [exact N|].
  rewrite MM. reflexivity.
Qed.

Lemma retain_spec : forall bs m m' r,
  retain m bs = (m', r) ->
  (forall b, In b r -> In b bs)
  /\ (forall x, m x <> None -> In x (ids bs) -> exists b, In b r /\ b_key b = x)
  /\ (forall x, ~ In x (ids bs) -> m' x = m x).
Proof.
  induction bs as [|b tl IH]; intros m m' r H; cbn [retain] in H.
  - inv H. split; [intros b []|]. split; [intros x _ []|reflexivity].
  - destruct (m (b_key b)) as [c|] eqn:Eb.
    + destruct (retain (del m (b_key b)) tl) as [m1 r1] eqn:R. injection H as <- <-. destruct (IH _ _ _ R) as (A & B & C).
      assert (Dl : forall x, x <> b_key b -> del m (b_key b) x = m x)
        by (intros x Ne; unfold del; destruct (N.eqb_spec x (b_key b)); [contradiction|reflexivity]).
      split; [intros q [Hq|Hq]; [left; exact Hq|right; exact (A q Hq)]|]. split.
      * intros x Hx Hin. destruct (N.eq_dec x (b_key b)) as [->|Ne]; [exists b; split; [left|]; reflexivity|].
        destruct Hin as [Hin|Hin]; [congruence|]. rewrite <- Dl in Hx by exact Ne.
        destruct (B x Hx Hin) as (q & Hq & Eq). exists q. split; [right; exact Hq|exact Eq].
      * intros x Hx. cbn [ids map In] in Hx. rewrite C, Dl; [reflexivity|intros ->|]; tauto.
    + destruct (IH _ _ _ H) as (A & B & C).
      split; [intros q Hq; right; exact (A q Hq)|]. split.
      * intros x Hx [Hin|Hin]; [congruence|exact (B x Hx Hin)].
      * intros x Hx. apply C. intro K. apply Hx. right. exact K.
Qed.

Lemma repack_inputs_from : forall ps m t src b,
  In (t, (src, b)) (repack_inputs m ps) ->
  exists q, In q ps /\ exec_repacks (pp_todo q) = true /\ src = pp_id q /\ In b (pp_blobs q) /\ t = pp_type q.
Proof.
  induction ps as [|p tl IH]; intros m t src b H; cbn [repack_inputs] in H; [destruct H|].
  destruct (exec_repacks (pp_todo p)) eqn:E;
    [destruct (retain m (pp_blobs p)) as [m1 r] eqn:R; apply in_app_or in H as [H|H]|].
  2, 3: (* handed over by a later pack *)
    destruct (IH _ _ _ _ H) as (q & Hq & K); exists q; split; [right; exact Hq|exact K].
  apply in_map_iff in H as (b0 & [= <- <- <-] & Hb). exists p. split; [left; reflexivity|].
  split; [exact E|]. split; [reflexivity|]. split; [exact (proj1 (retain_spec _ _ _ _ R) _ Hb)|reflexivity].
Qed.

(* a key still wanted (in used_ids) that a repacked pack holds is handed to a repacker, by the
   first such pack *)
Lemma repack_inputs_covers : forall ps m x,
  m x <> None -> (exists p, In p ps /\ exec_repacks (pp_todo p) = true /\ In x (ids (pp_blobs p))) ->
  exists t src b, In (t, (src, b)) (repack_inputs m ps) /\ b_key b = x.
Proof.
  induction ps as [|p tl IH]; intros m x Hx (q & Hq & Eq & Hin); [destruct Hq|].
  cbn [repack_inputs]. destruct (exec_repacks (pp_todo p)) eqn:E.
  - destruct (retain m (pp_blobs p)) as [m1 r] eqn:R. destruct (retain_spec _ _ _ _ R) as (A & B & C).
    destruct (in_dec N.eq_dec x (ids (pp_blobs p))) as [I|NI].
    + destruct (B x Hx I) as (b & Hb & Eb). exists (pp_type p), (pp_id p), b. split; [|exact Eb].
      apply in_or_app. left. apply in_map_iff. exists b. split; [reflexivity|exact Hb].
    + destruct Hq as [<-|Hq]; [contradiction|].
      destruct (IH m1 x) as (t & src & b & H1 & H2); [rewrite C by exact NI; exact Hx|exists q; auto|].
      exists t, src, b. split; [apply in_or_app; right; exact H1|exact H2].
  - destruct Hq as [<-|Hq]; [congruence|]. apply (IH m x Hx). exists q. auto.
Qed.
