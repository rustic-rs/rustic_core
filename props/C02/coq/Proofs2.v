(* C02 — the duplicate-aware accounting: what count_used_blobs and PackInfo::from_pack do to the
   counters of used_ids, in terms of the number of occurrences of a key in a list of blobs. *)
From Verif.Base Require Import Tactics Lists.
From Verif.C02 Require Import ModelBase Extracted Model Proofs.
Local Open Scope N_scope.

Definition ids (bs : list blob) : list id := map b_key bs.
Fixpoint occ (x : id) (bs : list blob) : N :=
  match bs with [] => 0 | b :: tl => (if b_key b =? x then 1 else 0) + occ x tl end.

Lemma occ_notin : forall x bs, ~ In x (ids bs) -> occ x bs = 0.
Proof.
  induction bs as [|b tl IH]; intro H; cbn [occ]; [reflexivity|].
  cbn [ids map In] in H. destruct (N.eqb_spec (b_key b) x); [tauto|]. apply IH. tauto.
Qed.

Lemma occ_app : forall x a b, occ x (a ++ b) = occ x a + occ x b.
Proof. induction a as [|h t IH]; intro b; cbn [occ app]; [reflexivity|]. rewrite IH. lia. Qed.

Lemma upd_same : forall m k v, upd m k v k = Some v.
Proof. intros. unfold upd. rewrite N.eqb_refl. reflexivity. Qed.
Lemma upd_other : forall m k v x, x <> k -> upd m k v x = m x.
Proof. intros. unfold upd. destruct (N.eqb_spec x k); [contradiction|reflexivity]. Qed.

Lemma mem_In : forall x l, mem x l = true <-> In x l.
Proof. exact existsb_Neqb_In. Qed.

Lemma mem_app : forall x a b, mem x (a ++ b) = mem x a || mem x b.
Proof. intros. unfold mem. apply existsb_app. Qed.

Lemma ids_app : forall a b, ids (a ++ b) = ids a ++ ids b.
Proof. intros. unfold ids. apply map_app. Qed.

Lemma mem_ids_app : forall x a b, mem x (ids (a ++ b)) = mem x (ids a) || mem x (ids b).
Proof. intros. rewrite ids_app. apply mem_app. Qed.

Lemma umap0_spec : forall used x, umap0 used x = if mem x used then Some 0 else None.
Proof. reflexivity. Qed.

Lemma mem_ids_cons : forall x b bs, mem x (ids (b :: bs)) = (x =? b_key b) || mem x (ids bs).
Proof. reflexivity. Qed.

(* The counters after `position` walked over bs: each is decremented by the occurrences passed and,
   had it been positive, stays positive — except the counter of the key that stopped the walk
   (hit = Some k: the last counted copy of k), which is 0. *)
Definition dec_rel (m m' : umap) (bs : list blob) (hit : option id) : Prop :=
  forall x, match m x with
            | None => m' x = None
            | Some c => if match hit with Some k => x =? k | None => false end then m' x = Some 0
                        else m' x = Some (c - occ x bs) /\ (1 <= c -> 1 <= c - occ x bs)
            end.

(* one blob over which the walk goes on: its counter, if there is one, is decremented (a counter
   that is 0 stays 0) and does not reach 0 by that *)
Lemma dec_rel_cons : forall m m1 m' b tl hit,
  (forall x, m1 x = if x =? b_key b then option_map (fun c => c - 1) (m (b_key b)) else m x) ->
  (forall c, m (b_key b) = Some c -> c <> 1) ->
  dec_rel m1 m' tl hit -> dec_rel m m' (b :: tl) hit.
Proof.
  intros m m1 m' b tl hit E C D x. specialize (D x). rewrite E in D. cbn [occ].
  destruct (N.eqb_spec (b_key b) x) as [<-|Ne].
  - rewrite N.eqb_refl in D. destruct (m (b_key b)) as [c|]; [|exact D]. specialize (C c eq_refl).
    cbn [option_map] in D. destruct (match hit with Some k => _ | None => _ end); [exact D|].
    destruct D as [D1 D2]. rewrite D1. split; [f_equal; lia|lia].
  - destruct (N.eqb_spec x (b_key b)); [congruence|exact D].
Qed.

Lemma pass1_spec : forall bs m m' pre r,
  pass1 m bs = (m', pre, r) ->
  bs = pre ++ match r with Some (b, suf) => b :: suf | None => [] end
  /\ dec_rel m m' pre (option_map (fun bs => b_key (fst bs)) r).
Proof.
  induction bs as [|b tl IH]; intros m m' pre r H; cbn [pass1] in H.
  - injection H as <- <- <-. split; [reflexivity|]. intro x. destruct (m x); [cbn [occ option_map]; rewrite N.sub_0_r; auto|reflexivity].
  - destruct (m (b_key b)) as [c|] eqn:Eb;
      [destruct (N.eqb_spec c 0) as [->|E0]; [|destruct (N.eqb_spec (c - 1) 0) as [E1|E1]]|].
    2: { (* the last counted copy: the walk stops *)
      injection H as <- <- <-. split; [reflexivity|]. intro x. cbn [option_map fst].
      destruct (N.eqb_spec x (b_key b)) as [->|Ne].
      - rewrite Eb, upd_same, E1. reflexivity.
      - rewrite upd_other by exact Ne. destruct (m x); [cbn [occ option_map]; rewrite N.sub_0_r; auto|reflexivity]. }
    (* the walk goes on: over a counter that is 0, a counter that stays positive, or a blob that is not used *)
    all: destruct (pass1 _ tl) as [[m1 pre1] r1] eqn:P; injection H as <- <- <-; apply IH in P as [-> D];
      (split; [reflexivity|]); eapply dec_rel_cons; [| |exact D];
      [intro x; unfold upd; destruct (N.eqb_spec x (b_key b)) as [->|]; rewrite ?Eb; reflexivity
      |intros c' E; rewrite Eb in E; first [congruence|injection E as <-; lia]].
Qed.

(* the counters after a pack was accounted used: those of its keys are 0 *)
Definition used_rel (m m' : umap) (bs : list blob) : Prop :=
  forall x, m' x = if mem x (ids bs) then option_map (fun _ => 0) (m x) else m x.

Lemma mark_used_spec : forall bs m m' u, mark_used m bs = (m', u) -> used_rel m m' bs.
Proof.
  induction bs as [|b tl IH]; intros m m' u H x; cbn [mark_used] in H.
  - inv H. reflexivity.
  - rewrite mem_ids_cons.
    destruct (m (b_key b)) as [c|] eqn:Eb; [destruct (N.eqb_spec c 0) as [->|]|];
      destruct (mark_used _ tl) as [m1 u1] eqn:M; injection H as <- <-; rewrite (IH _ _ _ M x); unfold upd;
      (destruct (N.eqb_spec x (b_key b)) as [->|]; [|reflexivity]); rewrite Eb; destruct (mem _ _); reflexivity.
Qed.

Lemma from_pack_spec : forall m tpe bs m' pi,
  from_pack m tpe bs = (m', pi) ->
  pi_type pi = tpe /\
  ((pi_used_blobs pi = 0 /\ dec_rel m m' bs None) \/ (1 <= pi_used_blobs pi /\ used_rel m m' bs)).
Proof.
  intros m tpe bs m' pi H. unfold from_pack in H.
  destruct (pass1 m bs) as [[m1 pre] r] eqn:P. apply pass1_spec in P as [-> F]. destruct r as [[b suf]|].
  - destruct (mark_used m1 pre) as [m2 u2] eqn:M2. destruct (mark_used m2 suf) as [m3 u3] eqn:M3. injection H as <- <-.
    split; [reflexivity|]. right. split; [cbn [pi_used_blobs]; lia|].
    intro x. rewrite (mark_used_spec _ _ _ _ M3 x), (mark_used_spec _ _ _ _ M2 x), mem_ids_app, mem_ids_cons.
    specialize (F x). cbn [option_map fst] in F. destruct (m x) as [c|].
    + destruct (x =? b_key b).
      * rewrite F. destruct (mem x (ids pre)), (mem x (ids suf)); reflexivity.
      * destruct F as [F1 F2]. rewrite F1. destruct (mem x (ids pre)) eqn:Mp, (mem x (ids suf)); try reflexivity.
        cbn. f_equal. rewrite occ_notin; [lia|]. rewrite <- mem_In. congruence.
    + rewrite F. destruct (mem x (ids pre)), (mem x (ids suf)), (x =? b_key b); reflexivity.
  - injection H as <- <-. rewrite app_nil_r. split; [reflexivity|]. left. split; [reflexivity|exact F].
Qed.

Lemma from_pack_keys : forall m tpe bs m' pi x, from_pack m tpe bs = (m', pi) -> (m x = None <-> m' x = None).
Proof.
  intros m tpe bs m' pi x F. destruct (from_pack_spec _ _ _ _ _ F) as [_ [[_ D]|[_ D]]]; specialize (D x).
  - destruct (m x); [destruct D as [D _]; rewrite D; split; discriminate|rewrite D; tauto].
  - rewrite D. destruct (mem x (ids bs)), (m x); cbn [option_map]; split; congruence.
Qed.

(* m' has the keys of m and counts at most f more (at most: the counter saturates) *)
Definition cnt_le (m m' : umap) (f : id -> N) : Prop :=
  forall x, match m x with
            | None => m' x = None
            | Some c => exists c', m' x = Some c' /\ c' <= c + f x
            end.

Lemma cnt_le_refl : forall m f, cnt_le m m f.
Proof. intros m f x. destruct (m x) as [c|]; [|reflexivity]. exists c. split; [reflexivity|lia]. Qed.

Lemma cnt_le_trans : forall m1 m2 m3 f g,
  cnt_le m1 m2 f -> cnt_le m2 m3 g -> cnt_le m1 m3 (fun x => f x + g x).
Proof.
  intros m1 m2 m3 f g A B x. specialize (A x). specialize (B x).
  destruct (m1 x) as [c|]; [|rewrite A in B; exact B].
  destruct A as [c2 [A1 A2]]. rewrite A1 in B. destruct B as [c3 [B1 B2]]. exists c3. split; [exact B1|lia].
Qed.

Lemma count_blob_le : forall m b, cnt_le m (count_blob m b) (fun x => if b_key b =? x then 1 else 0).
Proof.
  intros m b. unfold count_blob. destruct (m (b_key b)) as [cb|] eqn:Eb; [|apply cnt_le_refl].
  intro x. destruct (N.eqb_spec (b_key b) x) as [<-|Ne].
  - rewrite Eb, upd_same. exists (sat_inc cb). split; [reflexivity|]. unfold sat_inc. destruct (N.ltb_spec cb cnt_max); lia.
  - rewrite upd_other by congruence. destruct (m x) as [c|]; [|reflexivity]. exists c. split; [reflexivity|lia].
Qed.

Lemma count_blobs_le : forall bs m, cnt_le m (fold_left count_blob bs m) (fun x => occ x bs).
Proof.
  induction bs as [|b tl IH]; intro m; [apply cnt_le_refl|].
  exact (cnt_le_trans _ _ _ _ _ (count_blob_le m b) (IH _)).
Qed.
