(* C02 — examples (vm_compute) for the repack option theorems: their hypotheses are satisfiable and the
   limits bite where expected. *)
From Verif.Base Require Import Tactics.
From Verif.C02 Require Import ModelBase Extracted Model Proofs7.
Local Open Scope N_scope.

(* three data packs, each with one used and one unused blob of 10 bytes; pack 104 fully used *)
Definition x_pack (pid u n : N) (tm : Z) : ipack :=
  mkIPack pid [mkBlob u Data 10 true; mkBlob n Data 10 true] (Some tm) 50.
Definition x_fs : list ifile :=
  [ mkIFile 501 [x_pack 101 1 2 0; x_pack 102 3 4 0; x_pack 103 5 6 0;
                 mkIPack 104 [mkBlob 7 Data 10 true] (Some 0%Z) 50] [] ].
Definition x_used : list id := map (used_key Data) [1; 3; 5; 7].
Definition x_existing : list (id * N) := [(101, 50); (102, 50); (103, 50); (104, 50)].
Definition x_opts (mu mr : limit) (all nores : bool) (keep_pack : Z) (sz : sizer) : popts :=
  mkOpts 1000%Z keep_pack 0%Z false false all nores false mu mr sz sz 1000%Z.
Definition x_todos (o : popts) := todos_of (prune_with decide_repack packer1 800 o x_fs x_used x_existing).

(* max_repack = 25 bytes: two packs (10 + 10 used bytes) fit, the third would reach the limit *)
Example ex_max_repack :
  x_todos (x_opts (LPercent 0) (LSize 25) false false 0 sz0)
  = [(101, Repack); (102, Repack); (103, Keep); (104, Keep)].
Proof. vm_compute. reflexivity. Qed.

(* max_unused = 15 bytes: repacking stops as soon as fewer than 15 unused bytes remain *)
Example ex_max_unused :
  x_todos (x_opts (LSize 15) LUnlimited false false 0 sz0)
  = [(101, Repack); (102, Repack); (103, Keep); (104, Keep)].
Proof. vm_compute. reflexivity. Qed.

(* a percentage >= 100 tolerates everything (saturating arithmetic, no division by zero) *)
Example ex_max_unused_100 :
  x_todos (x_opts (LPercent 100) LUnlimited false false 0 sz0)
  = [(101, Keep); (102, Keep); (103, Keep); (104, Keep)].
Proof. vm_compute. reflexivity. Qed.

(* target pack size 1000, packs of 50 bytes are too small: the fully used pack 104 is a resize candidate;
   it is repacked together with the partly used ones, but kept under no_resize *)
Definition sz_big : sizer := mkSizer 1000 30 0.
Example ex_resize :
  x_todos (x_opts (LPercent 0) LUnlimited false false 0 sz_big)
  = [(101, Repack); (102, Repack); (103, Repack); (104, Repack)].
Proof. vm_compute. reflexivity. Qed.
Example ex_no_resize :
  x_todos (x_opts (LPercent 0) LUnlimited false true 0 sz_big)
  = [(101, Repack); (102, Repack); (103, Repack); (104, Keep)].
Proof. vm_compute. reflexivity. Qed.

(* keep_pack = 2000 s: every pack (created at time 0, now = 1000) is too young *)
Example ex_keep_pack :
  x_todos (x_opts (LPercent 0) LUnlimited true false 2000 sz0)
  = [(101, Keep); (102, Keep); (103, Keep); (104, Keep)].
Proof. vm_compute. reflexivity. Qed.

Example ex_repack_all :
  x_todos (x_opts LUnlimited LUnlimited true false 0 sz0)
  = [(101, Repack); (102, Repack); (103, Repack); (104, Repack)].
Proof. vm_compute. reflexivity. Qed.
