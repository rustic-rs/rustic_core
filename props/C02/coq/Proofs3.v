(* C02 — decide_packs over the flat pack list.  Two facts are carried through its passes: the
   counting invariant (the counter of a used key is at most its occurrences in packs still to be
   looked at, and when it is 0 the key lies in a pack whose decision keeps it), and that every
   pack looked at carries the answer of the decision table for its own accounting. *)
From Verif.Base Require Import Tactics.
From Verif.C02 Require Import ModelBase Extracted Model Proofs Proofs2.
Local Open Scope N_scope.

Definition is_pending (p : ppack) : bool := match pp_info p with None => true | Some _ => false end.
Definition pend_occ (x : id) (l : list ppack) : N :=
  sumN (fun p => if is_pending p then occ x (pp_blobs p) else 0) l.

(* decided in a way that keeps the pack's blobs reachable *)
Definition good (p : ppack) : Prop :=
  is_pending p = false /\ (pp_todo p = Keep \/ pp_todo p = Recover \/ pp_cand p <> None).

Definition CountInv (used : list id) (m : umap) (l : list ppack) : Prop :=
  forall x, In x used -> exists c, m x = Some c /\ c <= pend_occ x l /\
    (c = 0 -> exists p, In p l /\ In x (ids (pp_blobs p)) /\ good p).

(* what decide_packs never changes *)
Definition static (p : ppack) := (pp_idx p, pp_id p, pp_type p, pp_size p, pp_mark p, pp_time p, pp_blobs p).

Lemma static_fields : forall p q, static p = static q ->
  pp_idx p = pp_idx q /\ pp_id p = pp_id q /\ pp_type p = pp_type q /\ pp_size p = pp_size q
  /\ pp_mark p = pp_mark q /\ pp_time p = pp_time q /\ pp_blobs p = pp_blobs q.
Proof. intros p q H. unfold static in H. inv H. repeat split; assumption. Qed.

Definition wf_pack (p : ppack) : Prop :=
  is_pending p = true -> pp_todo p = Undecided /\ pp_cand p = None.

Definition all_decided (l : list ppack) : Prop := forall p, In p l -> is_pending p = false.

Lemma sumN_app : forall {A} (f : A -> N) a b, sumN f (a ++ b) = sumN f a + sumN f b.
Proof. intros A f a b. unfold sumN. induction a as [|h t IH]; cbn [app fold_right]; [lia|]. rewrite IH. lia. Qed.

Lemma sumN_map : forall {A B} (g : A -> B) (f : B -> N) l, sumN f (map g l) = sumN (fun a => f (g a)) l.
Proof. intros. unfold sumN. induction l as [|a t IH]; cbn [map fold_right]; [reflexivity|]. rewrite IH. reflexivity. Qed.

Lemma sumN_le : forall {A} (f g : A -> N) l, (forall a, f a <= g a) -> sumN f l <= sumN g l.
Proof. intros A f g l H. unfold sumN. induction l as [|a t IH]; cbn [fold_right]; [lia|]. specialize (H a). lia. Qed.

Lemma pend_occ_mid : forall x l1 p l2,
  pend_occ x (l1 ++ p :: l2) = pend_occ x l1 + (if is_pending p then occ x (pp_blobs p) else 0) + pend_occ x l2.
Proof. intros. unfold pend_occ. rewrite sumN_app. cbn [sumN fold_right]. unfold sumN. lia. Qed.

Lemma pend_occ_done : forall x l, all_decided l -> pend_occ x l = 0.
Proof.
  intros x l H. unfold pend_occ. induction l as [|p tl IH]; cbn [sumN fold_right]; [reflexivity|].
  rewrite (H p (or_introl eq_refl)). apply IH. intros q Hq. apply H. right. exact Hq.
Qed.

Lemma count_used_le : forall ps m, (forall p, In p ps -> is_pending p = true) ->
  cnt_le m (count_used m ps) (fun x => pend_occ x ps).
Proof.
  induction ps as [|p tl IH]; intros m Pe; [apply cnt_le_refl|].
  pose proof (cnt_le_trans _ _ _ _ _ (count_blobs_le (pp_blobs p) m) (IH _ (fun q Hq => Pe q (or_intror Hq)))) as R.
  intro x. unfold pend_occ. cbn [sumN fold_right]. rewrite (Pe p (or_introl eq_refl)). exact (R x).
Qed.

Definition outcome_of (p : ppack) : outcome :=
  match pp_cand p with Some r => OCand r | None => OTodo (pp_todo p) end.

Definition decided (o : popts) (p : ppack) : Prop :=
  is_pending p = false
  /\ decide_table (pp_mark p) (pi_used_blobs (info_of p)) (pi_unused_blobs (info_of p)) (guards_of o p)
     = Some (outcome_of p).

Lemma decide_one_spec : forall o m p m' p', decide_one o m p = (m', p') ->
  from_pack m (pp_type p) (pp_blobs p) = (m', info_of p') /\ static p' = static p /\ decided o p'.
Proof.
  intros o m p m' p' H. unfold decide_one in H.
  destruct (from_pack m (pp_type p) (pp_blobs p)) as [m1 pi].
  destruct (decide_table _ _ _ _) as [[t|r]|] eqn:T; [| |destruct (table_total _ _ _ _ T)]; injection H as <- <-;
    repeat (split; [reflexivity|]); exact T.
Qed.

Lemma decided_good : forall o p, decided o p -> 1 <= pi_used_blobs (info_of p) -> good p.
Proof.
  intros o p (Np & T) U. split; [exact Np|].
  destruct (table_used_kept (pp_mark p) _ (pi_unused_blobs (info_of p)) (guards_of o p) U) as (oc & E & K).
  rewrite T in E. injection E as <-. unfold outcome_of in K.
  destruct (pp_cand p); [right; right; discriminate|]. destruct (pp_todo p); try contradiction; auto.
Qed.

Lemma decide_one_CountInv : forall used o m p m' p' l1 l2,
  CountInv used m (l1 ++ p :: l2) -> is_pending p = true ->
  decide_one o m p = (m', p') -> CountInv used m' (l1 ++ p' :: l2).
Proof.
  intros used o m p m' p' l1 l2 Inv Pe H.
  destruct (decide_one_spec _ _ _ _ _ H) as (F & St & Dc). pose proof (proj1 Dc) as Np.
  apply static_fields in St as (_ & _ & _ & _ & _ & _ & Bl).
  (* a good pack is not the pending p, so it is still there *)
  assert (Stay : forall q, In q (l1 ++ p :: l2) -> good q -> In q (l1 ++ p' :: l2)).
  { intros q Hq [G _]. rewrite in_app_iff in *. destruct Hq as [Hq|[<-|Hq]]; [auto|congruence|right; right; exact Hq]. }
  destruct (from_pack_spec _ _ _ _ _ F) as [_ [[_ D]|[U D]]];
    intros x Hx; destruct (Inv x Hx) as (c & Ex & Le & Z); specialize (D x); rewrite Ex in D;
    rewrite pend_occ_mid in *; rewrite Pe in Le; rewrite Np.
  - (* no used blob: the counter falls by the occurrences, and does not reach 0 by that *)
    destruct D as [D1 D2]. exists (c - occ x (pp_blobs p)). split; [exact D1|]. split; [lia|].
    intro E0. destruct Z as (q & Hq & Hin & G); [lia|]. exists q. auto.
  - (* the pack is accounted used: all its keys drop to 0, and the pack is good *)
    destruct (mem x (ids (pp_blobs p))) eqn:Mx; cbn [option_map] in D.
    + exists 0. split; [exact D|]. split; [lia|]. intros _. exists p'. split; [apply in_elt|].
      split; [rewrite Bl; apply mem_In; exact Mx|exact (decided_good _ _ Dc U)].
    + exists c. split; [exact D|]. split; [rewrite occ_notin in Le; [lia|rewrite <- mem_In; congruence]|].
      intro E0. destruct (Z E0) as (q & Hq & Hin & G). exists q. auto.
Qed.

(* map_st with an invariant over (state, elements done, elements to do) *)
Lemma map_st_inv : forall {S A} (f : S -> A -> S * A) (I : S -> list A -> list A -> Prop),
  (forall s l1 a l2 s' a', I s l1 (a :: l2) -> f s a = (s', a') -> I s' (l1 ++ [a']) l2) ->
  forall l2 s l1 s' l', I s l1 l2 -> map_st f s l2 = (s', l') -> I s' (l1 ++ l') [].
Proof.
  intros S A f I Step. induction l2 as [|a tl IH]; intros s l1 s' l' H E; cbn [map_st] in E.
  - inv E. rewrite app_nil_r. exact H.
  - destruct (f s a) as [s1 a1] eqn:Fa. destruct (map_st f s1 tl) as [s2 bs] eqn:M. injection E as -> <-.
    specialize (IH s1 (l1 ++ [a1]) s' bs (Step _ _ _ _ _ _ H Fa) M).
    rewrite <- app_assoc in IH. exact IH.
Qed.

Lemma map_st_keys : forall o mc l m m' l' x, map_st (decide_step o mc) m l = (m', l') -> (m x = None <-> m' x = None).
Proof.
  intros o mc l m m' l' x E.
  refine (map_st_inv (decide_step o mc) (fun s _ _ => m x = None <-> s x = None) _ l m [] m' l' _ E); [|tauto].
  intros s l1 a l2 s' a' I Ea. rewrite I. unfold decide_step in Ea. destruct (Bool.eqb (pp_mark a) mc); [|inv Ea; tauto].
  apply decide_one_spec in Ea as [F _]. exact (from_pack_keys _ _ _ _ _ x F).
Qed.

Lemma decide_packs_keys : forall o m l m' l' x, decide_packs o m l = (m', l') -> (m x = None <-> m' x = None).
Proof.
  intros o m l m' l' x E. unfold decide_packs, mark_order in E. cbn [fold_left] in E.
  destruct (map_st (decide_step o true) m l) as [m1 l1] eqn:E1.
  rewrite (map_st_keys _ _ _ _ _ _ x E1). eapply map_st_keys; eauto.
Qed.

Section Passes.
Variables (o : popts) (used : list id).

(* where a pack stands when the passes for the marks ms are still to come: it is pending exactly
   when its mark is one of them *)
Definition stage (ms : list bool) (p : ppack) : Prop :=
  (is_pending p = true <-> In (pp_mark p) ms) /\ (is_pending p = false -> decided o p).

Lemma pass_spec : forall mc ms l m m' l',
  ~ In mc ms -> CountInv used m l -> Forall (stage (mc :: ms)) l ->
  map_st (decide_step o mc) m l = (m', l') ->
  CountInv used m' l' /\ Forall (stage ms) l' /\ map static l' = map static l.
Proof.
  intros mc ms l m m' l' Nin I0 S0 E.
  apply (map_st_inv (decide_step o mc)
           (fun s l1 l2 => CountInv used s (l1 ++ l2) /\ Forall (stage ms) l1 /\ Forall (stage (mc :: ms)) l2
                           /\ map static (l1 ++ l2) = map static l)) with (l1 := []) in E.
  - cbn [app] in E. rewrite app_nil_r in E. tauto.
  - intros s l1 a l2 s' a' (I1 & S1 & S2 & St) Ea. inversion S2 as [|? ? [Pa Da] S2']; subst.
    rewrite <- app_assoc. cbn [app]. rewrite <- St, !map_app. cbn [map].
    unfold decide_step in Ea. destruct (Bool.eqb (pp_mark a) mc) eqn:Em.
    + (* the pack's pass: it is pending, and is decided now *)
      apply Bool.eqb_prop in Em.
      destruct (decide_one_spec _ _ _ _ _ Ea) as (_ & Sa & Dc).
      pose proof (static_fields _ _ Sa) as (_ & _ & _ & _ & Mk & _).
      split; [eapply decide_one_CountInv; [exact I1|apply Pa; left; auto|exact Ea]|].
      split; [|rewrite Sa; auto]. apply Forall_app. split; [exact S1|]. constructor; [|constructor].
      split; [|intros _; exact Dc]. rewrite (proj1 Dc), Mk, Em. split; [discriminate|contradiction].
    + inv Ea. apply Bool.eqb_false_iff in Em.
      split; [exact I1|]. split; [|auto]. apply Forall_app. split; [exact S1|]. constructor; [|constructor].
      split; [|exact Da]. rewrite Pa. cbn [In]. split; [intros [K|K]; [congruence|exact K]|auto].
  - cbn [app]. auto.
Qed.

Lemma passes_spec : forall ms l m m' l',
  NoDup ms -> CountInv used m l -> Forall (stage ms) l ->
  fold_left (fun '(m, ps) mc => map_st (decide_step o mc) m ps) ms (m, l) = (m', l') ->
  CountInv used m' l' /\ Forall (stage []) l' /\ map static l' = map static l.
Proof.
  induction ms as [|mc ms IH]; intros l m m' l' ND I0 S0 E; cbn [fold_left] in E.
  - inv E. auto.
  - inversion ND as [|? ? Nin ND']; subst. destruct (map_st (decide_step o mc) m l) as [m1 l1] eqn:E1.
    destruct (pass_spec _ _ _ _ _ _ Nin I0 S0 E1) as (I1 & S1 & T1).
    destruct (IH _ _ _ _ ND' I1 S1 E) as (I2 & S2 & T2). rewrite T2, T1. auto.
Qed.
End Passes.

(* grouped (_ /\ _ /\ _) /\ _ : the first component is accounting_covers_used of Props.v *)
Lemma decide_packs_spec : forall o used l m' l',
  (forall p, In p l -> is_pending p = true) ->
  check_used (count_used (umap0 used) l) used = true ->
  decide_packs o (count_used (umap0 used) l) l = (m', l') ->
  (map static l' = map static l /\ all_decided l' /\
   forall x, In x used -> m' x = Some 0 /\ exists p, In p l' /\ In x (ids (pp_blobs p)) /\ good p)
  /\ forall p, In p l' -> decided o p.
Proof.
  intros o used l m' l' Pe Ck E. unfold decide_packs in E.
  apply (passes_spec o used) in E as (I & S & St).
  - rewrite Forall_forall in S.
    assert (AD : all_decided l') by (intros p Hp; apply Bool.not_true_is_false; exact (proj1 (proj1 (S p Hp)))).
    split; [split; [exact St|split; [exact AD|]]|intros p Hp; apply (S p Hp); apply AD; exact Hp].
    intros x Hx. destruct (I x Hx) as (c & Ex & Le & Z). rewrite pend_occ_done in Le by exact AD.
    assert (c = 0) as -> by lia. auto.
  - unfold mark_order. repeat constructor; cbn [In]; intuition discriminate.
  - (* check: no counter of a used key is 0; and a counter counts at most the occurrences *)
    intros x Hx. pose proof (count_used_le l (umap0 used) Pe x) as R.
    rewrite umap0_spec, (proj2 (mem_In x used) Hx) in R.
    destruct R as (c & Ec & Le). exists c. split; [exact Ec|]. split; [exact Le|]. intros ->.
    unfold check_used in Ck. rewrite forallb_forall in Ck. specialize (Ck x Hx). rewrite Ec in Ck. discriminate.
  - apply Forall_forall. intros p Hp. unfold stage. rewrite (Pe p Hp).
    split; [split; [intros _; destruct (pp_mark p); cbn; auto|reflexivity]|discriminate].
Qed.
