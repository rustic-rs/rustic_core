(* C16 — the hot/cold repair restores a damaged hot store from the cold one.  The repair is described
   key by key: what the two stores hold under a key afterwards is a function (`rep_hot`, `orelse`) of what
   they held before, applied iff one of the repaired file types covers the key. *)
From Verif.Base Require Import Tactics.
From Verif.C16 Require Import ModelBase Extracted Model Proofs.
Local Open Scope N_scope.

Lemma mem_app i a b : mem i (a ++ b) = mem i a || mem i b.
Proof. unfold mem. apply existsb_app. Qed.

Lemma mem_filter p i l : mem i (filter p l) = mem i l && p i.
Proof.
  unfold mem. induction l as [|j r IH]; [reflexivity|]. cbn [filter].
  destruct (p j) eqn:Pj; cbn [existsb]; rewrite IH; destruct (N.eqb_spec i j) as [->|]; cbn [orb andb];
    rewrite ?Pj, ?andb_false_r; reflexivity.
Qed.

Lemma lookup_app i a b :
  lookup_size i (a ++ b) = match lookup_size i a with Some n => Some n | None => lookup_size i b end.
Proof.
  induction a as [|[j n] r IH]; [reflexivity|]. cbn. destruct (N.eqb i j); [reflexivity | exact IH].
Qed.

Definition osize (o : option bytes) : option N :=
  match o with Some b => Some (N.of_nat (length b)) | None => None end.

Lemma lookup_listing ft i s : lookup_size i (listing ft s) = osize (get (ft, i) s).
Proof.
  induction s as [|[[f j] v] r IH]; [reflexivity|].
  unfold listing in *. cbn [flat_map fst snd get]. rewrite lookup_app, IH, key_eqb_pair.
  destruct (ft_eqb ft f); [cbn; destruct (N.eqb i j)|]; reflexivity.
Qed.

Lemma mem_lookup i l : mem i (map fst l) = match lookup_size i l with Some _ => true | None => false end.
Proof.
  induction l as [|[j n] r IH]; [reflexivity|]. cbn [map fst lookup_size]. unfold mem in *. cbn [existsb].
  destruct (N.eqb i j); [reflexivity | exact IH].
Qed.

Lemma mem_listing ft i s : mem i (map fst (listing ft s)) = has (ft, i) s.
Proof. unfold has. rewrite mem_lookup, lookup_listing. destruct (get (ft, i) s); reflexivity. Qed.

Definition same_size (a b : option bytes) : bool := size_eqb (osize a) (osize b).

Lemma same_size_true a b : same_size a b = true -> exists x y, a = Some x /\ b = Some y /\ length x = length y.
Proof.
  destruct a as [x|], b as [y|]; try discriminate.
  intro H. apply N.eqb_eq, Nat2N.inj in H. eauto.
Qed.

Lemma mem_common ft i h c :
  mem i (common_ids (listing ft h) (listing ft c)) = has (ft, i) h && same_size (get (ft, i) h) (get (ft, i) c).
Proof. unfold common_ids. rewrite mem_filter, mem_listing, !lookup_listing. reflexivity. Qed.

Lemma mem_only rel i ft s excl :
  mem i (only_ids rel (listing ft s) excl) = has (ft, i) s && (negb (mem i excl) && rel i).
Proof. unfold only_ids. rewrite mem_filter, mem_listing. reflexivity. Qed.

Definition orelse (a b : option bytes) : option bytes := match a with Some _ => a | None => b end.

Lemma side_set_same d v x : side_store d (set_side d v x) = v.
Proof. destruct d; reflexivity. Qed.
Lemma side_set_other d v x : side_store (other d) (set_side d v x) = side_store (other d) x.
Proof. destruct d; reflexivity. Qed.

Lemma copy_to_get dst ft ids : forall x,
  side_store (other dst) (copy_to dst ft ids x) = side_store (other dst) x /\
  forall k, get k (side_store dst (copy_to dst ft ids x))
            = if ft_eqb (fst k) ft && mem (snd k) ids
              then orelse (get k (side_store (other dst) x)) (get k (side_store dst x))
              else get k (side_store dst x).
Proof.
  unfold copy_to, mem. induction ids as [|i r IH]; intro x; cbn [fold_left].
  - split; [reflexivity|]. intro k. rewrite andb_false_r. reflexivity.
  - destruct (get (ft, i) (side_store (other dst) x)) as [b|] eqn:G.
    1: destruct (IH (set_side dst (put (ft, i) b (side_store dst x)) x)) as [Es Ek];
       rewrite side_set_other in Es, Ek; rewrite side_set_same in Ek.
    2: destruct (IH x) as [Es Ek].
    all: split; [exact Es|]; intros [f j]; rewrite Ek, ?get_put, ?key_eqb_pair; clear IH Es Ek; cbn [fst snd existsb].
    all: destruct (ft_eqb_spec f ft) as [->|]; cbn [andb]; [|reflexivity].
    all: destruct (N.eqb_spec j i) as [->|]; [rewrite G; destruct (existsb (N.eqb i) r)|]; reflexivity.
Qed.

(* what the hot store holds afterwards under a key the repair looks at: the cold file, unless hot has a file
   of the same size; the cold store (`orelse`) gets the hot file only where it has none *)
Definition rep_hot (h c : option bytes) : option bytes :=
  match c with None => h | Some _ => if same_size h c then h else c end.

(* with the rule of the tree as it is now (hot ids are copied to cold only when cold lacks them) *)
Lemma repair_type_get ft rel x k :
  let y := repair_type_r HotOnlyNotInCold ft rel x in
  get k (hot y) = (if ft_eqb (fst k) ft && rel (snd k)
                   then rep_hot (get k (hot x)) (get k (cold x)) else get k (hot x)) /\
  get k (cold y) = (if ft_eqb (fst k) ft && rel (snd k)
                    then orelse (get k (cold x)) (get k (hot x)) else get k (cold x)).
Proof.
  cbn zeta. unfold repair_type_r. change repair_copy_order with [Cold; Hot]. cbn [fold_left].
  set (hl := listing ft (hot x)). set (cl := listing ft (cold x)).
  destruct (copy_to_get Cold ft (only_ids rel hl (map fst cl)) x) as [Eh1 Ec1].
  destruct (copy_to_get Hot ft (only_ids rel cl (common_ids hl cl))
              (copy_to Cold ft (only_ids rel hl (map fst cl)) x)) as [Ec2 Eh2].
  cbn [side_store other] in *. rewrite Ec2, Eh2, Eh1, !Ec1. clear.
  destruct k as [f j]; cbn [fst snd]. destruct (ft_eqb_spec f ft) as [->|]; [|split; reflexivity].
  unfold hl, cl. rewrite !mem_only, mem_listing, mem_common. unfold has, rep_hot. cbn [andb].
  destruct (get (ft, j) (hot x)) as [bh|], (get (ft, j) (cold x)) as [bc|], (rel j);
    try destruct (same_size (Some bh) (Some bc)); split; reflexivity.
Qed.

(* one more look at a key changes nothing *)
Lemma rep_idem h c :
  rep_hot (rep_hot h c) (orelse c h) = rep_hot h c /\ orelse (orelse c h) (rep_hot h c) = orelse c h.
Proof.
  destruct c as [bc|]; cbn [rep_hot orelse].
  - split; [|reflexivity].
    destruct (same_size h (Some bc)) eqn:E; [rewrite E | destruct (same_size (Some bc) (Some bc))]; reflexivity.
  - destruct h as [bh|]; cbn [rep_hot orelse]; [destruct (same_size _ _)|]; split; reflexivity.
Qed.

Lemma rep_complete h c :
  (forall bh bc, h = Some bh -> c = Some bc -> length bh = length bc -> bh = bc) ->
  forall b, orelse c h = Some b -> rep_hot h c = Some b.
Proof.
  intros Hss b. destruct c as [bc|]; cbn [orelse rep_hot]; [|exact (fun E => E)]. intros [= ->].
  destruct (same_size _ _) eqn:E; [|reflexivity].
  apply same_size_true in E. destruct E as (bh & bc & -> & [= <-] & El).
  rewrite (Hss bh b eq_refl eq_refl El). reflexivity.
Qed.

Definition repair_steps (steps : list (file_type * (id -> bool))) (x : st) : st :=
  fold_left (fun x s => repair_type_r HotOnlyNotInCold (fst s) (snd s) x) steps x.
Definition covers (k : key) (s : file_type * (id -> bool)) : bool := ft_eqb (fst k) (fst s) && snd s (snd k).

Lemma repair_steps_get steps : forall x k,
  get k (hot (repair_steps steps x)) = (if existsb (covers k) steps
                                        then rep_hot (get k (hot x)) (get k (cold x)) else get k (hot x)) /\
  get k (cold (repair_steps steps x)) = (if existsb (covers k) steps
                                         then orelse (get k (cold x)) (get k (hot x)) else get k (cold x)).
Proof.
  induction steps as [|[ft rel] r IH]; intros x k; [split; reflexivity|].
  unfold repair_steps in *. cbn [fold_left existsb fst snd].
  destruct (IH (repair_type_r HotOnlyNotInCold ft rel x) k) as [-> ->], (repair_type_get ft rel x k) as [-> ->].
  change (covers k (ft, rel)) with (ft_eqb (fst k) ft && rel (snd k)).
  destruct (ft_eqb (fst k) ft && rel (snd k)), (existsb (covers k) r); try (split; reflexivity). apply rep_idem.
Qed.

Lemma repair_all_steps tp x :
  repair_all tp x = repair_steps [(Key, fun _ => true); (Snapshot, fun _ => true); (Index, fun _ => true);
                                  (Pack, fun i => mem i tp)] x.
Proof.
  (* all_file_types, repair_type_cond and repair_hot_only_rule of Extracted.v enter here.  Unfolded by hand:
     left to itself the conversion starts inside repair_type_r *)
  unfold repair_all, repair_packs, repair_except_packs, repair_steps. cbn [fold_left all_file_types fst snd].
  reflexivity.
Qed.

Section Repair.
Variable kind : id -> bool.

(* damage changes sizes: two copies of a hot-type file that have the same size are identical *)
Definition SameSizeSame (ft : file_type) (x : st) : Prop :=
  forall i bh bc, hot_type kind (ft, i) = true ->
    get (ft, i) (hot x) = Some bh -> get (ft, i) (cold x) = Some bc -> length bh = length bc -> bh = bc.

Lemma repair_all_complete tp x :
  (forall i, mem i tp = kind i) ->
  (forall ft, SameSizeSame ft x) -> no_data_in_hot kind x ->
  let y := repair_all tp x in
  HotComplete kind y /\ (forall k b, get k (cold x) = Some b -> get k (cold y) = Some b).
Proof.
  intros Htp Hss Hnd. cbn zeta. rewrite repair_all_steps. set (steps := _ :: _).
  (* the file types repaired, with the ids looked at, cover exactly the keys of a hot type *)
  assert (Hcov : forall k, existsb (covers k) steps = hot_type kind k).
  { intros [ft i]. destruct ft; cbn; rewrite ?Htp, ?orb_false_r; reflexivity. }
  split; [split|].
  - intros [ft i] b Hk Hc. destruct (repair_steps_get steps x (ft, i)) as [Eh Ec].
    rewrite Hcov, Hk in Eh, Ec. rewrite Ec in Hc. rewrite Eh. revert b Hc. apply rep_complete.
    intros bh bc. exact (Hss ft i bh bc Hk).
  - intros i Hi. rewrite (proj1 (repair_steps_get steps x (Pack, i))), Hcov. cbn [hot_type fst snd].
    rewrite Hi. exact (Hnd i Hi).
  - intros k b G. rewrite (proj2 (repair_steps_get steps x k)), G. destruct (existsb _ _); reflexivity.
Qed.

End Repair.

Inductive damage := DRemove (k : key) | DTruncate (k : key) (n : nat).
Definition apply_damage (x : st) (d : damage) : st :=
  match d with DRemove k => remove_hot [k] x | DTruncate k n => truncate_hot k n x end.
Definition damage_hot (ds : list damage) (x : st) : st := fold_left apply_damage ds x.

Definition shrunk (x y : st) : Prop :=
  cold y = cold x /\
  forall k b, get k (hot y) = Some b -> exists b0 n, get k (hot x) = Some b0 /\ b = firstn n b0.

Lemma shrunk_refl x : shrunk x x.
Proof. split; [reflexivity|]. intros k b G. exists b, (length b). rewrite firstn_all. auto. Qed.

Lemma shrunk_damage x y d : shrunk x y -> shrunk x (apply_damage y d).
Proof.
  intros [Hc Hp]. destruct d as [k|k n]; cbn [apply_damage].
  - split; [exact Hc|]. intros k' b. cbn [remove_hot fold_left hot]. rewrite get_del.
    destruct (key_eqb k' k); [discriminate | apply Hp].
  - unfold truncate_hot. destruct (get k (hot y)) as [bk|] eqn:Gk; [|split; assumption].
    split; [exact Hc|]. intros k' b. cbn [hot]. rewrite get_put.
    destruct (key_eqb_spec k' k) as [->|]; [|apply Hp].
    intros [= <-]. destruct (Hp k bk Gk) as (b0 & m & G0 & ->).
    exists b0, (Nat.min n m). rewrite firstn_firstn. auto.
Qed.

Lemma damage_shrinks ds : forall x y, shrunk x y -> shrunk x (damage_hot ds y).
Proof. induction ds as [|d r IH]; intros x y H; [exact H|]. apply (IH x), shrunk_damage, H. Qed.

Lemma firstn_same_length {A} n (l : list A) : length (firstn n l) = length l -> firstn n l = l.
Proof. intro H. apply firstn_all2. rewrite firstn_length in H. lia. Qed.

(* a prefix of the content that is as long as the content is the content: after damage to a healthy
   repository, copies of equal size are identical *)
Lemma repair_after_damage kind content tp x ds :
  (forall i, mem i tp = kind i) ->
  consistent kind content x -> no_data_in_hot kind x ->
  let y := repair_all tp (damage_hot ds x) in
  HotComplete kind y /\ (forall k b, get k (cold x) = Some b -> get k (cold y) = Some b).
Proof.
  intros Htp C D. cbn zeta.
  destruct (damage_shrinks ds x x (shrunk_refl x)) as [Hc Hp].
  rewrite <- Hc. apply (repair_all_complete kind tp _ Htp).
  - intros ft i bh bc Hk Gh Gc Hl. destruct (Hp _ _ Gh) as (b0 & n & G0 & ->).
    rewrite Hc in Gc. rewrite (C Cold _ _ Hk Gc), <- (C Hot _ _ Hk G0) in *. apply firstn_same_length, Hl.
  - intros i Hi. destruct (get (Pack, i) (hot (damage_hot ds x))) eqn:G; [|reflexivity].
    destruct (Hp _ _ G) as (b0 & n & G0 & _). rewrite (D i Hi) in G0. discriminate.
Qed.

(* the index files name the tree packs, in either section: a pack that prune only marked is still in both
   stores *)
Definition index_names (kind : id -> bool) (idx : list index_entry) : Prop :=
  forall i, kind i = existsb (fun e => N.eqb i (ie_id e) && blob_eqb (ie_blob e) Tree) idx.

Lemma tree_packs_of_kind kind idx : index_names kind idx -> forall i, mem i (tree_packs_of idx) = kind i.
Proof.
  intros H i. rewrite (H i). clear H. unfold tree_packs_of, mem. change tree_pack_blob with Tree.
  induction idx as [|e r IH]; [reflexivity|]. cbn [filter existsb].
  replace (existsb (sec_eqb (ie_sec e)) tree_pack_sections) with true by (destruct (ie_sec e); reflexivity).
  cbn [andb].
  destruct (blob_eqb (ie_blob e) Tree); cbn [map existsb]; rewrite IH, ?andb_true_r, ?andb_false_r; reflexivity.
Qed.

(* with only the `packs` section a tree pack that is marked for deletion is not recognised *)
Lemma marked_tree_pack_needs_both_sections_lemma :
  exists e, ie_blob e = Tree /\
    existsb (sec_eqb (ie_sec e)) [SecPacks] = false /\
    existsb (sec_eqb (ie_sec e)) [SecPacks; SecPacksToDelete] = true.
Proof. exists (mkie SecPacksToDelete 1 Tree). repeat split. Qed.
