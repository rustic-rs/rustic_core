(* C16 — stores as partial maps from keys; the micro-states of an operation; the invariant behind the
   hot-complete property. *)
From Verif.Base Require Import Tactics.
From Verif.C16 Require Import ModelBase Extracted Model.
Local Open Scope N_scope.

Lemma last_cons {A} (l : list A) : forall a d, last (a :: l) d = last l a.
Proof.
  induction l as [|b l IH]; intros a d; [reflexivity|].
  exact (eq_trans (IH b d) (eq_sym (IH b a))).
Qed.

Lemma last_app {A} (a b : list A) : forall d, last (a ++ b) d = last b (last a d).
Proof. induction a as [|h t IH]; intro d; [reflexivity|]. cbn [app]. rewrite !last_cons. apply IH. Qed.

Lemma Forall_last {A} (P : A -> Prop) l : forall d, P d -> Forall P l -> P (last l d).
Proof.
  intros d Hd H. revert d Hd.
  induction H as [|a l Ha _ IH]; intros d Hd; [exact Hd|]. rewrite last_cons. exact (IH a Ha).
Qed.

Lemma ft_eqb_spec a b : reflect (a = b) (ft_eqb a b).
Proof. destruct a, b; constructor; (reflexivity || discriminate). Qed.

Lemma ft_eqb_refl a : ft_eqb a a = true.
Proof. destruct a; reflexivity. Qed.

Lemma key_eqb_pair ft i f j : key_eqb (ft, i) (f, j) = ft_eqb ft f && N.eqb i j.
Proof. reflexivity. Qed.

Lemma key_eqb_spec a b : reflect (a = b) (key_eqb a b).
Proof.
  destruct a as [f i], b as [g j]. rewrite key_eqb_pair.
  destruct (ft_eqb_spec f g) as [->|]; [destruct (N.eqb_spec i j) as [->|]|]; constructor; congruence.
Qed.

Lemma key_eqb_refl a : key_eqb a a = true.
Proof. destruct (key_eqb_spec a a); [reflexivity | contradiction]. Qed.

Lemma key_eq_dec (a b : key) : {a = b} + {a <> b}.
Proof. destruct (key_eqb_spec a b); [left | right]; assumption. Qed.

Lemma get_del k k' s : get k' (del k s) = if key_eqb k' k then None else get k' s.
Proof.
  unfold del. induction s as [|[k2 v] r IH]; cbn [filter get fst]; [destruct (key_eqb k' k); reflexivity|].
  destruct (key_eqb_spec k k2) as [<-|N]; cbn [negb get]; rewrite IH; [destruct (key_eqb k' k); reflexivity|].
  destruct (key_eqb_spec k' k2) as [->|]; [|reflexivity].
  destruct (key_eqb_spec k2 k); [congruence | reflexivity].
Qed.

Lemma get_put k k' v s : get k' (put k v s) = if key_eqb k' k then Some v else get k' s.
Proof. unfold put; cbn [get]. destruct (key_eqb k' k) eqn:E; [reflexivity|]. rewrite get_del, E. reflexivity. Qed.

Lemma get_put_eq k v s : get k (put k v s) = Some v.
Proof. rewrite get_put, key_eqb_refl. reflexivity. Qed.

Lemma has_get k s : has k s = true <-> exists b, get k s = Some b.
Proof. unfold has. destruct (get k s) as [b|]; split; [exists b; reflexivity | reflexivity | discriminate | intros [b H]; discriminate H]. Qed.

Lemma has_false k s : has k s = false <-> get k s = None.
Proof. unfold has. destruct (get k s); split; intro H; auto; discriminate. Qed.

Lemma has_put k k' v s : has k' (put k v s) = key_eqb k' k || has k' s.
Proof. unfold has. rewrite get_put. destruct (key_eqb k' k); reflexivity. Qed.

Lemma has_del k k' s : has k' (del k s) = negb (key_eqb k' k) && has k' s.
Proof. unfold has. rewrite get_del. destruct (key_eqb k' k); reflexivity. Qed.

Lemma get_In k v s : get k s = Some v -> In (k, v) s.
Proof.
  induction s as [|[k' v'] r IH]; cbn; [discriminate|].
  destruct (key_eqb_spec k k') as [->|]; [intros [= ->]; left; reflexivity | right; auto].
Qed.

Lemma In_has k v s : In (k, v) s -> has k s = true.
Proof.
  unfold has. induction s as [|[k' v'] r IH]; [contradiction|]. cbn [get].
  intros [[= -> ->]|H]; [rewrite key_eqb_refl; reflexivity|].
  destruct (key_eqb k k'); [reflexivity | exact (IH H)].
Qed.

Lemma In_put k v e s : In e (put k v s) -> e = (k, v) \/ In e (del k s).
Proof. intros [<-|H]; auto. Qed.

Lemma In_del k k' v s : In (k', v) (del k s) -> In (k', v) s /\ k' <> k.
Proof.
  intro H. apply filter_In in H as [H Hne]. split; [exact H|]. intros ->.
  cbn [fst] in Hne. rewrite key_eqb_refl in Hne. discriminate.
Qed.

Global Opaque put del.

Definition effect (c : icall) (x : st) : st :=
  match c with
  | IWrite s k b => set_side s (put k b (side_store s x)) x
  | IRemove s k => set_side s (del k (side_store s x)) x
  end.

Lemma inner_cases c o x : inner c o x = (x, false) \/ fst (inner c o x) = effect c x.
Proof. destruct c, o; cbn [inner]; try destruct (has _ _); auto. Qed.

Lemma inner_remove_ok s k o x : snd (inner (IRemove s k) o x) = true -> has k (side_store s x) = true.
Proof. cbn [inner]. destruct (has _ _); [reflexivity | discriminate]. Qed.

Fixpoint effects (cs : list icall) (x : st) : list st :=
  match cs with
  | [] => []
  | c :: r => effect c x :: effects r (effect c x)
  end.

Lemma effects_Forall (P : st -> Prop) (Q : icall -> Prop) :
  (forall c y, Q c -> P y -> P (effect c y)) ->
  forall cs x, Forall Q cs -> P x -> Forall P (effects cs x).
Proof.
  intros H cs. induction cs as [|c r IH]; intros x Hq Hx; [constructor|]. inv Hq.
  cbn [effects]. constructor; [|apply IH]; auto.
Qed.

(* When every error is propagated, an inner call that leaves the state as it was ends the operation: no
   call takes effect unless all calls before it did.  So the micro-states are among the start state and
   `effects`, and an operation that reports success ends in the last of them. *)
Lemma run_calls_trace cs : forall os x,
  let r := run_calls (map (fun c => (c, true)) cs) os x in
  incl (fst r) (x :: effects cs x) /\ (snd r = true -> final x (fst r) = last (effects cs x) x).
Proof.
  induction cs as [|c cs IH]; intros os x; [split; [apply incl_nil_l | reflexivity]|].
  cbn [map run_calls effects]. destruct (inner_cases c (hd OOk os) x) as [-> | E].
  - split; [apply incl_cons; [left; reflexivity | apply incl_nil_l] | discriminate].
  - rewrite E. destruct (snd (inner c (hd OOk os) x)); cbn [orb negb fst snd].
    + destruct (IH (tl os) (effect c x)) as [Hin Hfin].
      split; [apply incl_tl, incl_cons; [left; reflexivity | exact Hin]|].
      intro Hs. unfold final in *. rewrite !last_cons. exact (Hfin Hs).
    + split; [apply incl_cons; [right; left; reflexivity | apply incl_nil_l] | discriminate].
Qed.

(* calls_of with the plans of Extracted.v written out, every error propagated: calls_of_inner ties the two
   together and stops holding when hotcold.rs or save_config change the calls, their guards or their order *)
Definition inner_calls (o : op) : list icall :=
  match o with
  | OpWrite ft i c b =>
      (if ft_neqb ft Config && (c || ft_neqb ft Pack) then [IWrite Hot (ft, i) b] else []) ++ [IWrite Cold (ft, i) b]
  | OpRemove ft i c => IRemove Cold (ft, i) :: (if c || ft_neqb ft Pack then [IRemove Hot (ft, i)] else [])
  | OpSaveConfig bc bh => [IWrite Cold (Config, config_id) bc; IWrite Hot (Config, config_id) bh]
  end.

Lemma calls_of_inner o : calls_of o = map (fun c => (c, true)) (inner_calls o).
Proof.
  destruct o as [ft i c b | ft i c | bc bh]; cbn [calls_of inner_calls];
    [unfold write_plan; destruct (_ && _) | unfold remove_plan; destruct (_ || _) |]; reflexivity.
Qed.

Lemma step_op_trace o os x :
  let r := step_op (o, os) x in
  incl (fst r) (x :: effects (inner_calls o) x) /\
  (snd r = true -> final x (fst r) = last (effects (inner_calls o) x) x).
Proof. unfold step_op; cbn [fst snd]. rewrite calls_of_inner. apply run_calls_trace. Qed.

Section Invariant.
Variable kind : id -> bool.       (* true: the pack is a tree pack *)
Variable content : key -> bytes.  (* content addressing: the bytes that belong to an id *)

(* all copies of a hot-type file carry the bytes that belong to its id *)
Definition consistent (x : st) : Prop :=
  forall s k b, hot_type kind k = true -> get k (side_store s x) = Some b -> b = content k.
Definition hot_has_cold (x : st) : Prop :=
  forall k, hot_type kind k = true -> has k (cold x) = true -> has k (hot x) = true.
Definition no_data_in_hot (x : st) : Prop :=
  forall i, kind i = false -> get (Pack, i) (hot x) = None.
Definition I (x : st) : Prop := consistent x /\ hot_has_cold x /\ no_data_in_hot x.

(* the property as stated: everything of a hot type that cold lists is in hot with identical
   bytes, and no data pack is in hot *)
Definition HotComplete (x : st) : Prop :=
  (forall k b, hot_type kind k = true -> get k (cold x) = Some b -> get k (hot x) = Some b)
  /\ no_data_in_hot x.

(* an operation respects the pack kinds and content addressing *)
Definition op_ok (o : op) : Prop :=
  match o with
  | OpWrite ft i c b => (ft = Pack -> c = kind i) /\ (hot_type kind (ft, i) = true -> b = content (ft, i))
  | OpRemove ft i c => ft = Pack -> c = kind i
  | OpSaveConfig _ _ => True
  end.

Lemma I_HotComplete x : I x -> HotComplete x.
Proof.
  intros (C & H & D). split; [|exact D].
  intros k b Hk Hc. destruct (proj1 (has_get k (hot x))) as [b' Hh].
  { apply (H k Hk), has_get. exists b. exact Hc. }
  rewrite Hh, (C Hot k b' Hk Hh), (C Cold k b Hk Hc). reflexivity.
Qed.

Lemma I_empty : I empty_st.
Proof.
  split; [|split].
  - intros [] k b _ G; discriminate G.
  - intros k _ G. discriminate G.
  - intros i _. reflexivity.
Qed.

(* under op_ok, a write goes to the hot store exactly when the file is of a hot type *)
Lemma hot_type_flag ft i c :
  (ft = Pack -> c = kind i) -> ft_neqb ft Config && (c || ft_neqb ft Pack) = hot_type kind (ft, i).
Proof. intro H. destruct ft; cbn; rewrite ?orb_true_r, ?orb_false_r; [reflexivity.. | exact (H eq_refl)]. Qed.

Definition call_ok (c : icall) : Prop :=
  match c with
  | IWrite s k b => (hot_type kind k = true -> b = content k) /\ (s = Hot -> fst k = Pack -> kind (snd k) = true)
  | IRemove _ _ => True
  end.

(* Two parts of the invariant are kept by every call_ok call, in whatever order the calls come. *)
Lemma consistent_effect c x : call_ok c -> consistent x -> consistent (effect c x).
Proof.
  intros Hc C s k b Hk. specialize (C s k b Hk).
  destruct c as [[] k' b' | [] k'], s; cbn [effect set_side side_store hot cold]; try exact C;
    rewrite ?get_put, ?get_del; destruct (key_eqb_spec k k') as [->|]; try exact C; try discriminate;
    intros [= <-]; exact (proj1 Hc Hk).
Qed.

Lemma no_data_effect c x : call_ok c -> no_data_in_hot x -> no_data_in_hot (effect c x).
Proof.
  intros Hc D i Hi. specialize (D i Hi).
  destruct c as [[] k' b' | [] k']; cbn [effect set_side side_store hot]; try exact D;
    rewrite ?get_put, ?get_del; destruct (key_eqb_spec (Pack, i) k') as [<-|]; try exact D; [|reflexivity].
  pose proof (proj2 Hc eq_refl eq_refl) as E. cbn [snd] in E. congruence.
Qed.

Lemma inner_calls_ok o : op_ok o -> Forall call_ok (inner_calls o).
Proof.
  destruct o as [ft i c b | ft i c | bc bh]; cbn [inner_calls op_ok].
  - intros [Hc Hb]. rewrite (hot_type_flag ft i c Hc).
    destruct (hot_type kind (ft, i)) eqn:Hk; repeat constructor; try discriminate;
      try (intros _; exact (Hb eq_refl)); try congruence.
    cbn [fst snd]. intros _ ->. exact Hk.
  - intros _. destruct (_ || _); repeat constructor.
  - intros _. repeat constructor; discriminate.
Qed.

(* The third part rests on the order of the inner calls: hot is written before cold and removed after cold,
   so whatever prefix of them takes effect, hot holds every key of a hot type that cold holds. *)
Lemma hot_has_cold_effects o x : op_ok o -> hot_has_cold x -> Forall hot_has_cold (effects (inner_calls o) x).
Proof.
  intros Hok H. destruct o as [ft i c b | ft i c | bc bh]; cbn [inner_calls].
  - rewrite (hot_type_flag ft i c (proj1 Hok)).
    destruct (hot_type kind (ft, i)) eqn:Hk; cbn [app effects effect set_side side_store hot cold];
      repeat constructor; intros k' Hk'; cbn [hot cold]; rewrite !has_put.
    + (* hot written: it only gains *)
      intro Hc. rewrite (H k' Hk' Hc). apply orb_true_r.
    + (* then cold: hot holds the key already *)
      destruct (key_eqb k' (ft, i)); [reflexivity | exact (H k' Hk')].
    + (* cold alone: the key is not of a hot type *)
      destruct (key_eqb_spec k' (ft, i)) as [->|]; [congruence | exact (H k' Hk')].
  - (* cold removed: it only loses; then hot: cold no longer holds the key *)
    destruct (_ || _); cbn [effects effect set_side side_store hot cold]; repeat constructor;
      intros k' Hk'; cbn [hot cold]; rewrite !has_del; destruct (key_eqb k' (ft, i)); cbn [negb andb];
      try discriminate; exact (H k' Hk').
  - (* the config file is not of a hot type *)
    cbn [effects effect set_side side_store hot cold]. repeat constructor; intros k' Hk'; cbn [hot cold];
      rewrite !has_put; (destruct (key_eqb_spec k' (Config, config_id)) as [->|]; [discriminate Hk'|]);
      exact (H k' Hk').
Qed.

Lemma I_effects o x : op_ok o -> I x -> Forall I (effects (inner_calls o) x).
Proof.
  intros Hok (C & H & D). pose proof (inner_calls_ok o Hok) as Hcs.
  apply Forall_and; [|apply Forall_and].
  - exact (effects_Forall _ _ consistent_effect _ x Hcs C).
  - exact (hot_has_cold_effects o x Hok H).
  - exact (effects_Forall _ _ no_data_effect _ x Hcs D).
Qed.

Lemma I_step_op o os x : op_ok o -> I x -> Forall I (fst (step_op (o, os) x)).
Proof.
  intros Hok HI. eapply incl_Forall; [apply step_op_trace|].
  constructor; [exact HI | apply I_effects; assumption].
Qed.

Lemma I_run_ops l : forall x, Forall op_ok (map fst l) -> I x -> Forall I (run_ops l x).
Proof.
  induction l as [|[o os] r IH]; intros x Hok HI; cbn [run_ops]; [constructor|].
  inv Hok. pose proof (I_step_op o os x H1 HI) as Hs.
  apply Forall_app. split; [exact Hs|].
  apply IH; [assumption|]. unfold final. apply Forall_last; assumption.
Qed.

End Invariant.
