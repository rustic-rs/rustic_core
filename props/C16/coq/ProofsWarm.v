(* C16 — warm-up: a disciplined sequence of requests never meets a rejecting cold store; a command that
   warms W and then reads R is disciplined when R is among W; what prune repacking and index repair read
   is among what they warm up first. *)
From Verif.Base Require Import Tactics.
From Verif.C16 Require Import ModelBase Extracted Proofs Warmup.
Local Open Scope N_scope.

Lemma all_served_app a b : all_served (a ++ b) = all_served a && all_served b.
Proof. apply forallb_app. Qed.

Lemma kmem_cons k a l : kmem k (a :: l) = key_eqb k a || kmem k l.
Proof. reflexivity. Qed.

(* the store is warm for at least the files whose warm-up has been seen *)
Lemma no_rejected_from m evs : forall warm seen,
  (forall k, kmem k seen = true -> kmem k warm = true) ->
  disciplined_from seen evs = true -> all_served (cold_run m warm evs) = true.
Proof.
  induction evs as [|e r IH]; intros warm seen Hs Hd; [reflexivity|].
  cbn [cold_run]. rewrite all_served_app. destruct e as [k|k]; cbn [disciplined_from cold_step fst snd] in *.
  - apply (IH (k :: warm) (k :: seen)); [|exact Hd].
    intros k0. rewrite !kmem_cons. destruct (key_eqb k0 k); [reflexivity | apply Hs].
  - apply andb_true_iff in Hd as [Hk Hd]. rewrite (Hs k Hk). exact (IH warm seen Hs Hd).
Qed.

Lemma no_rejected_read m evs :
  disciplined_from [] evs = true -> all_served (cold_run m [] evs) = true.
Proof. apply no_rejected_from. intros k H. exact H. Qed.

Lemma warm_to_cold_reaches m k : warm_to_cold m k = [LWarm k].
Proof. destruct m; destruct k as [ft i]; destruct ft; reflexivity. Qed.

Lemma h_to_l_disciplined m evs : forall seen,
  disciplined_from seen (flat_map (to_cold m) evs) = h_disciplined_from seen evs.
Proof.
  induction evs as [|e r IH]; intro seen; [reflexivity|].
  cbn [flat_map]. destruct e as [k|k|k c|k].
  1: cbn [to_cold]; rewrite warm_to_cold_reaches; apply IH.
  (* a read: both sides ask read_route whether it goes to the cold store *)
  all: cbn [to_cold h_disciplined_from]; destruct (read_route _) as [[[] k']|]; cbn [app disciplined_from];
    rewrite IH; reflexivity.
Qed.

Lemma warm_prefix W : forall seen rest,
  h_disciplined_from seen (map (fun i => HWarm (Pack, i)) W ++ rest)
  = h_disciplined_from (fold_left (fun s i => (Pack, i) :: s) W seen) rest.
Proof. induction W as [|w r IH]; intros seen rest; [reflexivity|]. cbn. apply IH. Qed.

Lemma reads_disciplined R c : forall seen,
  (forall i, In i R -> kmem (Pack, i) seen = true) ->
  h_disciplined_from seen (map (fun i => HReadPartial (Pack, i) c) R) = true.
Proof.
  induction R as [|x r IH]; intros seen H; [reflexivity|].
  cbn [map h_disciplined_from read_route fst].
  destruct (read_partial_side Pack c); rewrite ?(H x (or_introl eq_refl));
    apply IH; intros i Hi; apply H; right; exact Hi.
Qed.

Lemma cmd_disciplined R c W : forall seen,
  (forall i, In i R -> In i W \/ kmem (Pack, i) seen = true) ->
  h_disciplined_from seen (cmd_events [PhWarm; PhRead] W R c) = true.
Proof.
  unfold cmd_events. cbn [flat_map]. rewrite app_nil_r.
  induction W as [|w W IH]; intros seen H.
  - apply reads_disciplined. intros i Hi. destruct (H i Hi) as [[]|E]; exact E.
  - cbn [map app h_disciplined_from]. apply IH. intros i Hi. rewrite kmem_cons, key_eqb_pair.
    destruct (H i Hi) as [[<-|Hw]|E]; [right; rewrite N.eqb_refl; reflexivity | left; exact Hw | right; rewrite E; apply orb_true_r].
Qed.

Lemma cmd_served m order W R c :
  order = [PhWarm; PhRead] -> incl R W -> all_served (cmd_cold_results m order W R c) = true.
Proof.
  intros -> H. apply no_rejected_read. rewrite h_to_l_disciplined. apply cmd_disciplined.
  intros i Hi. left. exact (H i Hi).
Qed.

Lemma exec_reads_warmed t : exec_reads t = true -> plan_warms t = true.
Proof. destruct t; cbn; intro H; try discriminate; reflexivity. Qed.

Lemma exec_loop_reads ps : forall used l,
  exec_loop used ps = Some l -> incl (map fst l) (map pp_id (filter (fun p => exec_reads (pp_todo p)) ps)).
Proof.
  induction ps as [|p r IH]; intros used l H; cbn [exec_loop filter] in *; [inv H; apply incl_refl|].
  destruct (pp_todo p); try discriminate H; cbn [exec_reads] in *; try exact (IH _ _ H).
  destruct (exec_loop _ r) as [l0|] eqn:El; [|discriminate H]. inv H.
  apply incl_cons; [left; reflexivity | apply incl_tl; exact (IH _ _ El)].
Qed.

Lemma prune_read_incl chunks pl used reads :
  prune_read chunks pl used = Some reads -> incl reads (prune_warmed pl).
Proof.
  unfold prune_read.
  destruct (exec_loop used (concat pl)) as [l|] eqn:E; [|discriminate].
  intros [= <-] i Hi. apply in_flat_map in Hi. destruct Hi as (pk & Hpk & Hrep).
  apply repeat_spec in Hrep. subst i.
  apply (in_map fst), (exec_loop_reads _ _ _ E), in_map_iff in Hpk. destruct Hpk as (p & <- & Hp).
  apply filter_In in Hp as [Hp He]. apply (in_map pp_id), filter_In. exact (conj Hp (exec_reads_warmed _ He)).
Qed.

Lemma repair_read_incl nreads prh : incl (repair_read nreads prh) prh.
Proof.
  intros i Hi. unfold repair_read in Hi. apply in_flat_map in Hi. destruct Hi as (j & Hj & Hrep).
  apply repeat_spec in Hrep. subst. exact Hj.
Qed.
