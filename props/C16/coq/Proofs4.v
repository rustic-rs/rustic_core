(* C16 — the executable checker inv_b (used as the oracle on recorded op logs) decides the
   property when the cold store is well formed; a cold store built by inner calls from the empty
   state is. *)
From Verif.Base Require Import Tactics.
From Verif.C16 Require Import ModelBase Model Proofs.
Local Open Scope N_scope.

Lemma bytes_eqb_eq a b : bytes_eqb a b = true <-> a = b.
Proof.
  unfold bytes_eqb. revert b.
  induction a as [|x a IH]; intros [|y b]; cbn [length combine forallb Nat.eqb fst snd andb];
    [split; reflexivity | split; discriminate | split; discriminate |].
  (* the heads are equal, and the tails satisfy the two conditions *)
  rewrite andb_comm, <- andb_assoc, andb_true_iff, (andb_comm (forallb _ _)), IH, N.eqb_eq.
  split; [intros [-> ->]; reflexivity | intros [= -> ->]; split; reflexivity].
Qed.

Lemma inv_b_sound kind x : inv_b kind x = true -> HotComplete kind x.
Proof.
  unfold inv_b. intro H. apply andb_true_iff in H as [H1 H2].
  rewrite forallb_forall in H1, H2. split.
  - intros k b Hk G. apply get_In in G. specialize (H1 _ G). cbn [fst snd] in H1. rewrite Hk in H1.
    destruct (get k (hot x)) as [b'|]; [|discriminate]. apply bytes_eqb_eq in H1. subst. reflexivity.
  - intros i Hi. destruct (get (Pack, i) (hot x)) as [v|] eqn:G; [|reflexivity].
    apply get_In in G. specialize (H2 _ G). cbn in H2. congruence.
Qed.

(* no key twice: every entry is the one `get` finds *)
Definition wf (s : store) : Prop := forall k v, In (k, v) s -> get k s = Some v.

Lemma inv_b_complete kind x : wf (cold x) -> HotComplete kind x -> inv_b kind x = true.
Proof.
  intros Hwf [H1 H2]. unfold inv_b. apply andb_true_iff. split; apply forallb_forall.
  - intros [k v] Hin. cbn [fst snd]. destruct (hot_type kind k) eqn:Hk; [|reflexivity].
    rewrite (H1 k v Hk (Hwf k v Hin)). apply bytes_eqb_eq. reflexivity.
  - intros [[ft i] v] Hin. cbn [fst snd]. destruct ft; try reflexivity.
    destruct (kind i) eqn:Hi; [reflexivity|].
    apply In_has in Hin. rewrite (proj2 (has_false _ _) (H2 i Hi)) in Hin. discriminate.
Qed.

Lemma wf_del k s : wf s -> wf (del k s).
Proof.
  intros H k' v Hin. apply In_del in Hin as [Hin Hne]. rewrite get_del.
  destruct (key_eqb_spec k' k); [contradiction | exact (H k' v Hin)].
Qed.

Lemma wf_put k v s : wf s -> wf (put k v s).
Proof.
  intros H k' v' Hin. apply In_put in Hin as [[= -> ->]|Hin]; [apply get_put_eq|].
  apply In_del in Hin as [Hin Hne]. rewrite get_put.
  destruct (key_eqb_spec k' k); [contradiction | exact (H k' v' Hin)].
Qed.

Lemma wf_inner c o x : wf (cold x) -> wf (cold (fst (inner c o x))).
Proof.
  intro H. destruct (inner_cases c o x) as [-> | ->]; [exact H|].
  destruct c as [[] k b | [] k]; cbn [effect set_side side_store cold]; auto using wf_put, wf_del.
Qed.

(* what the log replay of the driver computes *)
Definition replay (l : list (icall * outcome)) (x : st) : st := fold_left (fun x co => fst (inner (fst co) (snd co) x)) l x.

Lemma wf_replay l : forall x, wf (cold x) -> wf (cold (replay l x)).
Proof. induction l as [|[c o] r IH]; intros x H; [exact H|]. cbn. apply IH. apply wf_inner. exact H. Qed.
