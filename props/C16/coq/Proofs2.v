(* C16 — refinement of a single store by the hot/cold wrapper: what writes and removes do to the cold
   store, what reads and listings return. *)
From Verif.Base Require Import Tactics.
From Verif.C16 Require Import ModelBase Extracted Model Proofs.
Local Open Scope N_scope.

Fixpoint run_results (l : list (op * list outcome)) (x : st) : list bool :=
  match l with
  | [] => []
  | oo :: r => let t := step_op oo x in snd t :: run_results r (final x (fst t))
  end.

(* every operation has exactly one inner call on the cold store, and it is what the operation does to
   a single store: a prefix of the inner calls leaves the cold store as it was or as the single store
   would be, and all of them leave it as the single store would be *)
Lemma cold_effects o x :
  Forall (fun y => cold y = cold x \/ cold y = single_apply o (cold x)) (effects (inner_calls o) x) /\
  cold (last (effects (inner_calls o) x) x) = single_apply o (cold x).
Proof.
  destruct o as [ft i c b | ft i c | bc bh]; cbn [inner_calls];
    [destruct (_ && _) | destruct (_ || _) |]; cbn; auto.
Qed.

Lemma step_op_cold o os x :
  cold (final x (fst (step_op (o, os) x))) = cold x \/
  cold (final x (fst (step_op (o, os) x))) = single_apply o (cold x).
Proof.
  apply (Forall_last (fun y => cold y = cold x \/ cold y = single_apply o (cold x))); [left; reflexivity|].
  eapply incl_Forall; [apply step_op_trace|].
  constructor; [left; reflexivity | apply cold_effects].
Qed.

Lemma step_op_success o os x :
  snd (step_op (o, os) x) = true ->
  cold (final x (fst (step_op (o, os) x))) = single_apply o (cold x) /\ single_ok o (cold x) = true.
Proof.
  intro Hs. rewrite (proj2 (step_op_trace o os x) Hs). split; [apply cold_effects|].
  destruct o as [| ft i c |]; try reflexivity.
  (* the removal on the cold store comes first, its error is propagated, and it fails on a missing file *)
  unfold step_op in Hs. rewrite calls_of_inner in Hs. cbn [fst snd inner_calls map run_calls] in Hs.
  apply (inner_remove_ok Cold (ft, i) (hd OOk os) x).
  destruct (snd (inner _ _ x)); [reflexivity | discriminate Hs].
Qed.

Lemma exec_ops_cons oo r x : exec_ops (oo :: r) x = exec_ops r (final x (fst (step_op oo x))).
Proof. apply last_app. Qed.

Lemma exec_ops_cold l : forall x,
  forallb (fun b => b) (run_results l x) = true ->
  cold (exec_ops l x) = fold_left (fun s o => single_apply o s) (map fst l) (cold x).
Proof.
  induction l as [|[o os] r IH]; intros x H; [reflexivity|].
  cbn [run_results forallb] in H. apply andb_true_iff in H as [H1 H2].
  rewrite exec_ops_cons, (IH _ H2), (proj1 (step_op_success o os x H1)). reflexivity.
Qed.

Lemma hc_list_cold x ft : hc_list x ft = listing ft (cold x).
Proof. reflexivity. Qed.

Lemma hc_read_full_hot x ft i : hc_read_full x ft i = get (ft, i) (hot x).
Proof. reflexivity. Qed.

Lemma hc_read_partial_data x i off len :
  hc_read_partial x Pack i false off len = store_read_partial (cold x) (Pack, i) off len.
Proof. reflexivity. Qed.

(* a hot-type file that the cold store holds is read from the hot store, which holds the same bytes *)
Lemma hc_read_hot kind x ft i b :
  HotComplete kind x -> hot_type kind (ft, i) = true -> get (ft, i) (cold x) = Some b ->
  hc_read_full x ft i = Some b /\
  forall c off len, (ft = Pack -> c = kind i) ->
    hc_read_partial x ft i c off len = store_read_partial (cold x) (ft, i) off len.
Proof.
  intros [HC _] Hk Hc. specialize (HC (ft, i) b Hk Hc). split; [exact HC|].
  intros c off len Hp. unfold hc_read_partial, read_partial_side.
  rewrite <- (hot_type_flag kind ft i c Hp) in Hk. apply andb_true_iff in Hk. rewrite (proj2 Hk).
  unfold store_read_partial. cbn [side_store]. rewrite HC, Hc. reflexivity.
Qed.
