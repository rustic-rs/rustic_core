(* C13 — what the invariant gives in final states; the request history; progress and
   termination; witnesses. *)
From Verif.Base Require Import Tactics.
From Verif.C13 Require Import Extracted Model Proofs.
Local Open Scope nat_scope.

Lemma quiet_inv p : quiet p = true -> inflight p = [] /\ cur p = [] /\ wq p = [] /\ wip p = None.
Proof.
  unfold quiet. destruct (inflight p), (cur p), (wq p), (wip p); try discriminate. repeat split.
Qed.

Lemma final_quiet s t : final s = true -> quiet (get s t) = true.
Proof. unfold final. intro F. apply andb_true_iff in F. destruct F, t; assumption. Qed.

Lemma final_req_indexed s : Inv s -> final s = true ->
  forall t i, In (t, i) (requested s) -> ix_in s t i.
Proof.
  intros I F t i H. destruct (inv_req s I t i H) as [Hx|Hh]; [exact Hx|].
  destruct (quiet_inv _ (final_quiet s t F)) as (E1 & E2 & E3 & E4).
  unfold ids in Hh. rewrite E1, E2, E3, E4 in Hh. destruct Hh.
Qed.

Definition no_cross (s : st) : Prop :=
  forall i, ~ (In (Data, i) (requested s) /\ In (Tree, i) (requested s)).

Lemma final_typed_lookup_lemma es s :
  run init es = Some s -> final s = true ->
  (indexer_typed = true \/ no_cross s) ->
  forall t i, In (t, i) (requested s) -> exists pk, In (t, pk) (idx s) /\ In i pk.
Proof.
  intros R F Hyp t i H. pose proof (reach_inv es s R) as I.
  destruct (final_req_indexed s I F t i H) as [[t' i'] [He [Ht Hi]]]. cbn in Ht, Hi. subst i'.
  assert (t' = t) as ->; [|apply (inv_indexed s I), He].
  destruct Hyp as [Ty|NC]; [exact (Ht Ty)|].
  pose proof (inv_origin s I t' i (or_introl He)) as Ho.
  destruct t, t'; try reflexivity; destruct (NC i); split; assumption.
Qed.

Fixpoint sends (es : list ev) : list (bt * id) :=
  match es with
  | [] => []
  | Send t i :: es' => (t, i) :: sends es'
  | _ :: es' => sends es'
  end.

Lemma run_requested : forall es s s', run s es = Some s' -> requested s' = rev (sends es) ++ requested s.
Proof.
  induction es as [|e es IH]; intros s s' R; cbn in R.
  - injection R as <-. reflexivity.
  - destruct (step s e) as [s1|] eqn:St; [|discriminate]. rewrite (IH _ _ R).
    destruct (step_pstep _ _ _ St) as (q & wr & ix & _ & ->). rewrite requested_upd.
    destruct e; cbn [sends ev_sent map app]; try reflexivity. cbn [rev]. rewrite <- app_assoc. reflexivity.
Qed.

Lemma reach_requested es s : run init es = Some s -> requested s = rev (sends es).
Proof. intro R. rewrite (run_requested es init s R). apply app_nil_r. Qed.

Lemma progress_lemma s : 0 < wq_cap -> final s = false -> enabled_internal s <> [].
Proof.
  intros Cap F. unfold enabled_internal. set (f := fun t : bt => _).
  assert (G : forall t, quiet (get s t) = false -> f t <> []).
  { (* the first in-flight item can advance; else the written pack can be indexed; else a queued
       pack can be written; else the current pack is not empty and the queue is: it can be flushed *)
    intros t Q. unfold f, quiet in *. set (p := get s t) in *.
    destruct (inflight p) as [|x xs]; [|cbn; discriminate]. cbn [length seq map app].
    destruct (wip p) as [pk|] eqn:W.
    - destruct (cur p); [|destruct (_ <? _)]; destruct (wq p); cbn; discriminate.
    - destruct (wq p) as [|w ws] eqn:Wq.
      + destruct (cur p) as [|c cs]; [cbn in Q; discriminate|].
        cbn [length]. destruct (0 <? wq_cap) eqn:E; [cbn; discriminate | lia].
      + destruct (cur p); [|destruct (_ <? _)]; cbn; discriminate. }
  unfold final in F. apply andb_false_iff in F. cbn [flat_map]. intro H.
  apply app_eq_nil in H. destruct H as [H1 H2]. apply app_eq_nil in H2.
  destruct F as [F|F]; [apply (G Data F); exact H1 | apply (G Tree F); apply H2].
Qed.

Lemma enabled_internal_sound_lemma s e : In e (enabled_internal s) -> is_send e = false /\ exists s', step s e = Some s'.
Proof.
  unfold enabled_internal. rewrite in_flat_map. intros [t [_ H]].
  repeat (apply in_app_or in H; destruct H as [H|H]).
  - apply in_map_iff in H. destruct H as [n [<- Hn]]. split; [reflexivity|]. apply in_seq in Hn.
    cbn [step]. destruct (nth_error (inflight (get s t)) n) as [[i stg]|] eqn:E.
    + destruct stg as [|[|[|[|stg]]]]; try destr_if; eexists; reflexivity.
    + apply nth_error_None in E. lia.
  - destruct (cur (get s t)) eqn:C; [destruct H|]. destruct (_ <? _) eqn:L; [|destruct H].
    destruct H as [<-|[]]. split; [reflexivity|]. cbn [step]. rewrite C, L. eexists; reflexivity.
  - destruct (wip (get s t)) eqn:W; [destruct H|]. destruct (wq (get s t)) eqn:Q; [destruct H|].
    destruct H as [<-|[]]. split; [reflexivity|]. cbn [step]. rewrite W, Q. eexists; reflexivity.
  - destruct (wip (get s t)) eqn:W; [|destruct H]. destruct H as [<-|[]]. split; [reflexivity|].
    cbn [step]. rewrite W. eexists; reflexivity.
Qed.

Lemma measure_upd s t q snt wr ix :
  measure (upd s t q snt wr ix) + packer_measure (get s t) = measure s + packer_measure q.
Proof. destruct t; unfold measure; cbn [upd set get pd pt]; lia. Qed.

Lemma item_w_pos x : 5 <= item_w x.
Proof. unfold item_w. lia. Qed.

Lemma item_w_adv i stg : stg <= 3 -> item_w (i, S stg) < item_w (i, stg).
Proof. unfold item_w. cbn [snd]. lia. Qed.

(* every move of a packer except taking in a new item makes it lighter: the weights of the
   stages decrease along the pipeline (an item: 10 - stage >= 5, a pack being assembled: 4,
   a queued pack: 3, the written one: 1) *)
Lemma pstep_measure has p snt wr ix q :
  pstep has p snt wr ix q -> snt = [] -> packer_measure q < packer_measure p.
Proof.
  intros [i | l1 i stg l2 E _ | l1 i stg l2 E L _ | l1 i stg l2 E _ | c cs C | pk rest W Q | pk W] S;
    [discriminate|..];
    try pose proof (item_w_pos (i, stg));
    unfold packer_measure; cbn [inflight cur wq wip with_inflight].
  - rewrite E, !map_app, !list_sum_app. unfold list_sum. cbn [map fold_right]. lia.
  - apply item_w_adv with (i := i) in L. rewrite E, !map_app, !list_sum_app. unfold list_sum. cbn [map fold_right]. lia.
  - rewrite E, !map_app, !list_sum_app. unfold list_sum. cbn [map fold_right].
    assert (B : forall l : list id, (if is_nil_b l then 0 else 1) <= 1) by (intros []; cbn; lia).
    pose proof (B (if mem i (cur p) then cur p else cur p ++ [i])). lia.
  - rewrite C, app_length. cbn [is_nil_b length]. lia.
  - rewrite W, Q. cbn [length]. lia.
  - rewrite W. lia.
Qed.

(* non-vacuity: a complete two-packer run *)
Definition ex_run : list ev :=
  [Send Data 7%N; Send Tree 9%N; Adv Data 0; Adv Data 0; Adv Data 0; Adv Data 0; Adv Data 0;
   Send Data 8%N; Flush Data; Adv Tree 0; Adv Tree 0; WriteP Data; Adv Tree 0; Adv Tree 0; Adv Tree 0;
   Adv Data 0; Adv Data 0; IndexP Data; Adv Data 0; Adv Data 0; Adv Data 0; Flush Tree; Flush Data;
   WriteP Tree; WriteP Data; IndexP Tree; IndexP Data].
Example ex_run_final : exists s, run init ex_run = Some s /\ final s = true /\
  idx s = [(Data, [7%N]); (Tree, [9%N]); (Data, [8%N])] /\ length (requested s) = 3.
Proof. eexists. split; [vm_compute; reflexivity|]. split; [reflexivity|]. split; reflexivity. Qed.

(* With an UNTYPED indexer, a tree blob whose id equals an already indexed data blob is
   dropped by the first filter: the run completes, the tree blob is in no tree pack. *)
Definition collision_run : list ev :=
  [Send Data 7%N; Adv Data 0; Adv Data 0; Adv Data 0; Adv Data 0; Adv Data 0; Flush Data; WriteP Data; IndexP Data;
   Send Tree 7%N; Adv Tree 0].
