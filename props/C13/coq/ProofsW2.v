(* C13 — invariants of the tree walker.  A step moves one id along
   todo -> q_in -> a loader -> q_out -> delivered (`wstep_flight`); hence no id is ever in
   flight twice and everything in flight stays inside a closed universe of tree ids.  Over a
   finite universe every step decreases a measure (`wstep_decreases`, by cases of `wstep`
   again). *)
From Verif.Base Require Import Tactics Lists.
From Verif.C13 Require Import Extracted Walker.
Local Open Scope nat_scope.

Definition cw (ch : tid -> list tid) (x : tid) : nat := S (length (ch x)).
Definition sumw (f : tid -> nat) (l : list tid) : nat := fold_right (fun x a => f x + a) 0 l.
Definition held (l : list (option tid)) : list tid :=
  flat_map (fun o => match o with Some x => [x] | None => [] end) l.
Definition unv (U vis : list tid) : list tid := filter (fun x => negb (tmem x vis)) U.

Definition wmeasure (U : list tid) (ch : tid -> list tid) (s : wstate) : nat :=
  (match cons s with Idle => 0 | Pushing l => S (length l) end)
  + sumw (fun x => 4 + cw ch x) (unv U (visited s))
  + sumw (fun x => 3 + cw ch x) (q_in s)
  + sumw (fun x => 2 + cw ch x) (held (ldr s))
  + sumw (fun x => 1 + cw ch x) (q_out s).

Lemma sumw_app f a b : sumw f (a ++ b) = sumw f a + sumw f b.
Proof. induction a as [|x a IH]; cbn [sumw fold_right app]; [reflexivity|]. fold (sumw f (a ++ b)) (sumw f a). rewrite IH. lia. Qed.

Lemma sumw_cons f x l : sumw f (x :: l) = f x + sumw f l.
Proof. reflexivity. Qed.

Lemma sumw_perm f a b : Permutation a b -> sumw f a = sumw f b.
Proof. induction 1; rewrite ?sumw_cons; lia. Qed.

Lemma held_cons o l : held (o :: l) = match o with Some x => [x] | None => [] end ++ held l.
Proof. reflexivity. Qed.

Lemma held_repeat_none n : held (repeat None n) = [].
Proof. induction n as [|n IH]; [reflexivity | exact IH]. Qed.

Lemma held_set_some i x l : nth_error l i = Some None ->
  Permutation (held (set_nth i (Some x) l)) (x :: held l).
Proof.
  revert i; induction l as [|o t IH]; intros [|i] H; cbn [nth_error] in H; try discriminate.
  - inv H. reflexivity.
  - cbn [set_nth]. rewrite !held_cons, (IH i H). symmetry. apply Permutation_middle.
Qed.

Lemma held_set_none i x l : nth_error l i = Some (Some x) ->
  Permutation (x :: held (set_nth i None l)) (held l).
Proof.
  revert i; induction l as [|o t IH]; intros [|i] H; cbn [nth_error] in H; try discriminate.
  - inv H. reflexivity.
  - cbn [set_nth]. rewrite !held_cons, <- (IH i H). apply Permutation_middle.
Qed.

Lemma tmem_cons u x vis : tmem u (x :: vis) = N.eqb u x || tmem u vis.
Proof. reflexivity. Qed.

Lemma tmem_false_notin x l : tmem x l = false -> ~ In x l.
Proof. unfold tmem. intros H Hin. apply existsb_Neqb_In in Hin. congruence. Qed.

Definition todo (s : wstate) : list tid := match cons s with Idle => [] | Pushing l => l end.
Definition flight (s : wstate) : list tid := q_in s ++ held (ldr s) ++ q_out s ++ delivered s.

Lemma wstep_flight ch c s e s' : wstep ch c s e = Some s' ->
  (visited s' = visited s /\ Permutation (flight s') (flight s) /\
   (incl (todo s') (todo s) \/ exists t, In t (flight s) /\ todo s' = ch t)) \/
  (exists x, tmem x (visited s) = false /\ visited s' = x :: visited s /\
             Permutation (flight s') (x :: flight s) /\ In x (todo s) /\ incl (todo s') (todo s)).
Proof.
  unfold wstep, flight, todo; intros H.
  destruct e as [|i|i].
  - destruct (cons s) as [|[|x rest]].
    + destruct (q_out s) as [|t r] eqn:Hq; [discriminate|]. injection H as <-. left. cbn [q_in ldr q_out delivered visited cons].
      split; [reflexivity|]. split.
      * do 2 apply Permutation_app_head. symmetry. apply Permutation_middle.
      * right. exists t. split; [|reflexivity]. do 2 (apply in_or_app; right). left. reflexivity.
    + injection H as <-. left. split; [reflexivity|]. split; [reflexivity | left; apply incl_refl].
    + destruct (tmem x (visited s)) eqn:Hv.
      * injection H as <-. left. split; [reflexivity|]. split; [reflexivity | left; apply incl_tl, incl_refl].
      * destruct (room _ _); [|discriminate]. injection H as <-. right. exists x. cbn [q_in ldr q_out delivered visited cons].
        split; [exact Hv|]. split; [reflexivity|]. split; [|split; [left; reflexivity | apply incl_tl, incl_refl]].
        rewrite <- app_assoc. symmetry. apply Permutation_middle.
  - destruct (nth_error (ldr s) i) as [[y|]|] eqn:Hn; try discriminate.
    destruct (q_in s) as [|x r] eqn:Hq; [discriminate|]. injection H as <-. left. cbn [q_in ldr q_out delivered visited cons].
    split; [reflexivity|]. split; [|left; apply incl_refl].
    rewrite (held_set_some i x (ldr s) Hn). symmetry. apply Permutation_middle.
  - destruct (nth_error (ldr s) i) as [[y|]|] eqn:Hn; try discriminate.
    destruct (_ <? _); [|discriminate]. injection H as <-. left. cbn [q_in ldr q_out delivered visited cons].
    split; [reflexivity|]. split; [|left; apply incl_refl].
    apply Permutation_app_head. rewrite <- (held_set_none i y (ldr s) Hn), <- app_assoc.
    cbn [app]. rewrite !(app_assoc (held _)). symmetry. apply Permutation_middle.
Qed.

Definition once_inv (s : wstate) : Prop :=
  NoDup (visited s) /\ NoDup (flight s) /\ incl (flight s) (visited s).

Lemma once_inv_reach ch c roots s : wreach ch c roots s -> once_inv s.
Proof.
  induction 1 as [|s e s' _ (Hv & Hf & Hi) Hs].
  - unfold once_inv, flight. cbn. rewrite held_repeat_none. repeat constructor. intros x [].
  - unfold once_inv.
    destruct (wstep_flight _ _ _ _ _ Hs) as [(-> & Hp & _)|(x & Hx & -> & Hp & _)]; repeat split.
    + exact Hv.
    + apply (Permutation_NoDup (Permutation_sym Hp) Hf).
    + intros y Hy. apply Hi, (Permutation_in _ Hp), Hy.
    + constructor; [apply tmem_false_notin, Hx | exact Hv].
    + apply (Permutation_NoDup (Permutation_sym Hp)). constructor; [|exact Hf].
      intro Hin. apply (tmem_false_notin _ _ Hx), Hi, Hin.
    + intros y Hy. apply (Permutation_in _ Hp) in Hy. destruct Hy as [<-|Hy]; [left; reflexivity | right; apply Hi, Hy].
Qed.

Definition winv (U : list tid) (s : wstate) : Prop := incl (todo s) U /\ incl (flight s) U.

Lemma winv_reach U ch c roots s :
  incl roots U -> (forall x, In x U -> incl (ch x) U) ->
  wreach ch c roots s -> winv U s.
Proof.
  intros Hr Hcl. induction 1 as [|s e s' _ (Ht & Hf) Hs].
  - split; [exact Hr|]. unfold flight. cbn. rewrite held_repeat_none. intros x [].
  - destruct (wstep_flight _ _ _ _ _ Hs) as [(_ & Hp & Hto)|(x & _ & _ & Hp & Hin & Hto)]; split.
    + destruct Hto as [Hto|(t & Hin & ->)]; [exact (incl_tran Hto Ht) | apply Hcl, Hf, Hin].
    + intros y Hy. apply Hf, (Permutation_in _ Hp), Hy.
    + exact (incl_tran Hto Ht).
    + intros y Hy. apply (Permutation_in _ Hp) in Hy. destruct Hy as [<-|Hy]; [apply Ht, Hin | apply Hf, Hy].
Qed.

Lemma unv_notin U x vis : ~ In x U -> unv U (x :: vis) = unv U vis.
Proof.
  induction U as [|u U IH]; intros Hn; [reflexivity|].
  cbn [unv filter]. rewrite tmem_cons.
  assert (Hux : N.eqb u x = false).
  { apply N.eqb_neq. intros ->. apply Hn. left; reflexivity. }
  rewrite Hux. cbn [orb].
  fold (unv U (x :: vis)) (unv U vis). rewrite IH by (intros Hi; apply Hn; right; exact Hi).
  reflexivity.
Qed.

Lemma unv_visit f U x vis : NoDup U -> In x U -> tmem x vis = false ->
  sumw f (unv U (x :: vis)) + f x = sumw f (unv U vis).
Proof.
  induction U as [|u U IH]; intros Hnd Hin Hv; [destruct Hin|].
  inversion Hnd as [|? ? Hnu HndU]; subst.
  cbn [unv filter]. rewrite tmem_cons.
  fold (unv U (x :: vis)) (unv U vis).
  destruct (N.eqb u x) eqn:Hux.
  - apply N.eqb_eq in Hux. subst u. cbn [orb negb]. rewrite Hv. cbn [negb].
    rewrite (unv_notin U x vis Hnu). rewrite sumw_cons. lia.
  - cbn [orb].
    assert (HinU : In x U).
    { destruct Hin as [->|H]; [rewrite N.eqb_refl in Hux; discriminate|exact H]. }
    specialize (IH HndU HinU Hv).
    destruct (negb (tmem u vis)); [rewrite !sumw_cons|]; lia.
Qed.

(* The weights decrease along the path of an id: not yet visited 4, pending 3, with a loader
   2, loaded 1, each plus the cost cw of the pushes its delivery will cause. *)
Lemma wstep_decreases U ch c s e s' :
  NoDup U -> winv U s -> wstep ch c s e = Some s' -> wmeasure U ch s' < wmeasure U ch s.
Proof.
  intros Hnd (Ht & _) H. unfold wstep in H. unfold wmeasure, todo in *.
  destruct e as [|i|i].
  - destruct (cons s) as [|[|x rest]] eqn:Hc.
    + destruct (q_out s) as [|t r] eqn:Hq; [discriminate|]. injection H as <-. cbn [cons visited q_in ldr q_out].
      rewrite sumw_cons. unfold cw. lia.
    + injection H as <-. cbn [cons visited q_in ldr q_out length]. lia.
    + destruct (tmem x (visited s)) eqn:Hv.
      * injection H as <-. cbn [cons visited q_in ldr q_out length]. lia.
      * destruct (room _ _); [|discriminate]. injection H as <-. cbn [cons visited q_in ldr q_out length].
        rewrite sumw_app, sumw_cons.
        pose proof (unv_visit (fun x => 4 + cw ch x) U x (visited s) Hnd (Ht x (or_introl eq_refl)) Hv) as Hu.
        cbn beta in Hu. cbn [sumw fold_right]. lia.
  - destruct (nth_error (ldr s) i) as [[y|]|] eqn:Hn; try discriminate.
    destruct (q_in s) as [|x r] eqn:Hq; [discriminate|]. injection H as <-. cbn [cons visited q_in ldr q_out].
    rewrite (sumw_perm _ _ _ (held_set_some i x (ldr s) Hn)), !sumw_cons. lia.
  - destruct (nth_error (ldr s) i) as [[y|]|] eqn:Hn; try discriminate.
    destruct (_ <? _); [|discriminate]. injection H as <-. cbn [cons visited q_in ldr q_out].
    rewrite <- (sumw_perm _ _ _ (held_set_none i y (ldr s) Hn)), sumw_app, !sumw_cons.
    cbn [sumw fold_right]. lia.
Qed.
