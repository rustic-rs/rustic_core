(* C13 — every event of the pipeline moves ids and packs through ONE packer; what it
   takes in and what it passes on to the backend and the indexer balance (`flow`), and
   that is all the invariant `Inv` of every interleaving needs. *)
From Verif.Base Require Import Tactics Lists.
From Verif.C13 Require Import Extracted Model.
Local Open Scope nat_scope.

Lemma mem_In x l : mem x l = true <-> In x l.
Proof. exact (existsb_Neqb_In x l). Qed.

Lemma bt_eqb_eq a b : bt_eqb a b = true <-> a = b.
Proof. destruct a, b; cbn; split; intro H; try reflexivity; try discriminate. Qed.

Lemma get_set_same s t p : get (set s t p) t = p.
Proof. destruct t; reflexivity. Qed.
Lemma get_set_other s t t' p : t <> t' -> get (set s t p) t' = get s t'.
Proof. destruct t, t'; intro H; try reflexivity; contradiction. Qed.
Lemma set_fields s t p :
  written (set s t p) = written s /\ idx (set s t p) = idx s /\
  indexed (set s t p) = indexed s /\ requested (set s t p) = requested s.
Proof. destruct t; repeat split. Qed.
Lemma get_mk s0 w i x r t' :
  get {| pd := pd s0; pt := pt s0; written := w; idx := i; indexed := x; requested := r |} t' = get s0 t'.
Proof. destruct t'; reflexivity. Qed.

Lemma at_split {A} (x : A) : forall n l, nth_error l n = Some x ->
  exists l1 l2, l = l1 ++ x :: l2 /\ remove_at n l = l1 ++ l2 /\ forall y, replace_at n y l = l1 ++ y :: l2.
Proof.
  induction n as [|n IH]; intros [|a l] H; try discriminate; cbn in H.
  - injection H as ->. exists [], l. repeat split.
  - destruct (IH l H) as (l1 & l2 & -> & Er & Ep). exists (a :: l1), l2. cbn. rewrite Er.
    repeat split. intro y. rewrite Ep. reflexivity.
Qed.

Lemma remove_at_in {A} (x : A) : forall n l, In x l -> In x (remove_at n l) \/ nth_error l n = Some x.
Proof.
  induction n as [|n IH]; intros l H; destruct l as [|a l]; try (inversion H; fail); cbn.
  - destruct H as [->|H]; [right; reflexivity | left; assumption].
  - destruct H as [->|H]; [left; left; reflexivity|].
    destruct (IH l H) as [H'|H']; [left; right; assumption | right; assumption].
Qed.

Lemma remove_at_incl {A} (x : A) : forall n l, In x (remove_at n l) -> In x l.
Proof.
  induction n as [|n IH]; intros l H; destruct l as [|a l]; cbn in *; try contradiction.
  - right; assumption.
  - destruct H as [->|H]; [left; reflexivity | right; apply IH; assumption].
Qed.

Lemma replace_at_in {A} (x y : A) : forall n l, In x l -> In x (replace_at n y l) \/ nth_error l n = Some x.
Proof.
  induction n as [|n IH]; intros l H; destruct l as [|a l]; try (inversion H; fail); cbn.
  - destruct H as [->|H]; [right; reflexivity | left; right; assumption].
  - destruct H as [->|H]; [left; left; reflexivity|].
    destruct (IH l H) as [H'|H']; [left; right; assumption | right; assumption].
Qed.

Lemma replace_at_incl {A} (x y : A) : forall n l, In x (replace_at n y l) -> In x l \/ x = y.
Proof.
  induction n as [|n IH]; intros l H; destruct l as [|a l]; cbn in *; try contradiction.
  - destruct H as [<-|H]; [right; reflexivity | left; right; assumption].
  - destruct H as [->|H]; [left; left; reflexivity|].
    destruct (IH l H) as [H'|H']; [left; right; assumption | right; assumption].
Qed.

Definition ix_in (s : st) (t : bt) (i : id) : Prop :=
  exists e, In e (indexed s) /\ (indexer_typed = true -> fst e = t) /\ snd e = i.

Lemma ix_has_iff s t i : ix_has s t i = true <-> ix_in s t i.
Proof.
  unfold ix_has, ix_in. rewrite existsb_exists. split.
  - intros [e [He H]]. exists e. apply andb_true_iff in H. destruct H as [H1 H2].
    apply N.eqb_eq in H2. repeat split; try assumption.
    intro T. rewrite T in H1. apply bt_eqb_eq. assumption.
  - intros [e [He [H1 H2]]]. exists e. split; [assumption|]. apply andb_true_iff. split.
    + destruct indexer_typed; [|reflexivity]. apply bt_eqb_eq. apply H1. reflexivity.
    + apply N.eqb_eq. assumption.
Qed.

Definition olist {A} (o : option (list A)) : list A := match o with Some l => l | None => [] end.

(* the ids a packer holds, the stage nearest to the indexer first: in this order flushing,
   writing and advancing leave the list as it is, sending appends to it and indexing takes
   a prefix off *)
Definition ids (p : packer) : list id :=
  olist (wip p) ++ concat (wq p) ++ cur p ++ map fst (inflight p).

(* What `step` does to the packer p of the event's type: the ids it takes in, the pack
   it writes to the backend, the pack it hands to the indexer, the packer afterwards.
   `has` is Indexer::has at that moment.  The five stages of Adv are three moves, the item
   addressed being given by the split of the in-flight list around it (`at_split`); of the
   conditions under which an item advances only that of the last filter (stage 3) is kept:
   it bounds the window in which a second copy of an indexed id can still be packed (C07). *)
Inductive pstep (has : id -> bool) (p : packer) :
    list id -> option (list id) -> option (list id) -> packer -> Prop :=
| ps_send i : pstep has p [i] None None (with_inflight p (inflight p ++ [(i, 0)]))
| ps_drop l1 i stg l2 : inflight p = l1 ++ (i, stg) :: l2 -> has i = true \/ mem i (cur p) = true ->
    pstep has p [] None None (with_inflight p (l1 ++ l2))
| ps_adv l1 i stg l2 : inflight p = l1 ++ (i, stg) :: l2 -> stg <= 3 -> (stg = 3 -> has i = false) ->
    pstep has p [] None None (with_inflight p (l1 ++ (i, S stg) :: l2))
| ps_add l1 i stg l2 : inflight p = l1 ++ (i, stg) :: l2 -> 4 <= stg ->
    pstep has p [] None None
      {| inflight := l1 ++ l2; cur := if mem i (cur p) then cur p else cur p ++ [i];
         wq := wq p; wip := wip p |}
| ps_flush c cs : cur p = c :: cs ->
    pstep has p [] None None {| inflight := inflight p; cur := []; wq := wq p ++ [c :: cs]; wip := wip p |}
| ps_write pk rest : wip p = None -> wq p = pk :: rest ->
    pstep has p [] (Some pk) None {| inflight := inflight p; cur := cur p; wq := rest; wip := Some pk |}
| ps_index pk : wip p = Some pk ->
    pstep has p [] None (Some pk) {| inflight := inflight p; cur := cur p; wq := wq p; wip := None |}.

(* ... and to the state around it *)
Definition upd (s : st) (t : bt) (q : packer) (snt : list id) (wr ix : option (list id)) : st :=
  let s1 := set s t q in
  {| pd := pd s1; pt := pt s1;
     written := match wr with Some pk => written s1 ++ [(t, pk)] | None => written s1 end;
     idx := match ix with Some pk => idx s1 ++ [(t, pk)] | None => idx s1 end;
     indexed := map (pair t) (olist ix) ++ indexed s1;
     requested := map (pair t) snt ++ requested s1 |}.

Lemma upd_tau s t q : set s t q = upd s t q [] None None.
Proof. destruct t; reflexivity. Qed.

Lemma requested_upd s t q snt wr ix : requested (upd s t q snt wr ix) = map (pair t) snt ++ requested s.
Proof. destruct t; reflexivity. Qed.

Lemma get_upd s t q snt wr ix t' :
  get (upd s t q snt wr ix) t' = if bt_eqb t' t then q else get s t'.
Proof. destruct t, t'; reflexivity. Qed.

Lemma ix_in_upd s t q snt wr ix t' i : ix_in s t' i -> ix_in (upd s t q snt wr ix) t' i.
Proof. intros [e [He H]]. exists e. split; [|exact H]. apply in_or_app. right. destruct t; exact He. Qed.

Definition ev_bt (e : ev) : bt := match e with Send t _ | Adv t _ | Flush t | WriteP t | IndexP t => t end.
Definition ev_sent (e : ev) : list id := match e with Send _ i => [i] | _ => [] end.

Lemma step_pstep s e s' : step s e = Some s' ->
  exists q wr ix, pstep (ix_has s (ev_bt e)) (get s (ev_bt e)) (ev_sent e) wr ix q /\
                  s' = upd s (ev_bt e) q (ev_sent e) wr ix.
Proof.
  destruct e as [t i|t n|t|t|t]; cbn [step ev_bt ev_sent]; intro St.
  - injection St as <-. eexists _, _, _. split; [apply ps_send | reflexivity].
  - destruct (nth_error (inflight (get s t)) n) as [[i stg]|] eqn:Nth; [|discriminate].
    destruct (at_split _ _ _ Nth) as (l1 & l2 & E & Er & Ep). rewrite Er, Ep in St.
    destruct stg as [|[|[|[|stg]]]];
      [destruct (ix_has s t i) eqn:X | destruct (mem i (cur (get s t))) eqn:X | |
       destruct (ix_has s t i) eqn:X | ];
      injection St as <-; eexists _, _, _; (split; [|apply upd_tau]).
    (* in this order: drop, advance, drop, advance, advance, drop, advance, add *)
    1, 6: exact (ps_drop _ _ _ _ _ _ E (or_introl X)).
    2: exact (ps_drop _ _ _ _ _ _ E (or_intror X)).
    1, 2, 3: apply (ps_adv _ _ _ _ _ _ E); [repeat constructor | discriminate].
    1: exact (ps_adv _ _ _ _ _ _ E (le_n 3) (fun _ => X)).
    apply (ps_add _ _ _ _ _ _ E). lia.
  - destruct (cur (get s t)) as [|c cs] eqn:C; [discriminate|].
    destruct (length (wq (get s t)) <? wq_cap); [|discriminate]. injection St as <-.
    eexists _, _, _. split; [|apply upd_tau]. apply ps_flush, C.
  - destruct (wip (get s t)) eqn:W; [discriminate|].
    destruct (wq (get s t)) as [|pk rest] eqn:Q; [discriminate|]. injection St as <-.
    eexists _, (Some pk), None. split; [apply ps_write; eassumption | reflexivity].
  - destruct (wip (get s t)) as [pk|] eqn:W; [|discriminate]. injection St as <-.
    eexists _, None, (Some pk). split; [apply ps_index, W | reflexivity].
Qed.

(* As multisets: what the packer held and took in is what it holds now, what went to the
   indexer, and what it dropped; an id is dropped only when the indexer has it or the
   packer goes on holding a copy (in `pstep`: in its current pack).  The pack in the
   writer's hand: only WriteP puts one there, only IndexP takes it away. *)
Record flow (has : id -> bool) (p : packer) (snt : list id) (wr ix : option (list id)) (q : packer) : Prop := {
  fl_packs : forall pk, ix = Some pk \/ wip q = Some pk <-> wip p = Some pk \/ wr = Some pk;
  fl_ids : exists dr, Permutation (ids p ++ snt) (olist ix ++ dr ++ ids q) /\
                      forall j, In j dr -> has j = true \/ In j (ids q)
}.

Lemma flow_back has p snt wr ix q : flow has p snt wr ix q ->
  forall j, In j (olist ix) \/ In j (ids q) -> In j (ids p) \/ In j snt.
Proof.
  intros [_ (dr & P & _)] j H. apply in_app_or, (Permutation_in _ (Permutation_sym P)), in_or_app.
  destruct H as [H|H]; [left; exact H | right; apply in_or_app; right; exact H].
Qed.

Lemma flow_fwd has p snt wr ix q : flow has p snt wr ix q ->
  forall j, In j (ids p) \/ In j snt -> In j (olist ix) \/ In j (ids q) \/ has j = true.
Proof.
  intros [_ (dr & P & D)] j H. apply in_or_app, (Permutation_in _ P), in_app_or in H.
  destruct H as [H|H]; [left; exact H|]. apply in_app_or in H. right.
  destruct H as [H|H]; [destruct (D j H) as [K|K]; [right | left]; exact K | left; exact H].
Qed.

Lemma cur_ids p j : In j (cur p) -> In j (ids p).
Proof. intro H. unfold ids. do 2 (apply in_or_app; right). apply in_or_app. left. exact H. Qed.

Lemma pstep_flow has p snt wr ix q : pstep has p snt wr ix q -> flow has p snt wr ix q.
Proof.
  assert (Same : forall snt wr ix q,
    (forall pk, ix = Some pk \/ wip q = Some pk <-> wip p = Some pk \/ wr = Some pk) ->
    ids p ++ snt = olist ix ++ ids q -> flow has p snt wr ix q).
  { intros snt' wr' ix' q' H E. split; [exact H|]. exists []. rewrite E. split; [reflexivity | intros j []]. }
  intros [i | l1 i stg l2 E D | l1 i stg l2 E _ _ | l1 i stg l2 E _ | c cs C | pk rest W Q | pk W].
  - apply Same; [intro; apply or_comm|]. unfold ids. cbn. rewrite map_app, !app_assoc. reflexivity.
  - (* dropped: the id is in the indexer or stays behind in the current pack *)
    split; [intro; apply or_comm|]. exists [i]. split.
    + unfold ids. cbn. rewrite E, !map_app, app_nil_r, !app_assoc. symmetry. apply Permutation_middle.
    + intros j [<-|[]]. destruct D as [D|D]; [left; exact D | right; apply cur_ids, mem_In, D].
  - apply Same; [intro; apply or_comm|]. unfold ids. cbn. rewrite E, !map_app, app_nil_r. reflexivity.
  - (* added to the current pack, unless it is there already *)
    split; [intro; apply or_comm|]. destruct (mem i (cur p)) eqn:M.
    + exists [i]. split.
      * unfold ids. cbn. rewrite E, !map_app, app_nil_r, !app_assoc. symmetry. apply Permutation_middle.
      * intros j [<-|[]]. right. apply cur_ids, mem_In, M.
    + exists []. split; [|intros j []]. unfold ids. cbn. rewrite E, !map_app, app_nil_r.
      do 2 apply Permutation_app_head. rewrite <- app_assoc. apply Permutation_app_head.
      cbn. symmetry. apply Permutation_middle.
  - apply Same; [intro; apply or_comm|]. unfold ids. cbn. rewrite C, concat_app. cbn. rewrite !app_nil_r, <- app_assoc. reflexivity.
  - apply Same; unfold ids; cbn; [intro; rewrite W; reflexivity|].
    rewrite W, Q. cbn. rewrite app_nil_r, <- app_assoc. reflexivity.
  - apply Same; unfold ids; cbn; [intro; rewrite W; reflexivity|]. rewrite W, app_nil_r. reflexivity.
Qed.

Record Inv (s : st) : Prop := {
  inv_req : forall t i, In (t, i) (requested s) -> ix_in s t i \/ In i (ids (get s t));
  inv_written : forall t pk, In (t, pk) (written s) <-> In (t, pk) (idx s) \/ wip (get s t) = Some pk;
  inv_indexed : forall t i, In (t, i) (indexed s) <-> exists pk, In (t, pk) (idx s) /\ In i pk;
  inv_origin : forall t i, In (t, i) (indexed s) \/ In i (ids (get s t)) -> In (t, i) (requested s)
}.

Lemma inv_origin_i s : Inv s -> forall t pk i, In (t, pk) (idx s) -> In i pk -> In (t, i) (requested s).
Proof. intros I t pk i H1 H2. apply (inv_origin s I). left. apply (inv_indexed s I). exists pk. split; assumption. Qed.

Lemma inv_init : Inv init.
Proof.
  constructor; intros t x; cbn.
  - intros [].
  - split; [intros [] | intros [[]|H]; destruct t; discriminate].
  - split; [intros [] | intros (pk & [] & _)].
  - intros [[]|H]. destruct t; destruct H.
Qed.

(* membership in the lists `upd` extends, by the type asked for: another type sees no change *)
Lemma in_tagged_app {A} (t t0 : bt) (x : A) l L :
  In (t0, x) (map (pair t) l ++ L) <-> if bt_eqb t0 t then In x l \/ In (t0, x) L else In (t0, x) L.
Proof.
  rewrite in_app_iff, in_map_iff. destruct (bt_eqb t0 t) eqn:E.
  - apply bt_eqb_eq in E. subst t0. split; (intros [H|H]; [left|right; exact H]).
    + destruct H as (y & [= <-] & H). exact H.
    + exists x. split; [reflexivity | exact H].
  - split; [|right; assumption]. intros [(y & [= <- <-] & _)|H]; [destruct t; discriminate | exact H].
Qed.

Lemma in_snoc_pack (l : list (bt * list id)) t o t0 pk :
  In (t0, pk) (match o with Some x => l ++ [(t, x)] | None => l end) <->
  if bt_eqb t0 t then In (t0, pk) l \/ o = Some pk else In (t0, pk) l.
Proof.
  destruct o as [x|].
  - rewrite in_app_iff. destruct (bt_eqb t0 t) eqn:E.
    + apply bt_eqb_eq in E. subst t0. cbn. intuition congruence.
    + split; [|left; assumption]. intros [H|[[= <- <-]|[]]]; [exact H | destruct t; discriminate].
  - destruct (bt_eqb t0 t); [|reflexivity]. intuition discriminate.
Qed.

Lemma upd_inv s t q snt wr ix :
  Inv s -> flow (ix_has s t) (get s t) snt wr ix q -> Inv (upd s t q snt wr ix).
Proof.
  intros I F.
  destruct (set_fields s t q) as (Fw & Fi & Fx & Fr).
  constructor; intros t0 x; rewrite ?get_upd; cbn [upd requested written idx indexed];
    [rewrite Fr, in_tagged_app | rewrite Fw, Fi, !in_snoc_pack |
     rewrite Fx, Fi, in_tagged_app; setoid_rewrite in_snoc_pack |
     rewrite Fx, Fr, !in_tagged_app];
    (destruct (bt_eqb t0 t) eqn:E; [apply bt_eqb_eq in E; subst t0 | ]).
  - (* an id of type t flows on as F says; the indexed set only grows *)
    assert (Fwd : In x (ids (get s t)) \/ In x snt -> ix_in (upd s t q snt wr ix) t x \/ In x (ids q)).
    { intro K. destruct (flow_fwd _ _ _ _ _ _ F x K) as [H|[H|H]].
      - left. exists (t, x). repeat split. apply in_or_app. left. apply in_map, H.
      - right. exact H.
      - left. apply ix_in_upd, ix_has_iff, H. }
    intros [H|H]; [apply Fwd; right; exact H|].
    destruct (inv_req s I _ _ H) as [K|K]; [left; apply ix_in_upd, K | apply Fwd; left; exact K].
  - intro H. destruct (inv_req s I _ _ H) as [K|K]; [left; apply ix_in_upd, K | right; exact K].
  - rewrite (inv_written s I), !or_assoc, <- (fl_packs _ _ _ _ _ _ F x). reflexivity.
  - apply (inv_written s I).
  - rewrite (inv_indexed s I). split.
    + intros [H|(pk & H1 & H2)].
      * destruct ix as [pk|]; [|destruct H]. exists pk. split; [right; reflexivity | exact H].
      * exists pk. split; [left; exact H1 | exact H2].
    + intros (pk & [H1| ->] & H2); [right; exists pk; split; assumption | left; exact H2].
  - apply (inv_indexed s I).
  - assert (Back : In x (olist ix) \/ In x (ids q) -> In x snt \/ In (t, x) (requested s)).
    { intro K. destruct (flow_back _ _ _ _ _ _ F x K) as [H|H]; [|left; exact H].
      right. apply (inv_origin s I). right. exact H. }
    intros [[H|H]|H]; [apply Back; left; exact H | | apply Back; right; exact H].
    right. apply (inv_origin s I). left. exact H.
  - apply (inv_origin s I).
Qed.

Lemma step_inv s e s' : Inv s -> step s e = Some s' -> Inv s'.
Proof.
  intros I St. destruct (step_pstep s e s' St) as (q & wr & ix & P & ->).
  apply upd_inv; [exact I | apply pstep_flow; exact P].
Qed.

Lemma run_invariant (P : st -> Prop) :
  (forall s e s', P s -> step s e = Some s' -> P s') ->
  forall es s s', P s -> run s es = Some s' -> P s'.
Proof.
  intro Hs. induction es as [|e es IH]; intros s s' I R; cbn [run] in R.
  - injection R as <-. exact I.
  - destruct (step s e) as [s1|] eqn:St; [|discriminate]. eapply IH; [|exact R]. eapply Hs; eassumption.
Qed.

Lemma reach_inv es s : run init es = Some s -> Inv s.
Proof. apply (run_invariant Inv step_inv), inv_init. Qed.
