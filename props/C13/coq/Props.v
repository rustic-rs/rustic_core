(* C13 — property theorems about the packer pipeline, for EVERY interleaving of the
   producers, the pipeline stages of both packers, pack flushes and the two writer
   threads (a superset of the schedules the real thread pools can produce); from
   `tree_walker_never_stuck` on, about the parallel tree walker. *)
From Verif.Base Require Import Tactics Lists.
From Verif.C13 Require Import Extracted Model Proofs Proofs2 Walker ProofsW ProofsW2.
Local Open Scope nat_scope.

(* Every id handed to a packer can be found by the indexer at the end of every complete
   run ... *)
Theorem every_final_state_indexes_all : forall es s,
  run init es = Some s -> final s = true ->
  forall t i, In (t, i) (requested s) -> ix_has s t i = true.
Proof. intros es s R F t i H. apply ix_has_iff, (final_req_indexed s (reach_inv es s R) F t i H). Qed.
Print Assumptions every_final_state_indexes_all.

(* ... and lies in an indexed pack of its own type, provided the indexer distinguishes
   blob types (read from the source) or no id was requested under both types. *)
Theorem every_final_state_indexes_all_typed : forall es s,
  run init es = Some s -> final s = true ->
  (indexer_typed = true \/ no_cross s) ->
  forall t i, In (t, i) (requested s) -> exists pk, In (t, pk) (idx s) /\ In i pk.
Proof. exact final_typed_lookup_lemma. Qed.
Print Assumptions every_final_state_indexes_all_typed.

(* With an untyped indexer the typed statement is false: a complete run in which a tree
   blob is dropped because a data blob with the same id is already indexed. *)
Theorem typed_lookup_refuted_when_untyped :
  indexer_typed = false ->
  exists s, run init collision_run = Some s /\ final s = true /\ In (Tree, 7%N) (requested s) /\
            forall pk, In (Tree, pk) (idx s) -> ~ In 7%N pk.
Proof.
  (* Extracted.v is regenerated from the source: typed, the hypothesis is absurd; untyped, the run is the witness *)
  intro H. unfold indexer_typed in H.
  first [ discriminate H
        | eexists; split; [vm_compute; reflexivity|]; split; [reflexivity|]; split; [cbn; tauto|];
          cbn; intros pk [E|[]]; discriminate ].
Qed.
Print Assumptions typed_lookup_refuted_when_untyped.

(* No blob of a written pack file is unreferenced by the index: at the end ... *)
Theorem no_written_pack_unindexed : forall es s,
  run init es = Some s -> final s = true ->
  forall t pk, In (t, pk) (written s) -> In (t, pk) (idx s).
Proof.
  intros es s R F t pk H. destruct (proj1 (inv_written s (reach_inv es s R) t pk) H) as [K|K]; [exact K|].
  destruct (quiet_inv _ (final_quiet s t F)) as (_ & _ & _ & W). congruence.
Qed.
Print Assumptions no_written_pack_unindexed.

(* ... and at every moment of every run, except for the single pack the writer thread is
   just handing to the indexer. *)
Theorem written_indexed_or_in_hand : forall es s,
  run init es = Some s -> forall t pk, In (t, pk) (written s) -> In (t, pk) (idx s) \/ wip (get s t) = Some pk.
Proof. intros es s R t pk. apply (inv_written s (reach_inv es s R)). Qed.
Print Assumptions written_indexed_or_in_hand.

(* The requests and their answerability do not depend on the schedule. *)
Theorem referenced_set_schedule_free : forall es1 es2 s1 s2,
  sends es1 = sends es2 ->
  run init es1 = Some s1 -> final s1 = true ->
  run init es2 = Some s2 -> final s2 = true ->
  requested s1 = requested s2 /\
  forall t i, In (t, i) (requested s1) -> ix_has s1 t i = true /\ ix_has s2 t i = true.
Proof.
  intros es1 es2 s1 s2 E R1 F1 R2 F2.
  assert (Q : requested s1 = requested s2).
  { rewrite (reach_requested _ _ R1), (reach_requested _ _ R2), E. reflexivity. }
  split; [exact Q|]. intros t i H. split; eapply every_final_state_indexes_all; eauto.
  rewrite <- Q. exact H.
Qed.
Print Assumptions referenced_set_schedule_free.

(* The model's writer thread writes a pack file (WriteP) before it adds the pack to the indexer
   (IndexP); this is the order of FileWriterHandle::process / ::index in the source. *)
Theorem source_writes_pack_before_indexing : writer_writes_before_index = true.
Proof. reflexivity. Qed.
Print Assumptions source_writes_pack_before_indexing.

(* Hence every pack the indexer holds has been written to the backend, at every moment of every
   run. *)
Theorem indexed_pack_is_written : forall es s,
  run init es = Some s -> forall t pk, In (t, pk) (idx s) -> In (t, pk) (written s).
Proof. intros es s R t pk H. apply (inv_written s (reach_inv es s R)). left. exact H. Qed.
Print Assumptions indexed_pack_is_written.

(* No deadlock: in every state that is not final some internal event is enabled (the
   writer queue has positive capacity in the source) ... *)
Theorem linear_pipeline_progress : forall s,
  0 < wq_cap -> final s = false -> enabled_internal s <> [].
Proof. exact progress_lemma. Qed.
Print Assumptions linear_pipeline_progress.

Theorem writer_queue_has_capacity : 0 < wq_cap.
Proof. unfold wq_cap. lia. Qed.
Print Assumptions writer_queue_has_capacity.

Theorem enabled_internal_sound : forall s e,
  In e (enabled_internal s) -> is_send e = false /\ exists s', step s e = Some s'.
Proof. exact enabled_internal_sound_lemma. Qed.
Print Assumptions enabled_internal_sound.

(* ... and every internal event strictly decreases a natural-number measure, so once the
   producers stop sending, every schedule reaches a final state after at most
   `measure s` steps. *)
Theorem internal_step_decreases : forall s e s',
  is_send e = false -> step s e = Some s' -> measure s' < measure s.
Proof.
  intros s e s' NS St. destruct (step_pstep s e s' St) as (q & wr & ix & P & ->).
  apply pstep_measure in P; [|destruct e; [discriminate|reflexivity..]].
  pose proof (measure_upd s (ev_bt e) q (ev_sent e) wr ix). lia.
Qed.
Print Assumptions internal_step_decreases.

(* The parallel tree walker (blob/tree.rs TreeStreamerOnce: prune, check, copy).  No deadlock:
   with the channel capacities and the number of loader threads found in the source (queue_in
   unbounded), in every reachable state of the walker - for every tree graph, every set of
   roots and every interleaving of the consumer and the loader threads - either the walk is
   complete or some thread can take a step. *)
Theorem tree_walker_never_stuck : forall ch roots s,
  wreach ch wcfg_src roots s -> wstuck ch wcfg_src s = false.
Proof. intros ch roots s. apply walker_never_stuck_gen; [reflexivity | vm_compute; lia | vm_compute; lia]. Qed.
Print Assumptions tree_walker_never_stuck.

(* ... for any number of loaders >= 1 and any result-queue capacity >= 1, as long as the
   pending queue is unbounded. *)
Theorem walker_never_stuck_any_capacities : forall ch c roots s,
  in_cap c = None -> 1 <= out_cap c -> 1 <= loaders c ->
  wreach ch c roots s -> wstuck ch c s = false.
Proof. exact walker_never_stuck_gen. Qed.
Print Assumptions walker_never_stuck_any_capacities.

(* A bounded pending queue can deadlock (the consumer is its only producer and the only
   consumer of the result queue): a reachable, non-final state in which no thread can move. *)
Theorem walker_bounded_in_queue_refuted :
  exists ch c roots s, in_cap c <> None /\ wreach ch c roots s /\ wstuck ch c s = true.
Proof.
  exists ex_children, ex_cfg, [0%N], (wrun ex_children ex_cfg (winit ex_cfg [0%N]) ex_sched).
  split; [discriminate|]. split; [apply wrun_reach; constructor | vm_compute; reflexivity].
Qed.
Print Assumptions walker_bounded_in_queue_refuted.

(* Termination: over every finite tree graph (U closed under children, roots in U) every step
   of every thread strictly decreases a natural-number measure; together with
   tree_walker_never_stuck every schedule ends, after at most `wmeasure U ch (winit ..)`
   steps, in a final state. *)
Theorem walker_step_decreases : forall U ch c roots s e s',
  NoDup U -> incl roots U -> (forall x, In x U -> incl (ch x) U) ->
  wreach ch c roots s -> wstep ch c s e = Some s' ->
  wmeasure U ch s' < wmeasure U ch s.
Proof.
  intros U ch c roots s e s' Hnd Hr Hcl Hreach. apply wstep_decreases; [exact Hnd|].
  exact (winv_reach U ch c roots s Hr Hcl Hreach).
Qed.
Print Assumptions walker_step_decreases.

(* Each tree is handed to the caller at most once, only after it was registered as visited, and
   a delivered tree is never queued again - in every reachable state of every interleaving. *)
Theorem walker_delivers_once : forall ch c roots s,
  wreach ch c roots s ->
  NoDup (delivered s) /\ incl (delivered s) (visited s) /\
  (forall x, In x (delivered s) -> ~ In x (q_in s) /\ ~ In x (q_out s)).
Proof.
  intros ch c roots s Hr. destruct (once_inv_reach ch c roots s Hr) as (_ & Hf & Hi). unfold flight in *.
  apply NoDup_app_iff in Hf as (_ & Hf1 & D1). apply NoDup_app_iff in Hf1 as (_ & Hf2 & _).
  apply NoDup_app_iff in Hf2 as (_ & Hf3 & D3).
  split; [exact Hf3|]. split.
  - intros x Hx. apply Hi. do 3 (apply in_or_app; right). exact Hx.
  - intros x Hx. split; intro Hq; [apply (D1 x Hq); do 2 (apply in_or_app; right) | apply (D3 x Hq)]; exact Hx.
Qed.
Print Assumptions walker_delivers_once.
