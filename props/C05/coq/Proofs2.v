(* C05 — proofs, part 2: without duplicate index keys restore's index can only answer as check's;
   "correctly" includes "completely". *)
From Verif.Base Require Import Tactics.
From Verif.C05 Require Import Model Proofs.
Local Open Scope N_scope.

Lemma fold_right_ext_in {A C} (f g : A -> C -> C) (a : C) (l : list A) :
  (forall x acc, In x l -> f x acc = g x acc) -> fold_right f a l = fold_right g a l.
Proof.
  induction l as [|x l IH]; intro H; simpl; [reflexivity|].
  rewrite IH by (intros; apply H; right; assumption). apply H. left. reflexivity.
Qed.

Lemma forallb_ext_all {A} (f g : A -> bool) l : (forall x, f x = g x) -> forallb f l = forallb g l.
Proof. intro H. induction l as [|x l IH]; simpl; [reflexivity|]. rewrite H, IH. reflexivity. Qed.

Lemma existsb_false_filter {A} (f : A -> bool) l : existsb f l = false -> filter f l = [].
Proof.
  induction l as [|x l IH]; simpl; intro H; [reflexivity|].
  apply orb_false_iff in H. destruct H as [Hx Hl]. rewrite Hx. auto.
Qed.

Section Proofs2.
  Variable B : Type.
  Variable hash : B -> id.
  Variable blen : B -> N.
  Variable parse : B -> option tree.
  Variable st : state B.

  Notation lookup := (lookup B st).
  Notation entries := (entries B st).
  Notation fetch := (fetch B blen st).
  Notation correct := (correct B hash blen parse st).
  Notation readable := (readable B blen parse st).
  Notation check := (check B hash blen parse st).

  Lemma nodup_filter t i : forall l, nodup_keys_aux l = true ->
    forall e r, filter (key_match t i) l = e :: r -> r = [].
  Proof.
    induction l as [|x l IH]; cbn [nodup_keys_aux filter]; intros H e r; [discriminate|].
    apply andb_true_iff in H. destruct H as [H1 H2].
    destruct (key_match t i x) eqn:Ek; [|apply IH, H2]. intros [= _ <-].
    apply key_match_true in Ek as [<- <-]. apply existsb_false_filter, negb_true_iff, H1.
  Qed.

  Lemma nodup_sel sel : nodup_keys B st = true -> sel_valid B st sel ->
    forall t i, sel t i = lookup t i.
  Proof.
    intros Hn Hv t i. specialize (Hv t i). rewrite rcandidates_eq in Hv.
    unfold nodup_keys in Hn. rewrite rentries_eq in Hn.
    unfold Model.lookup, candidates in *.
    destruct (sel t i) as [[p b]|]; [|rewrite Hv; reflexivity].
    destruct (filter _ entries) as [|e r] eqn:E; [contradiction|].
    rewrite (nodup_filter t i _ Hn _ _ E) in Hv. destruct Hv as [->|[]]. reflexivity.
  Qed.

  Theorem check_clean_implies_restorable_nodup fuel sel :
    check fuel = Some [] ->
    nodup_keys B st = true -> sel_valid B st sel ->
    forall r, In r (st_roots st) -> correct sel true fuel r = Some true.
  Proof.
    intros Hc Hn Hv. apply check_clean_implies_restorable_gen; [exact Hv| |exact Hc].
    intros i d d' H1 H2 _ _. unfold Model.fetch in *. rewrite (nodup_sel sel Hn Hv) in H2. congruence.
  Qed.

  Lemma correct_ext sel sel' : (forall t i, sel t i = sel' t i) ->
    forall fuel strict i, correct sel strict fuel i = correct sel' strict fuel i.
  Proof.
    intro H. induction fuel as [|f IH]; intros strict i; [reflexivity|].
    cbn [Model.correct]. unfold Model.fetch. rewrite H.
    destruct (sel' BTree i) as [[p b]|]; [|reflexivity].
    destruct (read_blob B blen st p b) as [d|]; [|reflexivity].
    destruct (parse d) as [t|]; [|reflexivity].
    apply fold_right_ext_in. intros n acc _. destruct acc as [ok|]; [|reflexivity].
    destruct n as [[c|]|[s|]|]; try reflexivity.
    - do 2 f_equal. apply forallb_ext_all. intro ci. rewrite H. reflexivity.
    - rewrite IH. reflexivity.
  Qed.

  Lemma correct_readable sel : forall fuel strict i,
    correct sel strict fuel i = Some true -> readable sel fuel i = Some true.
  Proof.
    induction fuel as [|f IH]; intros strict i; [discriminate|].
    cbn [Model.correct Model.readable].
    destruct (fetch sel BTree i) as [d|]; [|discriminate].
    destruct (parse d) as [t|]; [|discriminate].
    generalize (negb strict || (hash d =? i)). induction t as [|n t IHt]; intros b0 H; [reflexivity|].
    cbn [fold_right] in *. destruct (fold_right _ (Some b0) t) as [ok|] eqn:Ef; [|discriminate].
    destruct n as [[c|]|[s|]|]; try discriminate.
    - injection H as H. apply andb_true_iff in H. destruct H as [-> Hc]. rewrite (IHt _ Ef).
      cbn [andb]. f_equal. apply forallb_forall. intros ci Hci.
      rewrite forallb_forall in Hc. specialize (Hc ci Hci).
      destruct (fetch sel BData ci); [reflexivity|discriminate].
    - destruct (correct sel true f s) as [o|] eqn:Ec; [|discriminate].
      injection H as H. apply andb_true_iff in H. destruct H as [-> ->].
      rewrite (IHt _ Ef), (IH _ _ Ec). reflexivity.
    - injection H as ->. rewrite (IHt _ Ef). reflexivity.
  Qed.

End Proofs2.
