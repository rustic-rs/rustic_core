(* C05 — concrete states: the hypotheses of the theorems are satisfiable (a clean two-level
   repository), check does report damage, and the states that passed the check without being
   restorable before the fixes of the findings (all by vm_compute). Contents are numbers, hash = identity. *)
From Verif.Base Require Import Tactics.
From Verif.C05 Require Import Model.
From Verif.C05 Require Proofs.
Local Open Scope N_scope.

Definition xhash (b : N) : id := b.
Definition xblen (_ : N) : N := 10.
(* tree 1 = { dir -> 2, file [3] }, tree 2 = { file [3;4] }, tree 5 = { file [4] } *)
Definition xparse (b : N) : option tree :=
  if b =? 1 then Some [NDir (Some 2); NFile (Some [3])]
  else if b =? 2 then Some [NFile (Some [3; 4]); NOther]
  else if b =? 5 then Some [NFile (Some [4])]
  else None.

Definition b_root := mk_iblob BTree 1 0 30 (Some 10).
Definition b_sub  := mk_iblob BTree 2 0 40 (Some 10).
Definition b_d3   := mk_iblob BData 3 0 50 None.
Definition b_d4   := mk_iblob BData 4 50 60 (Some 10).

(* pack 100: only the root tree; pack 101: the subtree; pack 102: the two chunks *)
Definition pk100 (content : N) : spack N :=
  mk_spack 100 107 100 73 [mk_seg 0 30 (PBlob 997 (Some content)); mk_seg 30 73 (PHeader [b_root])].
Definition pk101 : spack N :=
  mk_spack 101 117 101 73 [mk_seg 0 40 (PBlob 998 (Some 2)); mk_seg 40 73 (PHeader [b_sub])].
Definition pk102 (d4_ok : bool) : spack N :=
  mk_spack 102 224 102 110
    ([mk_seg 0 50 (PBlob 3 None)] ++ (if d4_ok then [mk_seg 50 60 (PBlob 999 (Some 4))] else []) ++
     [mk_seg 110 110 (PHeader [b_d3; b_d4])]).
Definition ix : ifile :=
  mk_ifile [mk_ipack 100 [b_root] (Some 107) false; mk_ipack 101 [b_sub] (Some 117) false;
            mk_ipack 102 [b_d4; b_d3] None false] [].

Definition st_clean : state N := mk_state true true true [pk100 1; pk101; pk102 true] [ix] [1].
Definition st_blob_damaged : state N := mk_state true true true [pk100 1; pk101; pk102 false] [ix] [1].
(* the root-only pack now holds (authentic) tree 5 at the place the index gives for tree 1 *)
Definition st_root_replaced : state N := mk_state true true true [pk100 5; pk101; pk102 true] [ix] [1].
(* chunk 3 is stored twice (packs 102 and 103); the copy in 103 does not decrypt *)
Definition pk103 : spack N :=
  mk_spack 103 123 103 69 [mk_seg 50 69 (PHeader [b_d3])].
Definition ix_dup : ifile :=
  mk_ifile (if_packs ix ++ [mk_ipack 103 [b_d3] (Some 123) false]) [].
Definition st_dup : state N := mk_state true true true [pk100 1; pk101; pk102 true; pk103] [ix_dup] [1].
Definition sel_last (t : btype) (i : id) : option (id * iblob) :=
  match rev (rcandidates N st_dup t i) with [] => None | e :: _ => Some (snd (fst e), snd e) end.

(* after a non-instant prune with repacking: the old pack is only MARKED (packs_to_delete); if the
   entry of the repacked pack is lost, the marked copy must not make check clean, because restore's
   index does not contain marked packs *)
Definition ix_marked_only : ifile :=
  mk_ifile [mk_ipack 100 [b_root] (Some 107) false; mk_ipack 101 [b_sub] (Some 117) false]
           [mk_ipack 102 [b_d4; b_d3] None true].
Definition st_marked_only : state N := mk_state true true true [pk100 1; pk101; pk102 true] [ix_marked_only] [1].
(* an index file that lists nothing the snapshots need is unreadable *)
Definition st_index_unreadable : state N := mk_state true false true [pk100 1; pk101; pk102 true] [ix] [1].

Notation xcheck := (check N xhash xblen xparse).
Notation xcorrect := (correct N xhash xblen xparse).

Example clean_checks_clean : xcheck st_clean 5 = Some [] /\ nodup_keys N st_clean = true.
Proof. vm_compute. split; reflexivity. Qed.
Example clean_restores : xcorrect st_clean (lookup N st_clean) true 5 1 = Some true.
Proof. vm_compute. reflexivity. Qed.
Example clean_fetches :
  fetched N xblen xparse st_clean 5 1 = Some [(BTree, 2); (BData, 3); (BData, 4); (BData, 3)].
Proof. vm_compute. reflexivity. Qed.
Example clean_walk_collects : check_trees N xblen xparse st_clean 5 = Some ([], [100; 101; 102; 102; 102]).
Proof. vm_compute. reflexivity. Qed.
Example damaged_is_reported : xcheck st_blob_damaged 5 = Some [EBlobDecrypt].
Proof. vm_compute. reflexivity. Qed.
Example damaged_does_not_restore :
  readable N xblen xparse st_blob_damaged (lookup N st_blob_damaged) 5 1 = Some false.
Proof. vm_compute. reflexivity. Qed.

Example marked_copy_does_not_count :
  xcheck st_marked_only 5 = Some [EFileBlobNotInIndex; EFileBlobNotInIndex; EFileBlobNotInIndex] /\
  readable N xblen xparse st_marked_only (rlookup N st_marked_only) 5 1 = Some false.
Proof. vm_compute. split; reflexivity. Qed.
Example unreadable_index_is_reported :
  xcheck st_index_unreadable 5 = Some [EMeta] /\ restore_opens N st_index_unreadable = false.
Proof. vm_compute. split; reflexivity. Qed.

(* root trees: their pack is in the read set (since the fix), so an authentic tree of the same
   layout put in the root's place is reported by check_pack; the walk itself still does not compare
   the hash: with the tree walk alone (no read_data) the replacement goes through *)
Example root_replaced_is_reported :
  xcheck st_root_replaced 5 = Some [EBlobHash] /\
  check_trees N xblen xparse st_root_replaced 5 = Some ([], [100; 102]) /\
  xcorrect st_root_replaced (lookup N st_root_replaced) true 5 1 = Some false.
Proof. vm_compute. repeat split; reflexivity. Qed.

(* duplicate keys: restore may be answered with the copy check's own index does not answer with;
   since the fix read_data reads every pack holding a copy, so the damaged copy is reported
   (before the fix the check of this state was clean) *)
Example duplicate_witness :
  xcheck st_dup 5 = Some [EBlobDecrypt] /\ nodup_keys N st_dup = false /\
  (forall t i, match sel_last t i with
               | Some (p, b) => In (t, p, b) (rcandidates N st_dup t i)
               | None => rcandidates N st_dup t i = [] end) /\
  readable N xblen xparse st_dup sel_last 5 1 = Some false.
Proof.
  split; [vm_compute; reflexivity|]. split; [vm_compute; reflexivity|]. split; [|vm_compute; reflexivity].
  intros t i. unfold sel_last.
  destruct (rev (rcandidates N st_dup t i)) as [|[[t' p] b] r] eqn:E.
  - apply (f_equal (@rev _)) in E. rewrite rev_involutive in E. exact E.
  - assert (H : In (t', p, b) (rcandidates N st_dup t i)) by (apply in_rev; rewrite E; left; reflexivity).
    destruct (Proofs.candidates_in N st_dup t i t' p b H) as (_ & -> & _). exact H.
Qed.

(* the packs check_trees collects do not contain pack 103 (check's index answers with 102 for chunk 3);
   it is read because it holds a copy of a blob of the collected pack 102 *)
Example duplicate_copy_pack_is_read :
  check_trees N xblen xparse st_dup 5 = Some ([], [100; 101; 102; 102; 102]) /\
  map ip_id (read_list N st_dup [100; 101; 102; 102; 102]) = [100; 101; 102; 103].
Proof. vm_compute. split; reflexivity. Qed.

(* read-data-subset: a partial read that is clean says nothing about restorability ... *)
Example partial_subset_clean_not_restorable :
  check_subset N xhash xblen xparse st_blob_damaged (SIdSubSet 1 3) (fun l => l) 5 = Some [] /\
  xcheck st_blob_damaged 5 = Some [EBlobDecrypt] /\
  readable N xblen xparse st_blob_damaged (lookup N st_blob_damaged) 5 1 = Some false.
Proof.
  split; [vm_compute; reflexivity|]. split; [exact damaged_is_reported|exact damaged_does_not_restore].
Qed.
(* ... while 100 % and a size covering everything read every pack, in any order *)
Example full_subsets_report :
  check_subset N xhash xblen xparse st_blob_damaged (SPercentage 100) (@rev _) 5 = Some [EBlobDecrypt] /\
  check_subset N xhash xblen xparse st_blob_damaged (SSize 448) (@rev _) 5 = Some [EBlobDecrypt] /\
  check_subset N xhash xblen xparse st_blob_damaged (SIdSubSet 3 3) (fun l => l) 5 = Some [EBlobDecrypt].
Proof. vm_compute. repeat split; reflexivity. Qed.

(* fuel: the walk needs one unit per tree level; more never changes the result *)
Example fuel_levels : xcheck st_clean 1 = None /\ xcheck st_clean 2 = Some [] /\ xcheck st_clean 9 = Some [].
Proof. vm_compute. repeat split; reflexivity. Qed.
