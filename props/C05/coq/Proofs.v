(* C05 — proofs: a clean full check implies that everything restore fetches is readable and
   hashes to the id it is fetched for (root trees included, since their packs are in the read set).

   check_pack finding nothing in a pack verifies every blob the index lists for it
   ([pack_verified]); a clean check has read every pack holding a copy of a blob of a pack the tree
   walk collected ([check_clean_verified]); a clean walk of a tree says, node by node, that what
   restore will fetch is indexed in a collected pack ([covered], [walk_covered]).  [tree_correct] puts
   the three together by induction on the depth; [tree_covers] lists the keys restore asks for. *)
From Verif.Base Require Import Tactics Lists.
From Verif.C05 Require Import Model.
Local Open Scope N_scope.

(* "no finding" is an equation [... ++ ... = []] over lists built from [if c then [] else [e]]:
   [app_eq_nil] and this take it apart *)
Lemma if_nil {E} (c : bool) (e : E) : (if c then [] else [e]) = [] -> c = true.
Proof. destruct c; [reflexivity|discriminate]. Qed.

Lemma app_nil_inv {A} (l m : list A) : l ++ m = [] -> l = [] /\ m = [].
Proof. apply app_eq_nil. Qed.

Lemma btype_eqb_eq a b : btype_eqb a b = true <-> a = b.
Proof. destruct a, b; simpl; split; intro H; try reflexivity; try discriminate. Qed.

Lemma key_match_true t i e : key_match t i e = true -> fst (fst e) = t /\ ib_id (snd e) = i.
Proof.
  unfold key_match. intro H. apply andb_true_iff in H as [Ht Hi].
  apply btype_eqb_eq in Ht. apply N.eqb_eq in Hi. auto.
Qed.

Lemma key_eqb_refl k : key_eqb k k = true.
Proof. destruct k as [[|] i]; unfold key_eqb; simpl; apply N.eqb_refl. Qed.

Lemma mem_id_In x l : mem_id x l = true <-> In x l.
Proof. exact (existsb_Neqb_In x l). Qed.

Lemma insert_perm b l : Permutation (insert_blob b l) (b :: l).
Proof.
  induction l as [|x r IH]; simpl; [apply Permutation_refl|].
  destruct (loc_leb b x); [apply Permutation_refl|].
  eapply Permutation_trans; [apply perm_skip, IH|apply perm_swap].
Qed.

Lemma sort_perm l : Permutation (sort_blobs l) l.
Proof.
  induction l as [|b l IH]; simpl; [apply Permutation_refl|].
  eapply Permutation_trans; [apply insert_perm|apply perm_skip, IH].
Qed.

Lemma retype_same t b : ib_type b = t -> retype t b = b.
Proof. destruct b; simpl; intros <-; reflexivity. Qed.

Lemma offsets_clean pt off b l :
  offsets_errs pt off (b :: l) = [] ->
  ib_type b = pt /\ ib_off b = off /\ offsets_errs pt (off + ib_len b) l = [].
Proof.
  cbn [offsets_errs]. intro H. apply app_eq_nil in H as [Ht H]. apply app_eq_nil in H as [Ho H].
  apply if_nil, btype_eqb_eq in Ht. apply if_nil, N.eqb_eq in Ho. auto.
Qed.

Lemma offsets_types pt l : forall off, offsets_errs pt off l = [] -> forall b, In b l -> ib_type b = pt.
Proof.
  induction l as [|x l IH]; intros off H b Hb; [contradiction|].
  apply offsets_clean in H. destruct H as (Ht & _ & H). destruct Hb as [<-|Hb]; eauto.
Qed.

Section Proofs.
  Variable B : Type.
  Variable hash : B -> id.
  Variable blen : B -> N.
  Variable parse : B -> option tree.
  Variable st : state B.

  Notation read_blob := (read_blob B blen st).
  Notation read_seg := (read_seg B).
  Notation blob_errs := (blob_errs B hash blen).
  Notation check_pack := (check_pack B hash blen st).
  Notation sel_valid := (sel_valid B st).
  Notation file_errs := (file_errs B st).
  Notation lookup := (lookup B st).
  Notation entries := (entries B st).
  Notation candidates := (candidates B st).
  Notation load_tree := (load_tree B blen parse st).
  Notation fetch := (fetch B blen st).
  Notation walk := (walk B blen parse st).
  Notation check_trees := (check_trees B blen parse st).
  Notation check := (check B hash blen parse st).
  Notation correct := (correct B hash blen parse st).

  (* Three facts regenerated from the source: check's own index is fed with the `packs` sections
     only (check.rs), so is restore's (index.rs), and check is handed the root of every snapshot
     (repository.rs).  The proofs below rewrite with these equations where they need the facts. *)
  Lemma index_packs_eq : index_packs B st = flat_map if_packs (st_index st).
  Proof. reflexivity. Qed.

  Lemma rentries_eq : rentries B st = entries.
  Proof. reflexivity. Qed.

  Lemma checked_roots_eq : checked_roots B st = st_roots st.
  Proof. reflexivity. Qed.

  Lemma rcandidates_eq t i : rcandidates B st t i = candidates t i.
  Proof. unfold rcandidates, Model.candidates. rewrite rentries_eq. reflexivity. Qed.

  Lemma blob_clean sp off b l :
    blob_errs sp off (b :: l) = [] ->
    exists pl d, read_seg sp off (ib_len b) = Some pl /\ decode B blen pl (ib_ulen b) = Some d /\
                 hash d = ib_id b /\ blob_errs sp (off + ib_len b) l = [].
  Proof.
    cbn [blob_errs]. destruct (read_seg sp off (ib_len b)) as [[raw unz|hs]|]; try discriminate.
    destruct (ib_ulen b) as [n|]; [destruct unz as [d|]; [|discriminate]|]; intro H.
    - apply app_eq_nil in H as [Hl H]. apply app_eq_nil in H as [Hh Hr].
      apply if_nil in Hl. apply if_nil, N.eqb_eq in Hh.
      exists (PBlob raw (Some d)), d. cbn [decode]. rewrite Hl. auto.
    - apply app_eq_nil in H as [Hh Hr]. apply if_nil, N.eqb_eq in Hh.
      exists (PBlob raw unz), raw. auto.
  Qed.

  (* the blob loop of check_pack reads at the running offset; that is every blob's indexed offset
     when the offsets of the index are contiguous *)
  Lemma blob_loop_ok sp pt l : forall off,
    offsets_errs pt off l = [] -> blob_errs sp off l = [] ->
    forall b, In b l ->
      exists pl d, read_seg sp (ib_off b) (ib_len b) = Some pl /\
                   decode B blen pl (ib_ulen b) = Some d /\ hash d = ib_id b.
  Proof.
    induction l as [|x l IH]; intros off Ho Hb b Hin; [contradiction|].
    apply offsets_clean in Ho. destruct Ho as (_ & <- & Ho).
    apply blob_clean in Hb. destruct Hb as (pl & d & Hr & Hd & Hh & Hb).
    destruct Hin as [<-|Hin]; [exists pl, d; auto|eapply IH; eauto].
  Qed.

  Lemma check_pack_clean p :
    check_pack p = [] ->
    exists sp, find_pack B st (ip_id p) = Some sp /\
               blob_errs sp 0 (sort_blobs (rebuilt_blobs p)) = [].
  Proof.
    unfold check_pack. destruct (find_pack B st (ip_id p)) as [sp|]; [|discriminate].
    repeat (destruct (negb _); [discriminate|]).
    destruct (read_seg sp _ _) as [[|hs]|]; try discriminate.
    destruct (list_eqb iblob_eqb hs _); [eauto|discriminate].
  Qed.

  Lemma pack_verified p del :
    index_pack_errs (p, del) = [] -> check_pack p = [] ->
    forall b, In b (ip_blobs p) -> exists d, read_blob (ip_id p) b = Some d /\ hash d = ib_id b.
  Proof.
    intros Hi Hc b Hb. apply app_eq_nil in Hi as [_ Hi].
    apply check_pack_clean in Hc. destruct Hc as (sp & Hf & Hc).
    assert (Hs : forall x, In x (ip_blobs p) -> In x (sort_blobs (ip_blobs p)))
      by (intro x; apply Permutation_in, Permutation_sym, sort_perm).
    (* all blobs have the pack's type, so rebuilding the pack from the index changes nothing *)
    replace (rebuilt_blobs p) with (ip_blobs p) in Hc.
    - destruct (blob_loop_ok sp _ _ 0 Hi Hc b (Hs b Hb)) as (pl & d & H1 & H2 & H3).
      exists d. unfold Model.read_blob. rewrite Hf, H1. auto.
    - symmetry. transitivity (map (fun x => x) (ip_blobs p)); [|apply map_id].
      apply map_ext_in. intros x Hx. apply retype_same. eapply offsets_types; eauto.
  Qed.

  Lemma candidates_in t i t' p b :
    In (t', p, b) (candidates t i) -> In (t', p, b) entries /\ t' = t /\ ib_id b = i.
  Proof.
    unfold Model.candidates. intro H. apply filter_In in H as [Hin Hk].
    apply key_match_true in Hk. auto.
  Qed.

  Lemma lookup_candidate t i p b : lookup t i = Some (p, b) -> In (t, p, b) (candidates t i).
  Proof.
    unfold Model.lookup. destruct (candidates t i) as [|[[t' p'] b'] r] eqn:E; [discriminate|].
    intros [= <- <-].
    assert (H : In (t', p', b') (candidates t i)) by (rewrite E; left; reflexivity).
    apply candidates_in in H. destruct H as (_ & -> & _). left. reflexivity.
  Qed.

  Lemma lookup_valid : sel_valid lookup.
  Proof.
    intros t i. rewrite rcandidates_eq. destruct (lookup t i) as [[p b]|] eqn:E.
    - apply lookup_candidate, E.
    - unfold Model.lookup in E. destruct (candidates t i); [reflexivity|discriminate].
  Qed.

  Lemma entries_in t pid b : In (t, pid, b) entries ->
    exists p, In p (index_packs B st) /\ ip_id p = pid /\ In b (ip_blobs p) /\ t = ptype p.
  Proof.
    unfold Model.entries. rewrite in_flat_map. intros (p & Hp & He).
    apply in_map_iff in He. destruct He as (b' & [= <- <- <-] & Hb). eauto.
  Qed.

  Lemma index_packs_all p : In p (index_packs B st) -> In (p, false) (all_packs B st).
  Proof.
    rewrite index_packs_eq. unfold all_packs. rewrite !in_flat_map. intros (f & Hf & Hp).
    exists f. split; [assumption|]. apply in_or_app. left. apply in_map_iff. eauto.
  Qed.

  (* of every COPY, in whatever pack of the index: restore's index may answer with any of them
     ([fetch_answered]) *)
  Definition copies_verified (pid : id) : Prop :=
    forall t b, In (t, pid, b) entries ->
      forall p' b', In (t, p', b') entries -> ib_id b' = ib_id b ->
        exists d, read_blob p' b' = Some d /\ hash d = ib_id b'.

  (* uses the fact x_reads_all_copies regenerated from check.rs *)
  Lemma copies_are_read used p q b b' :
    In p (index_packs B st) -> mem_id (ip_id p) used = true -> In b (ip_blobs p) ->
    In b' (ip_blobs q) -> ptype q = ptype p -> ib_id b' = ib_id b ->
    is_read B st used q = true.
  Proof.
    intros Hp Hm Hb Hb' Ht Hi. unfold is_read. apply orb_true_iff. right.
    change Extracted.x_reads_all_copies with true. simpl.
    apply existsb_exists. exists (ptype q, ib_id b'). split.
    - unfold pack_keys. apply in_map_iff. exists b'. auto.
    - apply existsb_exists. exists (ptype p, ib_id b). split.
      + unfold used_keys. apply in_flat_map. exists p. split; [assumption|]. rewrite Hm.
        unfold pack_keys. apply in_map_iff. exists b. auto.
      + rewrite Ht, Hi. apply key_eqb_refl.
  Qed.

  Lemma check_with_clean sub fuel :
    check_with B hash blen parse st sub fuel = Some [] <->
    st_meta_ok st = true /\ st_index_ok st = true /\ st_snap_names_ok st = true /\ check_packs B st = [] /\
    exists used, check_trees fuel = Some ([], used) /\
                 forall p, In p (sub (read_list B st used)) -> check_pack p = [].
  Proof.
    split.
    - unfold check_with. destruct (st_meta_ok st); [|discriminate].
      (* an unreadable index file aborts the check: fact x_unreadable_index_aborts_check, from check.rs *)
      destruct (st_index_ok st); [|change Extracted.x_unreadable_index_aborts_check with true; discriminate].
      cbn [negb andb].
      destruct (check_trees fuel) as [[et used]|]; [|discriminate].
      intros [= H]. apply app_eq_nil in H as [Hn H]. apply app_eq_nil in H as [Hp H].
      apply app_eq_nil in H as [-> Hc]. apply if_nil in Hn. rewrite flat_map_nil_iff in Hc.
      repeat split; [exact Hn|exact Hp|]. exists used. split; [reflexivity|exact Hc].
    - intros (Hm & Hi & Hn & Hp & used & Ht & Hc). apply flat_map_nil_iff in Hc.
      unfold check_with. rewrite Hm, Hi, Ht, Hn, Hp, Hc. reflexivity.
  Qed.

  Lemma check_clean_verified fuel :
    check fuel = Some [] ->
    exists used, check_trees fuel = Some ([], used) /\ forall pid, In pid used -> copies_verified pid.
  Proof.
    intro H. apply check_with_clean in H. destruct H as (_ & _ & _ & Hcp & used & Ht & Hpk).
    exists used. split; [exact Ht|].
    apply app_eq_nil in Hcp as [Hix Hcp]. apply app_eq_nil in Hcp as [_ Hmiss].
    apply map_eq_nil in Hmiss. rewrite flat_map_nil_iff in Hix.
    intros pid Hused t b Hin p' b' Hin' Hid'.
    apply entries_in in Hin, Hin'.
    destruct Hin as (p & Hp & <- & Hb & ->), Hin' as (q & Hq & <- & Hbq & Htq).
    eapply pack_verified; [apply Hix, index_packs_all, Hq|apply Hpk|exact Hbq].
    apply filter_In. split; [exact Hq|]. rewrite Hmiss.
    apply (copies_are_read used p q b b'); auto. apply mem_id_In, Hused.
  Qed.

  Definition answers (ps : list id) (t : btype) (i : id) : Prop :=
    exists p b, lookup t i = Some (p, b) /\ In p ps.

  Lemma answers_incl ps ps' t i : incl ps ps' -> answers ps t i -> answers ps' t i.
  Proof. intros Hi (p & b & Hl & Hp). exists p, b. auto. Qed.

  (* findings and packs of the parts of a whole; no result as soon as one part has none.  The walk
     of the snapshot roots is literally such a fold ([walk_roots_collect]), the walk of the nodes of
     one tree is one up to the bracketing of [++] ([walk_S]). *)
  Definition join (acc r : option (list err * list id)) : option (list err * list id) :=
    match acc, r with
    | Some (es, ps), Some (e1, p1) => Some (e1 ++ es, p1 ++ ps)
    | _, _ => None
    end.
  Definition collect {A} (g : A -> option (list err * list id)) (l : list A) : option (list err * list id) :=
    fold_right (fun a acc => join acc (g a)) (Some ([], [])) l.

  Lemma collect_cons {A} (g : A -> _) x l : collect g (x :: l) = join (collect g l) (g x).
  Proof. reflexivity. Qed.

  Lemma collect_clean {A} (g : A -> _) l : forall ps, collect g l = Some ([], ps) ->
    forall a, In a l -> exists p, g a = Some ([], p) /\ incl p ps.
  Proof.
    induction l as [|x l IH]; intros ps H a Ha; [contradiction|]. rewrite collect_cons in H.
    destruct (collect g l) as [[es ps']|]; [|discriminate].
    destruct (g x) as [[e1 p1]|] eqn:Ex; [|discriminate].
    cbn [join] in H. injection H as H <-. apply app_eq_nil in H as [-> ->].
    destruct Ha as [<-|Ha].
    - exists p1. split; [exact Ex|apply incl_appl, incl_refl].
    - destruct (IH ps' eq_refl a Ha) as (p & Hp & Hi). exists p. split; [exact Hp|apply incl_appr, Hi].
  Qed.

  Lemma collect_mono {A} (g g' : A -> _) l : forall r,
    (forall a ra, g a = Some ra -> g' a = Some ra) -> collect g l = Some r -> collect g' l = Some r.
  Proof.
    induction l as [|x l IH]; intros r Hg H; [exact H|]. rewrite collect_cons in *.
    destruct (collect g l) as [[es ps]|]; [|discriminate].
    destruct (g x) as [[e1 p1]|] eqn:Ex; [|discriminate].
    rewrite (IH _ Hg eq_refl), (Hg x _ Ex). exact H.
  Qed.

  Lemma join_total acc r : acc <> None -> r <> None -> join acc r <> None.
  Proof. destruct acc as [[es ps]|], r as [[e1 p1]|]; intros Ha Hr; [discriminate|exact Hr|exact Ha|exact Ha]. Qed.

  Lemma collect_total {A} (g : A -> _) l : (forall a, In a l -> g a <> None) -> collect g l <> None.
  Proof.
    induction l as [|x l IH]; intro Hg; [discriminate|]. rewrite collect_cons.
    apply join_total; [apply IH; intros a Ha; apply Hg; right; exact Ha|apply Hg; left; reflexivity].
  Qed.

  (* what the walk makes of one node, given the results [w] for the subtrees *)
  Definition dir_res (s : id) : list err * list id :=
    if s =? 0 then ([ENullSubTree], [])
    else match lookup BTree s with
         | None => ([ESubTreeNotInIndex], [])
         | Some (p, _) => ([], [p]) end.
  Definition node_res (w : id -> option (list err * list id)) (n : node) : option (list err * list id) :=
    match n with
    | NOther => Some ([], [])
    | NFile None => Some ([EFileNoContent], [])
    | NFile (Some c) => Some (file_errs c)
    | NDir None => Some ([ENoSubTree], [])
    | NDir (Some s) => join (w s) (Some (dir_res s))
    end.

  Lemma walk_S f i :
    walk (S f) i = match load_tree i with
                   | None => Some ([ETreeLoad], [])
                   | Some t => collect (node_res (walk f)) t
                   end.
  Proof.
    cbn [Model.walk]. destruct (load_tree i) as [t|]; [|reflexivity].
    induction t as [|n t IH]; [reflexivity|]. cbn [fold_right]. rewrite IH, collect_cons. clear IH.
    destruct (collect _ t) as [[es ps]|]; [|reflexivity].
    destruct n as [[c|]|[s|]|]; cbn [node_res join]; try reflexivity.
    unfold dir_res. destruct (if s =? 0 then _ else _) as [e1 p1].
    destruct (walk f s) as [[e2 p2]|]; [|reflexivity]. cbn [join]. rewrite !app_assoc. reflexivity.
  Qed.

  Lemma walk_roots_collect fuel : walk_roots B blen parse st fuel = collect (walk fuel) (st_roots st).
  Proof. unfold walk_roots. rewrite checked_roots_eq. reflexivity. Qed.

  Lemma file_errs_clean c : forall ps, file_errs c = ([], ps) -> forall ci, In ci c -> answers ps BData ci.
  Proof.
    induction c as [|x c IH]; intros ps H ci Hci; [contradiction|].
    simpl in H. destruct (file_errs c) as [es ps'].
    destruct (lookup BData x) as [[p b]|] eqn:El; injection H as H <-;
      apply app_eq_nil in H as [_ H]; [subst es|discriminate].
    destruct Hci as [<-|Hci]; [exists p, b; split; [exact El|left; reflexivity]|].
    apply (answers_incl ps'); [apply incl_tl, incl_refl|]. apply IH; auto.
  Qed.

  (* Everything restore will ask for below tree [i], down to depth [f], is answered by check's index
     with a pack of [vs]; files have content and directories a subtree.  This is all the later proofs
     know of a clean walk ([walk_covered]); the statements about restore are over it and not over
     [walk]. *)
  Definition node_covered (vs : list id) (T : id -> Prop) (n : node) : Prop :=
    match n with
    | NOther => True
    | NFile (Some c) => forall ci, In ci c -> answers vs BData ci
    | NDir (Some s) => answers vs BTree s /\ T s
    | _ => False
    end.
  Fixpoint covered (vs : list id) (f : nat) (i : id) : Prop :=
    match f with
    | O => False
    | S f => exists t, load_tree i = Some t /\ Forall (node_covered vs (covered vs f)) t
    end.

  Lemma walk_covered vs : forall f i ps, walk f i = Some ([], ps) -> incl ps vs -> covered vs f i.
  Proof.
    induction f as [|f IH]; intros i ps H Hv; [discriminate|]. rewrite walk_S in H. cbn [covered].
    destruct (load_tree i) as [t|]; [|discriminate]. exists t. split; [reflexivity|].
    apply Forall_forall. intros n Hn. destruct (collect_clean _ _ _ H n Hn) as (p & Hp & Hi).
    assert (Hpv : incl p vs) by (intros x Hx; apply Hv, Hi, Hx). clear H Hi Hn.
    destruct n as [[c|]|[s|]|]; cbn [node_res node_covered] in *; try discriminate; [| |exact I].
    - injection Hp as Hp. intros ci Hci. apply (answers_incl p), (file_errs_clean c p Hp ci Hci). exact Hpv.
    - destruct (walk f s) as [[e2 p2]|] eqn:Ew; [|discriminate]. unfold dir_res in Hp.
      destruct (s =? 0); [discriminate|]. destruct (lookup BTree s) as [[q b]|] eqn:El; [|discriminate].
      injection Hp as -> <-. split.
      + exists q, b. split; [exact El|apply Hpv; left; reflexivity].
      + apply (IH s p2 Ew). intros x Hx. apply Hpv. right. exact Hx.
  Qed.

  Lemma root_packs_in r p b : In r (st_roots st) -> lookup BTree r = Some (p, b) -> In p (root_packs B st).
  Proof.
    intros Hr Hl. unfold root_packs. rewrite checked_roots_eq. apply in_flat_map.
    exists r. split; [exact Hr|]. rewrite Hl. left. reflexivity.
  Qed.

  Lemma check_trees_roots fuel used :
    check_trees fuel = Some ([], used) ->
    forall r, In r (st_roots st) -> answers used BTree r /\ covered used fuel r.
  Proof.
    unfold Model.check_trees. rewrite walk_roots_collect.
    destruct (collect _ _) as [[es ps]|] eqn:E; [|discriminate].
    intros [= -> <-] r Hr. destruct (collect_clean _ _ _ E r Hr) as (p2 & Hw & Hi).
    split; [|apply (walk_covered _ _ _ p2 Hw), incl_appr, Hi].
    (* the root is in the index, or its walk would have reported ETreeLoad; its pack is collected *)
    destruct fuel as [|f]; [discriminate|]. rewrite walk_S in Hw. unfold Model.load_tree in Hw.
    destruct (lookup BTree r) as [[p b]|] eqn:El; [|discriminate].
    exists p, b. split; [exact El|]. apply in_or_app. left. exact (root_packs_in r p b Hr El).
  Qed.

  Lemma tree_covers vs : forall fuel i, covered vs fuel i ->
    exists ks, fetched B blen parse st fuel i = Some ks /\ forall t k, In (t, k) ks -> answers vs t k.
  Proof.
    induction fuel as [|f IH]; intros i Hc; [contradiction|]. destruct Hc as (t & Hl & Hn).
    cbn [Model.fetched]. rewrite Hl. clear Hl.
    induction Hn as [|n t Hn _ (ks & Hk & Hc)]; [exists []; split; [reflexivity|intros ? ? []]|].
    cbn [fold_right]. rewrite Hk.
    destruct n as [[c|]|[s|]|]; cbn [node_covered] in Hn; try contradiction; [| |eauto].
    - eexists. split; [reflexivity|]. intros ty k Hin.
      apply in_app_or in Hin. destruct Hin as [Hin|Hin]; [|auto].
      apply in_map_iff in Hin. destruct Hin as (ci & [= <- <-] & Hci). auto.
    - destruct (IH s (proj2 Hn)) as (k2 & -> & Hc2). eexists. split; [reflexivity|].
      intros ty k [[= <- <-]|Hin]; [apply Hn|]. apply in_app_or in Hin. destruct Hin; auto.
  Qed.

  Lemma fetch_answered sel ps t i :
    sel_valid sel -> (forall p, In p ps -> copies_verified p) -> answers ps t i ->
    exists d, fetch sel t i = Some d /\ hash d = i.
  Proof.
    intros Hs Hv (p & b & Hl & Hp). apply lookup_candidate in Hl.
    specialize (Hs t i). rewrite rcandidates_eq in Hs. unfold Model.fetch.
    destruct (sel t i) as [[p' b']|]; [|rewrite Hs in Hl; contradiction].
    apply candidates_in in Hl, Hs. destruct Hl as (Hin & _ & Hid), Hs as (Hin' & _ & Hid').
    destruct (Hv p Hp t b Hin p' b' Hin') as (d & Hr & Hh); [congruence|].
    exists d. split; [assumption|congruence].
  Qed.

  Lemma load_tree_fetch i :
    load_tree i = match fetch lookup BTree i with Some d => parse d | None => None end.
  Proof. unfold Model.load_tree, Model.fetch. destruct (lookup BTree i) as [[p b]|]; reflexivity. Qed.

  (* two contents fetched for one tree id that both hash to it are the same content: trivial when
     restore's index answers as check's, collision-freedom of the hash in general *)
  Definition trees_agree (sel : selector) : Prop :=
    forall i d d', fetch lookup BTree i = Some d -> fetch sel BTree i = Some d' ->
                   hash d = i -> hash d' = i -> d' = d.

  Lemma tree_correct sel vs : sel_valid sel -> trees_agree sel -> (forall p, In p vs -> copies_verified p) ->
    forall fuel i, answers vs BTree i -> covered vs fuel i -> correct sel true fuel i = Some true.
  Proof.
    intros Hsel Hd Hv. induction fuel as [|f IH]; intros i Ha Hc; [contradiction|].
    destruct Hc as (t & Hl & Hn).
    destruct (fetch_answered sel vs BTree i Hsel Hv Ha) as (d' & Hf' & Hh').
    destruct (fetch_answered lookup vs BTree i lookup_valid Hv Ha) as (d & Hf & Hh).
    assert (d' = d) by (eapply Hd; eauto). subst d'.
    rewrite load_tree_fetch, Hf in Hl. apply N.eqb_eq in Hh.
    cbn [Model.correct]. rewrite Hf', Hl, Hh. clear Hl. cbn [negb orb].
    induction Hn as [|n t Hn _ IHt]; [reflexivity|]. cbn [fold_right]. rewrite IHt.
    destruct n as [[c|]|[s|]|]; cbn [node_covered] in Hn; try contradiction; [| |reflexivity].
    - f_equal. apply forallb_forall. intros ci Hci.
      destruct (fetch_answered sel vs BData ci Hsel Hv (Hn ci Hci)) as (dd & -> & Hhh).
      apply N.eqb_eq, Hhh.
    - rewrite (IH s (proj1 Hn) (proj2 Hn)). reflexivity.
  Qed.

  Theorem check_clean_implies_restorable_gen fuel sel : sel_valid sel -> trees_agree sel ->
    check fuel = Some [] ->
    forall r, In r (st_roots st) -> correct sel true fuel r = Some true.
  Proof.
    intros Hsel Hd Hc r Hr. destruct (check_clean_verified fuel Hc) as (used & Ht & Hv).
    destruct (check_trees_roots fuel used Ht r Hr) as [Ha Hk]. exact (tree_correct sel used Hsel Hd Hv fuel r Ha Hk).
  Qed.

End Proofs.
