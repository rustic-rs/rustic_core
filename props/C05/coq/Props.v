(* C05 — property theorems.  Each is universally quantified over the content type, the hash, the
   length function and the tree parser (ideal AEAD / zstd are built into the shape of [state], see
   Model.v), and over EVERY repository state: no premise relates the state to a history, so the
   statements cover every state reachable by any history of backup/forget/prune followed by any damage. *)
From Verif.Base Require Import Tactics.
From Coq Require Import Relations.
From Verif.C05 Require Import Extracted Model Proofs Proofs2 Proofs3 Examples.
Local Open Scope N_scope.

(* Soundness.  If the full check (read_data) reports no error then for every snapshot root:
   every tree below it is found in the index, decrypts, decodes with the recorded length and
   parses; every file has a content list; every chunk is found, decrypts, decodes, and hashes to
   the chunk id; every tree, the snapshot's root tree included, hashes to the id it is referenced
   by ([correct ... true]: strict about roots).  [sel] is the answer of the index restore builds
   for itself: it may choose ANY copy of a key that is stored in several packs — read_data reads
   every pack holding a copy of a blob of a collected pack, so every copy is verified; that two
   authentic copies of a tree are the same tree is collision-freedom of the hash. *)
Theorem check_clean_implies_restorable :
  forall (B : Type) (hash : B -> id) (blen : B -> N) (parse : B -> option tree)
         (st : state B) (fuel : nat) (sel : selector),
    (forall b b', hash b = hash b' -> b = b') ->
    check B hash blen parse st fuel = Some [] ->
    sel_valid B st sel ->
    forall r, In r (st_roots st) -> correct B hash blen parse st sel true fuel r = Some true.
Proof.
  intros B hash blen parse st fuel sel Hinj Hc Hv.
  apply check_clean_implies_restorable_gen; [exact Hv| |exact Hc].
  intros i d d' _ _ H1 H2. apply Hinj. congruence.
Qed.
Print Assumptions check_clean_implies_restorable.

(* Without duplicate keys the statement needs no hypothesis on the hash at all. *)
Theorem check_clean_implies_restorable_nodup :
  forall (B : Type) (hash : B -> id) (blen : B -> N) (parse : B -> option tree)
         (st : state B) (fuel : nat) (sel : selector),
    check B hash blen parse st fuel = Some [] ->
    nodup_keys B st = true -> sel_valid B st sel ->
    forall r, In r (st_roots st) -> correct B hash blen parse st sel true fuel r = Some true.
Proof. exact Proofs2.check_clean_implies_restorable_nodup. Qed.
Print Assumptions check_clean_implies_restorable_nodup.

(* The same without the premise on duplicates when restore's index answers as check's did. *)
Theorem check_clean_implies_restorable_same_index :
  forall (B : Type) (hash : B -> id) (blen : B -> N) (parse : B -> option tree)
         (st : state B) (fuel : nat),
    check B hash blen parse st fuel = Some [] ->
    forall r, In r (st_roots st) ->
      correct B hash blen parse st (lookup B st) true fuel r = Some true.
Proof.
  intros B hash blen parse st fuel. apply check_clean_implies_restorable_gen; [apply lookup_valid|].
  intros i d d' H1 H2 _ _. congruence.
Qed.
Print Assumptions check_clean_implies_restorable_same_index.

(* Completeness in the property's sense = the contrapositive on the damaged state: whenever some
   snapshot no longer restores correctly, the check is not clean: it reports an error, or its own
   walk needs more fuel than restore's did ([None]; check_clean_implies_restorable_total names a
   fuel that suffices). *)
Theorem damage_that_matters_is_reported :
  forall (B : Type) (hash : B -> id) (blen : B -> N) (parse : B -> option tree)
         (st : state B) (fuel : nat) (sel : selector) (r : id),
    (forall b b', hash b = hash b' -> b = b') ->
    sel_valid B st sel -> In r (st_roots st) ->
    correct B hash blen parse st sel true fuel r = Some false ->
    check B hash blen parse st fuel <> Some [].
Proof.
  intros B hash blen parse st fuel sel r Hinj Hv Hr Hc Hk.
  rewrite (check_clean_implies_restorable B hash blen parse st fuel sel Hinj Hk Hv r Hr) in Hc.
  discriminate.
Qed.
Print Assumptions damage_that_matters_is_reported.

(* The set of packs check_trees collects is sufficient: every index key restore fetches — the
   snapshot's root tree and everything below it — is answered with a pack of that set, which
   read_data then reads. *)
Theorem packs_to_read_sufficient :
  forall (B : Type) (blen : B -> N) (parse : B -> option tree) (st : state B) (fuel : nat) used,
    check_trees B blen parse st fuel = Some ([], used) ->
    forall r, In r (st_roots st) ->
      (exists p b, lookup B st BTree r = Some (p, b) /\ In p used) /\
      exists ks, fetched B blen parse st fuel r = Some ks /\
                 forall t k, In (t, k) ks -> exists p b, lookup B st t k = Some (p, b) /\ In p used.
Proof.
  intros B blen parse st fuel used Ht r Hr.
  pose proof (check_trees_roots B blen parse st fuel used Ht r Hr) as Hc.
  split; [exact (proj1 Hc)|exact (tree_covers B blen parse st used fuel r (proj2 Hc))].
Qed.
Print Assumptions packs_to_read_sufficient.

(* ... and a clean check means check_pack found nothing in any of them: every blob the index lists
   in such a pack reads back and hashes to its id. *)
Theorem used_packs_verified :
  forall (B : Type) (hash : B -> id) (blen : B -> N) (parse : B -> option tree) (st : state B) fuel,
    check B hash blen parse st fuel = Some [] ->
    exists used, check_trees B blen parse st fuel = Some ([], used) /\
      forall pid, In pid used ->
        forall t b, In (t, pid, b) (entries B st) ->
          exists d, read_blob B blen st pid b = Some d /\ hash d = ib_id b.
Proof.
  intros B hash blen parse st fuel Hc.
  destruct (check_clean_verified B hash blen parse st fuel Hc) as (used & Ht & Hv).
  exists used. split; [exact Ht|]. intros pid Hp t b Hin. exact (Hv pid Hp t b Hin pid b Hin eq_refl).
Qed.
Print Assumptions used_packs_verified.

(* "Correctly" includes "completely": under the conclusion of the soundness theorem every read
   that restore/dump performs below the snapshot root succeeds. *)
Theorem correct_implies_complete :
  forall (B : Type) (hash : B -> id) (blen : B -> N) (parse : B -> option tree)
         (st : state B) (sel : selector) (fuel : nat) (strict : bool) (i : id),
    correct B hash blen parse st sel strict fuel i = Some true ->
    readable B blen parse st sel fuel i = Some true.
Proof. exact correct_readable. Qed.
Print Assumptions correct_implies_complete.

(* Snapshot files: the abstract state keeps only their root ids and whether every snapshot file is
   named by the hash of its contents; a mismatch (a snapshot file replaced by or swapped with
   another one) is always reported (since the fix `check: verify snapshot file names`). *)
Theorem snapshot_name_mismatch_is_reported :
  forall (B : Type) (hash : B -> id) (blen : B -> N) (parse : B -> option tree) (st : state B) fuel,
    st_snap_names_ok st = false -> check B hash blen parse st fuel <> Some [].
Proof.
  intros B hash blen parse st fuel Hs H. apply check_with_clean in H. destruct H as (_ & _ & Hn & _).
  congruence.
Qed.
Print Assumptions snapshot_name_mismatch_is_reported.

(* With a collision-free hash, "hashes to its id" is "is the content stored under that id". *)
Theorem hash_fixes_content :
  forall (B : Type) (hash : B -> id),
    (forall b b', hash b = hash b' -> b = b') ->
    forall (orig : id -> B) i d, hash (orig i) = i -> hash d = i -> d = orig i.
Proof. intros B hash Hinj orig i d H1 H2. apply Hinj. congruence. Qed.
Print Assumptions hash_fixes_content.

(* The witness state of the finding root-tree-pack-replaced-same-layout — an authentic tree of the
   same layout in the root's place — is reported: the packs of the root trees are in the read set
   (since the fix `check: read the packs of the snapshots' root trees`).  The tree walk alone lets it
   through, since it compares no hash. *)
Theorem root_tree_replacement_is_reported :
  check N xhash xblen xparse st_root_replaced 5 = Some [EBlobHash] /\
  check_trees N xblen xparse st_root_replaced 5 = Some ([], [100; 102]) /\
  correct N xhash xblen xparse st_root_replaced (lookup N st_root_replaced) true 5 1 = Some false.
Proof. exact root_replaced_is_reported. Qed.
Print Assumptions root_tree_replacement_is_reported.

(* Duplicate keys.  When a blob is stored in two packs, check's index answers with one copy and
   restore's own index may answer with the other.  Since the fix `check: read every pack holding a
   copy of a used blob` (before it only the pack of check's own answer was read) every copy is read: *)
Theorem all_copies_verified :
  forall (B : Type) (hash : B -> id) (blen : B -> N) (parse : B -> option tree) (st : state B) fuel,
    check B hash blen parse st fuel = Some [] ->
    exists used, check_trees B blen parse st fuel = Some ([], used) /\
      forall pid, In pid used ->
        forall t b, In (t, pid, b) (entries B st) ->
          forall p' b', In (t, p', b') (entries B st) -> ib_id b' = ib_id b ->
            exists d, read_blob B blen st p' b' = Some d /\ hash d = ib_id b'.
Proof. exact check_clean_verified. Qed.
Print Assumptions all_copies_verified.

(* ... and the state that was the counterexample is reported: the pack with the damaged copy (103)
   is not among the packs the walk collects, but it is read. *)
Theorem duplicate_copy_is_reported :
  check N xhash xblen xparse st_dup 5 = Some [EBlobDecrypt] /\ nodup_keys N st_dup = false /\
  sel_valid N st_dup sel_last /\ readable N xblen xparse st_dup sel_last 5 1 = Some false /\
  check_trees N xblen xparse st_dup 5 = Some ([], [100; 101; 102; 102; 102]) /\
  map ip_id (read_list N st_dup [100; 101; 102; 102; 102]) = [100; 101; 102; 103].
Proof.
  destruct duplicate_witness as (H1 & H2 & H3 & H4), duplicate_copy_pack_is_read as [H5 H6].
  exact (conj H1 (conj H2 (conj H3 (conj H4 (conj H5 H6))))).
Qed.
Print Assumptions duplicate_copy_is_reported.

(* The real walker keeps a `visited` set; the model unfolds the tree graph with fuel.  More fuel
   never changes a result, so "the" verdict is well defined: *)
Theorem check_verdict_fuel_independent :
  forall (B : Type) (hash : B -> id) (blen : B -> N) (parse : B -> option tree) (st : state B) f f' a b,
    (check B hash blen parse st f = Some a -> (f <= f')%nat -> check B hash blen parse st f' = Some a) /\
    (check B hash blen parse st f = Some a -> check B hash blen parse st f' = Some b -> a = b).
Proof.
  intros. split; [intros H Hle; unfold check in *; eapply check_fuel_le; eauto|apply check_verdict_unique].
Qed.
Print Assumptions check_verdict_fuel_independent.

(* Under the no-hash-cycle hypothesis (Proofs3.v), when every tree blob check's index answers with
   hashes to its id, the graph the walk follows has no cycle ... *)
Theorem tree_graph_acyclic :
  forall (B : Type) (hash : B -> id) (blen : B -> N) (parse : B -> option tree) (st : state B) rank,
    no_hash_cycles B hash parse rank -> trees_authentic B hash blen st ->
    forall i, ~ clos_trans id (fun a b => edge B blen parse st a b) i i.
Proof. intros B hash blen parse st rank Hh Ha. eapply ranked_acyclic, authentic_ranked; eauto. Qed.
Print Assumptions tree_graph_acyclic.

(* ... and the fuelled walk ends once the fuel exceeds the rank of the roots: the model's check
   then has a verdict, which by check_verdict_fuel_independent is the verdict for every larger fuel. *)
Theorem walk_fuel_sufficient :
  forall (B : Type) (hash : B -> id) (blen : B -> N) (parse : B -> option tree) (st : state B) rank,
    no_hash_cycles B hash parse rank -> trees_authentic B hash blen st ->
    (forall f i, (rank i < f)%nat -> walk B blen parse st f i <> None) /\
    check B hash blen parse st (S (max_rank rank (st_roots st))) <> None.
Proof.
  intros B hash blen parse st rank Hh Ha.
  pose proof (authentic_ranked B hash blen parse st rank Hh Ha) as Hr. split.
  - apply walk_fuel_sufficient_rank. exact Hr.
  - unfold check. apply (check_terminates_rank B hash blen parse st rank _ Hr).
    intros r Hin. pose proof (max_rank_ge rank _ r Hin). lia.
Qed.
Print Assumptions walk_fuel_sufficient.

(* Hence soundness without a fuel caveat: with f0 = 1 + the largest root rank, check f0 has a
   verdict, every other fuel that ends gives the same verdict, and a clean verdict implies that
   every snapshot restores completely and correctly through any index answer. *)
Theorem check_clean_implies_restorable_total :
  forall (B : Type) (hash : B -> id) (blen : B -> N) (parse : B -> option tree)
         (st : state B) (sel : selector) rank,
    (forall b b', hash b = hash b' -> b = b') ->
    no_hash_cycles B hash parse rank -> trees_authentic B hash blen st -> sel_valid B st sel ->
    let f0 := S (max_rank rank (st_roots st)) in
    check B hash blen parse st f0 <> None /\
    (forall f es, check B hash blen parse st f = Some es -> check B hash blen parse st f0 = Some es) /\
    (check B hash blen parse st f0 = Some [] ->
     forall r, In r (st_roots st) -> correct B hash blen parse st sel true f0 r = Some true).
Proof.
  intros B hash blen parse st sel rank Hinj Hh Ha Hv f0.
  destruct (walk_fuel_sufficient B hash blen parse st rank Hh Ha) as [_ Hne]. fold f0 in Hne.
  split; [exact Hne|]. split.
  - intros f es Hf. destruct (check B hash blen parse st f0) as [a|] eqn:E; [|contradiction].
    f_equal. symmetry. eapply check_verdict_unique; eauto.
  - intro Hc. apply check_clean_implies_restorable; assumption.
Qed.
Print Assumptions check_clean_implies_restorable_total.

(* read_data_subset = All is the full check ([apply_subset] is ReadSubsetOption::apply_with_rng;
   below, its shuffle [sh] is any permutation) *)
Theorem subset_all_reads_everything :
  forall (B : Type) (hash : B -> id) (blen : B -> N) (parse : B -> option tree) (st : state B) sh fuel,
    check_subset B hash blen parse st SAll sh fuel = check B hash blen parse st fuel.
Proof. reflexivity. Qed.
Print Assumptions subset_all_reads_everything.

(* Percentage(100) and Size(s) with s at least the total select every pack (since the fix `a pack
   that exactly fits the remaining size is read`; before it the last pack of the shuffle was
   dropped: strict_budget_dropped_the_exact_fit); a Percentage(100) read is clean iff the full
   check is. *)
Theorem subset_full_budget_reads_everything :
  forall (B : Type) (hash : B -> id) (blen : B -> N) (parse : B -> option tree) (st : state B) sh fuel,
    (forall l, Permutation (sh l) l) ->
    (forall l, apply_subset (SPercentage 100) sh l = sh l) /\
    (forall l sz, packs_total l <= sz -> apply_subset (SSize sz) sh l = sh l) /\
    (check_subset B hash blen parse st (SPercentage 100) sh fuel = Some [] <->
     check B hash blen parse st fuel = Some []).
Proof.
  intros B hash blen parse st sh fuel Hp. split; [|split].
  - intro l. apply percentage_100_selects_all, Hp.
  - intros l sz H. apply size_covering_selects_all; [apply Hp|exact H].
  - unfold check_subset. apply subset_perm_same_verdict. intro l.
    rewrite (percentage_100_selects_all sh l (Hp l)). apply Hp.
Qed.
Print Assumptions subset_full_budget_reads_everything.

Theorem strict_budget_dropped_the_exact_fit :
  forall p, 0 < rsize p -> retain_budget false (packs_total [p]) [p] = [].
Proof.
  intros p _. unfold packs_total. cbn [fold_right retain_budget].
  rewrite N.add_0_r, N.ltb_irrefl. reflexivity.
Qed.
Print Assumptions strict_budget_dropped_the_exact_fit.

(* What a PARTIAL read means: every finding it reports is a finding of the full check (errors are
   real) and a clean full check makes every partial read clean; but a clean partial read says
   nothing about restorability (witness: the damaged pack is simply not selected). *)
Theorem subset_errors_are_real :
  forall (B : Type) (hash : B -> id) (blen : B -> N) (parse : B -> option tree) (st : state B) o sh fuel es,
    (forall l, Permutation (sh l) l) ->
    check_subset B hash blen parse st o sh fuel = Some es ->
    exists es', check B hash blen parse st fuel = Some es' /\ incl es es'.
Proof.
  intros B hash blen parse st o sh fuel es Hp. unfold check_subset. apply check_with_incl.
  intro l. apply apply_subset_incl, Hp.
Qed.
Print Assumptions subset_errors_are_real.

Theorem partial_subset_clean_is_not_restorability :
  check_subset N xhash xblen xparse st_blob_damaged (SIdSubSet 1 3) (fun l => l) 5 = Some [] /\
  check N xhash xblen xparse st_blob_damaged 5 = Some [EBlobDecrypt] /\
  readable N xblen xparse st_blob_damaged (lookup N st_blob_damaged) 5 1 = Some false.
Proof. exact partial_subset_clean_not_restorable. Qed.
Print Assumptions partial_subset_clean_is_not_restorability.

(* A clean check implies that every snapshot and index file is readable, hence that restore can
   build its index at all (GlobalIndex::new aborts on an unreadable index file, whether or not that
   file lists anything the snapshots need). *)
Theorem check_clean_implies_restore_opens :
  forall (B : Type) (hash : B -> id) (blen : B -> N) (parse : B -> option tree) (st : state B) fuel,
    check B hash blen parse st fuel = Some [] ->
    st_meta_ok st = true /\ st_index_ok st = true /\ restore_opens B st = true.
Proof.
  intros B hash blen parse st fuel H. apply check_with_clean in H. destruct H as (Hm & Hi & _).
  split; [exact Hm|split; [exact Hi|]]. unfold restore_opens. rewrite Hi. reflexivity.
Qed.
Print Assumptions check_clean_implies_restore_opens.

(* Check's own lookup index and the index restore builds are fed with the same sections of the
   index files (`packs` only, never `packs_to_delete`; both regenerated from the source).  This is
   what lets the soundness theorem speak about "restore's own index": if check also looked into
   packs that prune has only marked, a blob found there would pass although restore cannot find it. *)
Theorem check_and_restore_index_agree :
  forall (B : Type) (st : state B), rentries B st = entries B st.
Proof. exact rentries_eq. Qed.
Print Assumptions check_and_restore_index_agree.

(* A full read may be performed as the documented cycle IdSubSet((1,m)) .. IdSubSet((m,m)): every
   pack is selected by one of the runs (comparison regenerated from check.rs). *)
Theorem nm_cycle_reads_every_pack :
  forall m pid, 0 < m -> exists n, 1 <= n <= m /\ subset_selects n m pid = true.
Proof.
  intros m pid Hm. assert (Hm0 : m <> 0) by (apply N.neq_0_lt_0, Hm).
  unfold subset_selects, x_subset_reduces_n.
  destruct (N.eq_dec (pid mod m) 0) as [E|E].
  - exists m. rewrite (N.mod_same m Hm0), E. split; [|reflexivity].
    split; [apply (N.le_succ_l 0), Hm|apply N.le_refl].
  - exists (pid mod m). rewrite (N.mod_mod pid m Hm0), N.eqb_refl. split; [|reflexivity].
    split; [apply (N.le_succ_l 0), N.neq_0_lt_0, E|apply N.lt_le_incl, N.mod_upper_bound, Hm0].
Qed.
Print Assumptions nm_cycle_reads_every_pack.

(* The check walks the root tree of EVERY snapshot file of the repository: Repository::check collects
   them with get_all_snapshots (no filter, e.g. not "except snapshots whose delete-after time has
   passed" — those are still in the repository and restorable) and check_repository walks exactly
   the trees it is handed (regenerated from repository.rs / check.rs).  All soundness theorems
   quantify over `In r (st_roots st)`, i.e. over every snapshot. *)
Theorem check_covers_every_snapshot :
  forall (B : Type) (st : state B), checked_roots B st = st_roots st.
Proof. exact checked_roots_eq. Qed.
Print Assumptions check_covers_every_snapshot.

(* The facts regenerated from the current source (Extracted.v) are the ones the model is written
   against: check_trees collects the packs of the root trees, of subtrees and of file chunks (three
   insert sites); read_data reads the indexed packs that are not missing and are in that set;
   snapshot file names are compared with the content hash; check_pack tests size, hash, header
   length, header = index, then per blob (at the running offset, unzip unwrapped) length and hash;
   check_packs tests types and contiguous offsets on the sorted blobs.  A source edit that changes
   one of them breaks this obligation. *)
Theorem source_facts_as_modelled :
  x_pack_insert_sites = 3 /\ x_collects_root_packs = true /\ x_collects_data_packs = true /\
  x_collects_subtree_packs = true /\ x_filter_missing = true /\ x_filter_used = true /\
  x_snapshot_names_compared = true /\ x_check_pack_order = true /\
  x_blob_loop_running_offset = true /\ x_unzip_unwrap = true /\ x_offsets_checked_on_sorted = true /\
  x_check_index_includes_marked = false /\ x_restore_index_includes_marked = false /\
  x_unreadable_index_aborts_check = true /\ x_unreadable_index_aborts_restore = true /\
  x_subset_reduces_n = true /\ x_reads_all_copies = true /\ x_subset_shape = true /\
  x_subset_fits_exactly = true /\
  x_check_covers_all_snapshots = true /\ x_check_with_trees_passes_trees = true /\
  x_given_trees_are_walked = true /\ x_check_reads_all_index_files = true /\
  x_pack_listing_from_backend = true /\ x_trust_cache_only_guards_cache = true /\
  x_read_data_gates_pack_reading = true /\
  x_length_len = 4 /\ x_comp_overhead = 32 /\ x_entry_len = 37 /\ x_entry_len_compressed = 41.
Proof. repeat split; reflexivity. Qed.
Print Assumptions source_facts_as_modelled.

(* Non-vacuity: a two-level repository on which the check is clean and the soundness conclusion
   holds; a damaged one on which the check reports and restore's reads fail; the marked-only and
   unreadable-index states are reported too. *)
Theorem hypotheses_satisfiable :
  check N xhash xblen xparse st_clean 5 = Some [] /\ nodup_keys N st_clean = true /\
  correct N xhash xblen xparse st_clean (lookup N st_clean) true 5 1 = Some true /\
  check N xhash xblen xparse st_blob_damaged 5 = Some [EBlobDecrypt] /\
  readable N xblen xparse st_blob_damaged (lookup N st_blob_damaged) 5 1 = Some false /\
  check N xhash xblen xparse st_marked_only 5 <> Some [] /\
  check N xhash xblen xparse st_index_unreadable 5 = Some [EMeta].
Proof.
  destruct clean_checks_clean as [H1 H2], marked_copy_does_not_count as [H6 _],
    unreadable_index_is_reported as [H7 _].
  refine (conj H1 (conj H2 (conj clean_restores (conj damaged_is_reported
            (conj damaged_does_not_restore (conj _ H7)))))).
  rewrite H6. discriminate.
Qed.
Print Assumptions hypotheses_satisfiable.
