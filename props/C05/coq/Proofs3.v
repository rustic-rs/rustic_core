(* C05 — proofs, part 3: the read-data-subset selection (All / Size / Percentage / IdSubSet) and
   the fuel of the modelled tree walk (monotone; sufficient on acyclic tree graphs; tree graphs of
   authentic trees are acyclic under the no-hash-cycle hypothesis). *)
From Verif.Base Require Import Tactics.
From Coq Require Import Relations.
From Verif.C05 Require Import Extracted Model Proofs.
Local Open Scope N_scope.

Lemma packs_total_cons p l : packs_total (p :: l) = rsize p + packs_total l.
Proof. reflexivity. Qed.

Lemma packs_total_perm l l' : Permutation l l' -> packs_total l = packs_total l'.
Proof. induction 1; rewrite ?packs_total_cons; lia. Qed.

(* a budget that covers everything keeps everything; one unit must be left over when only a pack
   strictly smaller than the remaining budget is kept *)
Lemma retain_all (exact : bool) : forall l size,
  packs_total l + (if exact then 0 else 1) <= size -> retain_budget exact size l = l.
Proof.
  induction l as [|p r IH]; intros size H; [reflexivity|].
  rewrite packs_total_cons in H. cbn [retain_budget].
  replace (if exact then rsize p <=? size else rsize p <? size) with true
    by (symmetry; destruct exact; [apply N.leb_le|apply N.ltb_lt]; lia).
  f_equal. apply IH. lia.
Qed.

Lemma retain_all_exact : forall l size, packs_total l <= size -> retain_budget true size l = l.
Proof. intros l size H. apply retain_all. lia. Qed.
Lemma retain_all_strict : forall l size, packs_total l < size -> retain_budget false size l = l.
Proof. intros l size H. apply retain_all. lia. Qed.

Lemma retain_incl exact : forall l size, incl (retain_budget exact size l) l.
Proof.
  induction l as [|p r IH]; intros size x Hx; [contradiction|]. simpl in Hx.
  destruct (if exact then rsize p <=? size else rsize p <? size).
  - destruct Hx as [<-|Hx]; [left; reflexivity|right; eapply IH; eauto].
  - right. eapply IH; eauto.
Qed.

Lemma apply_subset_incl o sh l : Permutation (sh l) l -> incl (apply_subset o sh l) l.
Proof.
  intros Hp x Hx. destruct o as [|pc|sz|n m]; simpl in Hx.
  - exact Hx.
  - eapply Permutation_in, retain_incl, Hx. exact Hp.
  - eapply Permutation_in, retain_incl, Hx. exact Hp.
  - apply filter_In in Hx. apply Hx.
Qed.

(* uses the regenerated fact that a pack which fits the remaining budget exactly is kept *)
Lemma size_covering_selects_all sh l sz :
  Permutation (sh l) l -> packs_total l <= sz -> apply_subset (SSize sz) sh l = sh l.
Proof.
  intros Hp H. simpl. change x_subset_fits_exactly with true.
  apply retain_all_exact. rewrite (packs_total_perm _ _ Hp). exact H.
Qed.
Lemma percentage_100_selects_all sh l :
  Permutation (sh l) l -> apply_subset (SPercentage 100) sh l = sh l.
Proof.
  intros Hp. change (apply_subset (SSize (packs_total l * 100 / 100)) sh l = sh l).
  apply size_covering_selects_all; [exact Hp|]. rewrite N.div_mul by discriminate. apply N.le_refl.
Qed.

Lemma flat_map_incl {A C} (f : A -> list C) l l' : incl l l' -> incl (flat_map f l) (flat_map f l').
Proof.
  intros H c Hc. apply in_flat_map in Hc. destruct Hc as [a [Ha Hc]]. apply in_flat_map. exists a. auto.
Qed.

Section Proofs3.
  Variable B : Type.
  Variable hash : B -> id.
  Variable blen : B -> N.
  Variable parse : B -> option tree.
  Variable st : state B.

  Notation lookup := (lookup B st).
  Notation walk := (walk B blen parse st).
  Notation load_tree := (load_tree B blen parse st).
  Notation check := (check B hash blen parse st).
  Notation check_with := (check_with B hash blen parse st).

  Lemma check_with_incl sub sub' fuel es :
    (forall l, incl (sub l) (sub' l)) -> check_with sub fuel = Some es ->
    exists es', check_with sub' fuel = Some es' /\ incl es es'.
  Proof.
    intros Hs. unfold Model.check_with.
    destruct (negb (st_meta_ok st)); [intro H; exists es; split; [exact H|apply incl_refl]|].
    destruct (negb (st_index_ok st) && x_unreadable_index_aborts_check);
      [intro H; exists es; split; [exact H|apply incl_refl]|].
    destruct (check_trees B blen parse st fuel) as [[et used]|]; [|discriminate].
    intros [= <-]. eexists. split; [reflexivity|].
    repeat (apply incl_app_app; [apply incl_refl|]). apply flat_map_incl, Hs.
  Qed.

  Lemma subset_perm_same_verdict sub fuel :
    (forall l, Permutation (sub l) l) -> (check_with sub fuel = Some [] <-> check fuel = Some []).
  Proof.
    intro Hs. unfold Model.check. rewrite 2 check_with_clean.
    assert (E : forall l p, In p (sub l) <-> In p l)
      by (split; apply Permutation_in; auto using Permutation_sym).
    setoid_rewrite E. reflexivity.
  Qed.

  Lemma walk_fuel_le : forall f f' i r, (f <= f')%nat -> walk f i = Some r -> walk f' i = Some r.
  Proof.
    induction f as [|f IH]; intros f' i r Hle H; [discriminate|].
    destruct f' as [|f']; [inversion Hle|]. rewrite walk_S in *. destruct (load_tree i) as [t|]; [|exact H].
    revert H. apply collect_mono. intros n rn.
    destruct n as [[c|]|[s|]|]; cbn [node_res]; auto.
    destruct (walk f s) as [[e2 p2]|] eqn:E; [|discriminate].
    rewrite (IH f' s _ (le_S_n _ _ Hle) E). auto.
  Qed.

  Lemma check_fuel_le sub f f' es :
    (f <= f')%nat -> check_with sub f = Some es -> check_with sub f' = Some es.
  Proof.
    intro Hle. unfold Model.check_with, check_trees. rewrite !walk_roots_collect.
    destruct (negb (st_meta_ok st)); [auto|].
    destruct (negb (st_index_ok st) && x_unreadable_index_aborts_check); [auto|].
    destruct (collect (walk f) _) as [[e0 p0]|] eqn:E; [|discriminate].
    rewrite (collect_mono _ (walk f') _ _ (fun r x => walk_fuel_le f f' r x Hle) E). auto.
  Qed.

  Lemma check_verdict_unique f f' a b : check f = Some a -> check f' = Some b -> a = b.
  Proof.
    intros Ha Hb. unfold Model.check in *.
    pose proof (check_fuel_le _ f (Nat.max f f') a (Nat.le_max_l _ _) Ha) as H1.
    pose proof (check_fuel_le _ f' (Nat.max f f') b (Nat.le_max_r _ _) Hb) as H2.
    congruence.
  Qed.

  Definition edge (i s : id) : Prop := exists t, load_tree i = Some t /\ In (NDir (Some s)) t.

  Definition ranked (rank : id -> nat) : Prop := forall i s, edge i s -> (rank s < rank i)%nat.

  Lemma ranked_acyclic rank : ranked rank -> forall i, ~ clos_trans id (fun a b => edge a b) i i.
  Proof.
    intros Hr i Hc.
    assert (G : forall a b, clos_trans id (fun a b => edge a b) a b -> (rank b < rank a)%nat).
    { induction 1 as [a b H|a b c _ IH1 _ IH2]; [apply Hr, H|lia]. }
    specialize (G i i Hc). lia.
  Qed.

  Lemma walk_fuel_sufficient_rank rank : ranked rank ->
    forall f i, (rank i < f)%nat -> walk f i <> None.
  Proof.
    intro Hr. induction f as [|f IH]; intros i Hlt; [lia|].
    rewrite walk_S. destruct (load_tree i) as [t|] eqn:El; [|discriminate].
    apply collect_total. intros n Hn. destruct n as [[c|]|[s|]|]; cbn [node_res]; try discriminate.
    apply join_total; [|discriminate]. apply IH.
    assert (rank s < rank i)%nat by (apply Hr; exists t; auto). lia.
  Qed.

  Lemma check_terminates_rank rank sub : ranked rank ->
    forall f, (forall r, In r (st_roots st) -> (rank r < f)%nat) -> check_with sub f <> None.
  Proof.
    intros Hr f Hf. unfold Model.check_with, check_trees. rewrite walk_roots_collect.
    destruct (negb (st_meta_ok st)); [discriminate|].
    destruct (negb (st_index_ok st) && x_unreadable_index_aborts_check); [discriminate|].
    pose proof (collect_total (walk f) (st_roots st)
                  (fun r Hin => walk_fuel_sufficient_rank rank Hr f r (Hf r Hin))) as G.
    destruct (collect (walk f) _) as [[e0 p0]|]; [discriminate|contradiction].
  Qed.

  (* The no-hash-cycle hypothesis: a tree id is the hash of a serialisation that contains the ids of
     its subtrees, so those ids existed before: some rank decreases from hash(b) to every subtree id
     b lists.  [trees_authentic] is what check_pack establishes for the packs it reads. *)
  Definition no_hash_cycles (rank : id -> nat) : Prop :=
    forall b t s, parse b = Some t -> In (NDir (Some s)) t -> (rank s < rank (hash b))%nat.
  Definition trees_authentic : Prop :=
    forall i p b d, lookup BTree i = Some (p, b) -> read_blob B blen st p b = Some d -> hash d = i.

  Lemma authentic_ranked rank : no_hash_cycles rank -> trees_authentic -> ranked rank.
  Proof.
    intros Hh Ha i s [t [Hl Hin]]. unfold Model.load_tree in Hl.
    destruct (lookup BTree i) as [[p b]|] eqn:El; [|discriminate].
    destruct (read_blob B blen st p b) as [d|] eqn:Er; [|discriminate].
    rewrite <- (Ha i p b d El Er). eapply Hh; eauto.
  Qed.

  Definition max_rank (rank : id -> nat) (l : list id) : nat := fold_right (fun r a => Nat.max (rank r) a) O l.
  Lemma max_rank_ge rank l r : In r l -> (rank r <= max_rank rank l)%nat.
  Proof.
    induction l as [|x l IH]; intro H; [contradiction|]. simpl.
    destruct H as [<-|H]; [lia|]. specialize (IH H). lia.
  Qed.

End Proofs3.
