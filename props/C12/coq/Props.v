(* C12 — property theorems, each followed by Print Assumptions.
   Model.v mirrors blob/tree.rs (merge_trees / merge_nodes), blob/tree/modify.rs (TreeModifier),
   blob/tree/rewrite.rs (RewriteVisitor), commands/repair/snapshots.rs (RepairState) and
   commands/copy.rs. *)
From Verif.Base Require Import Tactics.
From Verif.C12 Require Import Model Proofs.
Local Open Scope N_scope.

(* MERGE.  For every comparison that is a total preorder, every order in which the heap delivers
   equally named nodes, every list of well-formed input trees (every level strictly sorted by name)
   and every non-empty path p, with r the merged tree:
   - if r has a node n' at p, then n' is a cmp-greatest node w among ALL nodes the inputs have at p
     (`cands`: found by descending through directories only), unchanged except that a directory
     winner carries the merged subtree;
   - if r has nothing at p, then no input has anything at p, or a proper prefix of p was resolved to
     a winner that is not a directory.
   Since cands at p ++ [x] collects the x entries of EVERY input directory at p, the first clause
   also says that a directory winner merges all same-named directories. *)
Theorem merge_paths : forall cmp sched,
  preorder cmp -> (forall l, Permutation (sched l) l) ->
  forall ts, Forall (fun t => wf_tree t = true) ts ->
  forall p, p <> [] ->
  match lookup (merge cmp sched ts) p with
  | Some n' =>
      exists w, In w (cands ts p) /\ (forall y, In y (cands ts p) -> cmp y w <> Gt) /\
                n' = (if is_dir w then set_sub w (n_sub n') else w)
  | None =>
      cands ts p = [] \/
      exists q s n, p = q ++ s /\ q <> [] /\ s <> [] /\ lookup (merge cmp sched ts) q = Some n /\ is_dir n = false
  end.
Proof.
  intros cmp sched Hp Hs.
  exact (top_spec cmp Hp (merge_trees cmp sched) (fun _ => eq_refl) (merge_trees_level cmp sched Hs)).
Qed.
Print Assumptions merge_paths.

(* the converse half of "iff": a path that is found (in any tree) has only directory prefixes *)
Theorem merge_paths_found : forall (r : tree) q s n, q <> [] -> s <> [] ->
  lookup r (q ++ s) = Some n -> exists m, lookup r q = Some m /\ is_dir m = true.
Proof. exact (fun r q s n => lookup_prefix q r s n). Qed.
Print Assumptions merge_paths_found.

(* the result is strictly sorted by name (no duplicates) at its top level; the subtree of a directory winner
   is a merge again *)
Theorem merge_sorted : forall cmp sched, (forall l, Permutation (sched l) l) ->
  forall ts, Forall (fun t => wf_tree t = true) ts -> sorted (merge cmp sched ts).
Proof.
  intros cmp sched Hs ts Hwf. apply wft_sorted, merge_trees_wf; assumption.
Qed.
Print Assumptions merge_sorted.

(* Examples is required so that ./check C12, which builds what this file depends on, builds it too *)
From Verif.C12 Require Import Proofs2 Proofs3 Examples.

(* merging one tree, a tree with itself, or any number k+1 of copies returns the tree (no
   well-formedness needed) *)
Theorem merge_copies : forall cmp sched, (forall l, Permutation (sched l) l) ->
  forall k t, merge cmp sched (repeat t (S k)) = t.
Proof.
  intros cmp sched H k t. apply merge_trees_repeat; [exact H|].
  apply Nat.le_le_succ_r, depths_in. left. reflexivity.
Qed.
Print Assumptions merge_copies.

Theorem merge_single : forall cmp sched, (forall l, Permutation (sched l) l) -> forall t, merge cmp sched [t] = t.
Proof. intros cmp sched H. exact (merge_copies cmp sched H 0). Qed.
Print Assumptions merge_single.

Theorem merge_idempotent : forall cmp sched, (forall l, Permutation (sched l) l) -> forall t, merge cmp sched [t; t] = t.
Proof. intros cmp sched H. exact (merge_copies cmp sched H 1). Qed.
Print Assumptions merge_idempotent.

(* REWRITE.  For every exclusion predicate (the glob matcher's verdict on (path, is_dir)) and every node
   modification that only touches metadata and reports a change whenever it makes one: the tree of the
   rewritten snapshot is the input with exactly the matched nodes (and everything below a matched
   directory) removed — `prune` — and nothing else changed: listed as (path, node without subtree)
   pairs, the result is the list of the input's pairs whose path has no matched prefix (`kept`), each
   node passed through the modification.  The root path [] (the only one the command uses) carries no
   premise: the nameless root is not matched against the globs (fix "rewrite does not treat the nameless
   snapshot root as excludable"); the input is well-formed (every level sorted), so the modifier's sort of a
   changed tree is the identity here. *)
Theorem rewrite_removes_exactly_excluded : forall excl modn,
  (forall n, n_name (fst (modn n)) = n_name n /\ n_kind (fst (modn n)) = n_kind n /\
             n_content (fst (modn n)) = n_content n /\ n_sub (fst (modn n)) = n_sub n) ->
  (forall n, snd (modn n) = false -> fst (modn n) = n) ->
  forall path t, wf_tree t = true -> path = [] \/ excl path true = false ->
    let r := result_tree t (rewrite_tree excl modn path t) in
    r = prune excl modn path t /\
    map (fun pn => (fst pn, strip (snd pn))) (paths path r) =
    map (fun pn => (fst pn, strip_mod modn (snd pn))) (kept excl path t).
Proof.
  intros excl modn Hframe Hflag path t Hwf H. cbv zeta.
  (* that the content is kept is not needed *)
  pose proof (fun n => match Hframe n with conj a (conj b (conj _ d)) => conj a (conj b d) end) as Hf.
  rewrite (rewrite_value excl modn Hf Hflag path t Hwf H). split; [reflexivity | apply prune_paths, Hf].
Qed.
Print Assumptions rewrite_removes_exactly_excluded.

(* REPAIR.  Nothing missing (every chunk of every file indexed, every subtree readable) => the
   modifier reports Unchanged for the root: no tree is written and the snapshot is not touched. *)
Theorem repair_identity_on_intact : forall has_data mark resize readable t,
  intact has_data readable t = true -> repair_tree has_data mark resize readable t = Unchanged.
Proof. intros has_data mark resize readable. exact (intact_unchanged has_data mark resize readable []). Qed.
Print Assumptions repair_identity_on_intact.

(* Every regular file of the repaired tree is either an original file at the same path with the same
   name and exactly its original chunk list, all of whose chunks are present — or the marked (renamed)
   remainder of an original file that had a missing chunk, holding exactly the present chunks. *)
Theorem repair_kept_files_intact : forall has_data mark resize readable t,
  files_ok has_data mark (paths [] t) (paths [] (result_tree t (repair_tree has_data mark resize readable t))).
Proof. intros has_data mark resize readable t. apply tree_files_ok. intros x _. apply node_ok_all. Qed.
Print Assumptions repair_kept_files_intact.

(* COPY.  The requests of copy (`needed`: reachable from the snapshots, not in the destination's typed
   index, known to the source) go through the two packers sharing one indexer (the C13 transition
   system; `indexer_typed` is read from the source).  For EVERY complete interleaving: if the source is
   closed, every (type, id) reachable from a copied snapshot is in the destination index afterwards.
   No NoCrossTypeCollision premise: the proof uses that Indexer.indexed is typed. *)
Theorem copy_closed : forall tid src dst snaps es s,
  (forall b, In b (flat_map (reach tid) snaps) -> has src b = true) ->
  Verif.C13.Model.run Verif.C13.Model.init es = Some s -> Verif.C13.Model.final s = true ->
  (forall b, In b (needed tid src dst snaps) -> In (conv b) (Verif.C13.Model.requested s)) ->
  forall b, In b (flat_map (reach tid) snaps) -> has (dst ++ indexed_blobs s) b = true.
Proof.
  intros tid src dst snaps es s Hsrc Hrun Hfin Hreq b Hb.
  exact (reach_copied tid src dst snaps es s Hrun Hfin Hreq b Hb (Hsrc b Hb)).
Qed.
Print Assumptions copy_closed.

From Verif.C12 Require Import Proofs4.

(* MERGE, THE LOOP AS WRITTEN.  `merge_loop_gen` is the loop of tree::merge_trees statement by statement
   (fill the heap with the first node of every tree; pop; push the successor of the popped node's tree
   BEFORE the next pop; collect equal names; merge_nodes on a name change) over an arbitrary priority
   queue.  For EVERY push/pop meeting the priority-queue specification (`pq_spec`: push adds, pop
   returns an element of least name and leaves the rest) it satisfies the same path specification as
   `merge` (`spec_at` is the match of theorem merge_paths).  The instance extracted and compared with
   the implementation case by case, ties included, is std's BinaryHeap algorithm (Model.heap_push /
   heap_pop); that this instance meets the specification on heap-ordered vectors is heap_meets_pq_spec below. *)
Theorem merge_loop_paths : forall cmp hpush hpop, pq_spec hpush hpop -> preorder cmp ->
  forall ts, Forall (fun t => wf_tree t = true) ts ->
  forall p, p <> [] -> spec_at cmp ts (merge_loop_gen cmp hpush hpop ts) p.
Proof. intros cmp hpush hpop H. exact (merge_loop_paths_inv cmp _ _ _ (pq_spec_is_inv _ _ H)). Qed.
Print Assumptions merge_loop_paths.

(* ... and its result is strictly sorted by name at the top level (no name twice) — what the unfixed code
   violated on backup-written trees with names that need escaping, where the premise wf_tree (sorted in the
   order the merge compares) failed. *)
Theorem merge_loop_sorted : forall cmp hpush hpop, pq_spec hpush hpop ->
  forall ts, Forall (fun t => wf_tree t = true) ts -> sorted (merge_loop_gen cmp hpush hpop ts).
Proof. intros cmp hpush hpop H. exact (merge_loop_sorted_inv cmp _ _ _ (pq_spec_is_inv _ _ H)). Qed.
Print Assumptions merge_loop_sorted.

(* the priority-queue specification is satisfiable (push = cons, pop = first element of least name) *)
Theorem pq_spec_nonvacuous : pq_spec (fun h x => x :: h) pop_min.
Proof. split; [intros; apply Permutation_refl|]. split; [exact pop_min_none | exact pop_min_some]. Qed.
Print Assumptions pq_spec_nonvacuous.

From Verif.C12 Require Import Proofs5.

(* a tree written by repair is in name order (non-strictly: a marked name may coincide with a sibling) *)
Theorem repair_result_sorted : forall has_data mark resize readable t st,
  repair_tree has_data mark resize readable t = Changed st -> sorted_le st.
Proof. intros has_data mark resize readable t st. apply finish_changed_sorted. Qed.
Print Assumptions repair_result_sorted.

(* THE HEAP.  Model.heap_push / heap_pop transcribe std's BinaryHeap (Vec push + sift_up; pop last, swap with
   the root, sift_down_to_bottom, sift_up).  With the heap order as representation invariant they meet the
   priority-queue specification: push and pop preserve the invariant and the multiset, pop returns None only
   on the empty vector and otherwise an element of least name. *)
Theorem heap_meets_pq_spec : pq_spec_inv heap_ok heap_push heap_pop.
Proof.
  split; [exact heap_ok_nil|]. split; [intros h x H; split; [apply heap_push_ok; exact H | apply heap_push_perm]|].
  split; [exact heap_pop_none|]. intros h x h' H E. apply heap_pop_some; assumption.
Qed.
Print Assumptions heap_meets_pq_spec.

(* Hence the loop as written, over the heap as transcribed — the executable that reproduces the
   implementation case by case, ties included — meets the path specification of merge_paths and yields
   strictly sorted output, with no premise about the priority queue. *)
Theorem merge_loop_paths_binary_heap : forall cmp, preorder cmp ->
  forall ts, Forall (fun t => wf_tree t = true) ts ->
  forall p, p <> [] -> spec_at cmp ts (merge_loop cmp ts) p.
Proof. intro cmp. exact (merge_loop_paths_inv cmp _ _ _ heap_meets_pq_spec). Qed.
Print Assumptions merge_loop_paths_binary_heap.

Theorem merge_loop_sorted_binary_heap : forall cmp ts,
  Forall (fun t => wf_tree t = true) ts -> sorted (merge_loop cmp ts).
Proof. intro cmp. exact (merge_loop_sorted_inv cmp _ _ _ heap_meets_pq_spec). Qed.
Print Assumptions merge_loop_sorted_binary_heap.

From Verif.C12 Require Import Proofs6.

(* COPY PRESERVES CONTENT.  Composition with C08: the repacker (BlobCopier::copy over coalesced reads, C08
   `repack_preserves_blobs`) hands the target packer, for every entry, the decoded bytes of that entry's own
   source location; the target packer (C08 `packer_pack_wellformed`) writes them - encoded by the
   destination's Packer::add (`denc`: compress + encrypt under the destination key) - into packs whose index
   entries have contiguous offsets.  For EVERY list of needed entries with distinct ids, every save pattern,
   every source decoder and every destination encoder/decoder pair with `ddec (denc x) = Some x` (AEAD and zstd
   round trip, as C08 states them; header encryption adds 32 bytes): each entry's blob is indexed in a
   written destination pack at a location whose bytes decode to exactly the source blob's decoded bytes. *)
Theorem copy_preserves_content : forall sstore sdecode denc dulen ddec enc,
  (forall x, ddec (denc x) (dulen x) = Some x) ->
  (forall x, length (enc x) = (length x + 32)%nat) ->
  forall tpe es out saves packs,
    NoDup (map Verif.C08.Repack.ce_id es) ->
    Verif.C08.Repack.repack true sstore sdecode es = Verif.C08.Model.Ok out ->
    Forall Verif.C08.Spec.wf_op (dest_ops denc dulen out saves) ->
    Verif.C08.Model.packer_run enc tpe (dest_ops denc dulen out saves) = Verif.C08.Model.Ok packs ->
    forall e, In e es ->
      exists pd f bs b,
        Verif.C08.Repack.expected_of sstore sdecode e
          = Some (Verif.C08.Repack.ce_id e, pd, Verif.C08.Repack.l_ulen (Verif.C08.Repack.ce_loc e)) /\
        In (f, bs) packs /\ In b bs /\ Verif.C08.Model.bid b = Verif.C08.Repack.ce_id e /\
        Verif.C08.Model.btpe b = tpe /\
        ddec (Verif.C08.Model.slice f (Verif.C08.Model.boff b) (Verif.C08.Model.blen b)) (Verif.C08.Model.bulen b) = Some pd.
Proof. exact copy_preserves_content_lemma. Qed.
Print Assumptions copy_preserves_content.

(* ... hence every reachable blob reads the same bytes in the destination as in the source, and every file of
   every copied snapshot restores to the same bytes (same chunk list, same plaintext per chunk).  `src_plain`
   and `dst_plain` are abstract; premises: the source is closed, a blob the destination already had reads the
   same in both (content addressing), and so does every blob copy requests (`needed`) - what
   copy_preserves_content concludes, taken here as a hypothesis. *)
Theorem copy_restores_identically : forall tid src dst snaps (src_plain dst_plain : bt * N -> option (list N)),
  (forall b, In b (flat_map (reach tid) snaps) -> has src b = true) ->
  (forall b, In b (flat_map (reach tid) snaps) -> has dst b = true -> dst_plain b = src_plain b) ->
  (forall b, In b (needed tid src dst snaps) -> dst_plain b = src_plain b) ->
  (forall b, In b (flat_map (reach tid) snaps) -> dst_plain b = src_plain b) /\
  forall t p n, In t snaps -> In (p, n) (paths [] t) -> n_kind n = KFile ->
    map (fun i => dst_plain (Data, i)) (n_content n) = map (fun i => src_plain (Data, i)) (n_content n).
Proof.
  intros tid src dst snaps sp dp Hsrc Hold Hnew.
  assert (forall b, In b (flat_map (reach tid) snaps) -> dp b = sp b) as Hall.
  { intros b Hb. destruct (has dst b) eqn:Ed; [apply Hold; assumption|].
    apply Hnew, needed_iff. auto using seen_covers_reach. }
  split; [exact Hall|]. intros t p n Ht Hp Hk. apply map_ext_in. intros i Hi. apply Hall.
  apply in_flat_map. exists t. split; [exact Ht | exact (reach_file_chunk tid t [] p n i Hp Hk Hi)].
Qed.
Print Assumptions copy_restores_identically.

(* COPY FROM ANY SOURCE.  Without the premise that the source is closed: every reachable blob the source index
   knows ends up in the destination index, and copy requests only blobs the source knows and the destination
   lacks (ids unknown to the source are skipped by `filter_map` — read from copy.rs): the destination becomes
   exactly as closed as the source.  copy_closed is the special case of a closed source. *)
Theorem copy_closed_relative : forall tid src dst snaps es s,
  Verif.C13.Model.run Verif.C13.Model.init es = Some s -> Verif.C13.Model.final s = true ->
  (forall b, In b (needed tid src dst snaps) -> In (conv b) (Verif.C13.Model.requested s)) ->
  (forall b, In b (flat_map (reach tid) snaps) -> has src b = true -> has (dst ++ indexed_blobs s) b = true) /\
  (forall b, In b (needed tid src dst snaps) -> has src b = true /\ has dst b = false).
Proof.
  intros tid src dst snaps es s Hrun Hfin Hreq. split; [exact (reach_copied tid src dst snaps es s Hrun Hfin Hreq)|].
  intros b Hb. apply needed_iff in Hb. tauto.
Qed.
Print Assumptions copy_closed_relative.

(* REPAIR, MISSING SUBTREES.  One step of the modifier on a directory node (any path, any metadata): if the
   subtree cannot be loaded the directory stays, with its name and metadata, as an EMPTY directory (flagged as a
   change unless the lost tree was the empty tree); a directory node without subtree id becomes a directory with
   the empty tree; a directory whose subtree loads keeps name and metadata and carries the repaired subtree. *)
Theorem repair_missing_subtree : forall has_data mark resize readable path a m t c s,
  (readable s = false ->
     modify_node (rp_visit has_data mark resize) readable path (Node a KDir m t c s)
       = (Some (Node a KDir m t c []), negb (tree_eqb [] s)) \/
     modify_node (rp_visit has_data mark resize) readable path (Node a KDir m t c s)
       = (Some (Node a KDir m t c s), false) /\ s = []) /\
  modify_node (rp_visit has_data mark resize) readable path (Node a KDirNoSub m t c s)
    = (Some (Node a KDir m t c []), true) /\
  (readable s = true ->
     fst (modify_node (rp_visit has_data mark resize) readable path (Node a KDir m t c s))
       = Some (Node a KDir m t c (result_tree s (modify_tree (rp_visit has_data mark resize) readable (path ++ [a]) s)))).
Proof.
  intros has_data mark resize readable path a m t c s. split; [|split; [reflexivity|]].
  - intro Hr. rewrite modify_node_unfold. cbn [rp_visit]. rewrite (modify_tree_unreadable _ _ _ s Hr).
    destruct (tree_eqb [] s) eqn:E; [right | left; reflexivity].
    split; [reflexivity | symmetry; apply tree_eqb_sound, E].
  - intros _. exact (modify_node_visit _ readable path a KDir m t c s (Node a KDir m t c s) false eq_refl eq_refl).
Qed.
Print Assumptions repair_missing_subtree.
