(* C12 — repair (RepairState visitor through TreeModifier) and copy (closure of the destination). *)
From Verif.Base Require Import Tactics Lists.
From Verif.C12 Require Import Extracted Model Proofs Proofs2.
From Verif.C13 Require Extracted Model Proofs Proofs2 Props.
Local Open Scope N_scope.

Lemma forallb_filter_id {A} (f : A -> bool) l : forallb f (filter f l) = true.
Proof.
  induction l as [|x r IH]; [reflexivity|]. cbn [filter]. destruct (f x) eqn:E; [cbn [forallb]; rewrite E, IH; reflexivity | exact IH].
Qed.

Lemma modify_tree_unreadable visit readable path s : readable s = false ->
  modify_tree visit readable path s = if tree_eqb [] s then Unchanged else Changed [].
Proof.
  intro Hr. unfold modify_tree, finish. rewrite Hr. change modifier_sorts_changed_trees with true.
  cbv iota. change (sort_tree []) with ([] : tree). destruct (tree_eqb [] s); reflexivity.
Qed.

Section RepairProofs.
  Variable has_data : N -> bool.
  Variable mark : N -> N.
  Variable resize : N -> list N -> N.
  Variable readable : tree -> bool.

  Let mn := modify_node (rp_visit has_data mark resize) readable.
  Let mt := modify_tree (rp_visit has_data mark resize) readable.

  (* nothing is missing below this node: every chunk of every file is indexed, every subtree is
     readable, every directory has a subtree *)
  Fixpoint intact_node (n : node) : bool :=
    match n with
    | Node a k m t c s =>
        match k with
        | KFile => forallb has_data c
        | KDir => readable s && forallb intact_node s
        | KDirNoSub => false
        | _ => true
        end
    end.
  Definition intact (t : tree) : bool := readable t && forallb intact_node t.

  Lemma intact_flag : forall t, forallb intact_node t = true -> forall path, snd (fold_nodes (mn path) t) = false.
  Proof.
    induction t as [|[a k m tg c s] r IHs IHr] using tree_ind'; intros Hi path; [reflexivity|].
    cbn [forallb] in Hi. apply andb_true_iff in Hi as [Hn Hr]. rewrite fold_nodes_cons. cbn [snd].
    rewrite (IHr Hr), orb_false_r. unfold mn. rewrite modify_node_unfold. cbn [rp_visit intact_node n_sub] in *.
    destruct k; try discriminate; try reflexivity.
    - cbn [snd]. rewrite Hn. reflexivity.
    - apply andb_true_iff in Hn as [Hrd Hs]. unfold modify_tree. rewrite finish_flag; [reflexivity | exact Hrd | apply IHs; exact Hs].
  Qed.

  Lemma intact_unchanged path t : intact t = true -> mt path t = Unchanged.
  Proof.
    unfold intact. intro H. apply andb_true_iff in H as [Hr Hi].
    apply finish_flag; [exact Hr | apply intact_flag; exact Hi].
  Qed.

  (* what repair guarantees about the regular files of its result, relative to the (path, node) list
     of the original: either the file is an original file at the same path with the same name and
     exactly its chunk list, all chunks present — or it is the marked remainder of an original file
     that had a missing chunk *)
  Definition files_ok (orig res : list (list N * node)) : Prop :=
    forall q n', In (q, n') res -> is_file n' = true ->
      forallb has_data (n_content n') = true /\
      ((exists n, In (q, n) orig /\ is_file n = true /\ n_content n' = n_content n /\ n_name n' = n_name n) \/
       (exists q0 n, In (q0 ++ [n_name n], n) orig /\ is_file n = true /\ forallb has_data (n_content n) = false /\
                     q = q0 ++ [mark (n_name n)] /\ n_content n' = filter has_data (n_content n))).

  Lemma files_ok_mono orig orig' res : incl orig orig' -> files_ok orig res -> files_ok orig' res.
  Proof.
    intros Hi H q n' Hin Hf. destruct (H q n' Hin Hf) as [H1 [[n [Hn R]]|[q0 [n [Hn R]]]]]; split; try exact H1.
    - left. exists n. split; [apply Hi; exact Hn | exact R].
    - right. exists q0, n. split; [apply Hi; exact Hn | exact R].
  Qed.
  Lemma files_ok_app orig1 orig2 r1 r2 : files_ok orig1 r1 -> files_ok orig2 r2 -> files_ok (orig1 ++ orig2) (r1 ++ r2).
  Proof.
    intros H1 H2 q n' Hin Hf. apply in_app_or in Hin as [Hin|Hin].
    - exact (files_ok_mono orig1 _ r1 (incl_appl _ (incl_refl _)) H1 q n' Hin Hf).
    - exact (files_ok_mono orig2 _ r2 (incl_appr _ (incl_refl _)) H2 q n' Hin Hf).
  Qed.
  Lemma files_ok_nil orig : files_ok orig [].
  Proof. intros q n' []. Qed.
  Lemma files_ok_cons_nonfile p n0 orig p' n res :
    is_file n = false -> files_ok orig res -> files_ok ((p, n0) :: orig) ((p', n) :: res).
  Proof.
    intros Hn H q n' [E|Hin] Hf; [inv E; congruence|].
    exact (files_ok_mono orig _ res (incl_tl _ (incl_refl _)) H q n' Hin Hf).
  Qed.

  Lemma files_ok_file_kept p a m t t' c s : forallb has_data c = true ->
    files_ok [(p, Node a KFile m t c s)] [(p, Node a KFile m t' c s)].
  Proof.
    intros Eall q n' [E|[]] _. inv E. split; [exact Eall|]. left.
    exists (Node a KFile m t c s). split; [left; reflexivity|]. repeat split.
  Qed.
  Lemma files_ok_file_marked pre a m t t' c s : forallb has_data c = false ->
    files_ok [(pre ++ [a], Node a KFile m t c s)] [(pre ++ [mark a], Node (mark a) KFile m t' (filter has_data c) s)].
  Proof.
    intros Eall q n' [E|[]] _. inv E. split; [apply forallb_filter_id|]. right.
    exists pre, (Node a KFile m t c s). split; [left; reflexivity|]. repeat split. exact Eall.
  Qed.

  (* where no flag is raised the modifier keeps the ORIGINAL tree, not the rebuilt one (the size is
     corrected without a flag): hence the second clause *)
  Definition node_ok (n : node) : Prop := forall pre,
    files_ok (paths_node pre n) (flat_map (paths_node pre) (opt_list (fst (mn pre n)))) /\
    (snd (mn pre n) = false -> files_ok (paths_node pre n) (paths_node pre n)).

  Lemma fold_files_ok pre l : (forall x, In x l -> node_ok x) ->
    files_ok (paths pre l) (paths pre (fst (fold_nodes (mn pre) l))) /\
    (snd (fold_nodes (mn pre) l) = false -> files_ok (paths pre l) (paths pre l)).
  Proof.
    induction l as [|x r IH]; intro H; [split; intros; apply files_ok_nil|].
    destruct (IH (fun y Hy => H y (or_intror Hy))) as [IH1 IH2].
    destruct (H x (or_introl eq_refl) pre) as [H1 H2].
    rewrite fold_nodes_cons, paths_cons. cbn [fst snd]. unfold paths at 2. rewrite flat_map_app. split.
    - apply files_ok_app; assumption.
    - intro Hf. apply orb_false_iff in Hf as [Hf1 Hf2]. apply files_ok_app; auto.
  Qed.

  Lemma tree_files_ok pre s : (forall x, In x s -> node_ok x) ->
    files_ok (paths pre s) (paths pre (result_tree s (mt pre s))).
  Proof.
    intro H. destruct (fold_files_ok pre s H) as [H1 H2]. unfold mt, modify_tree. fold (mn pre).
    destruct (fold_nodes (mn pre) s) as [nt ch]. cbn [fst snd] in *. rewrite finish_value.
    destruct (readable s); [|apply files_ok_nil]. destruct ch; [|apply H2; reflexivity].
    (* the stable sort only reorders siblings: the (path, node) pairs are the same *)
    intros q n' Hin. apply H1. unfold paths in *. apply in_flat_map in Hin. destruct Hin as [x [Hx Hq]].
    apply in_flat_map. exists x. split; [apply sort_tree_in; exact Hx | exact Hq].
  Qed.

  Lemma node_ok_all : forall n, node_ok n.
  Proof.
    induction n as [a k m t c s IH] using node_ind'. intro pre. unfold mn.
    (* neither file nor directory with a subtree: one node that is no file, before and after *)
    destruct k; [| | rewrite modify_node_unfold; cbn [rp_visit fst snd opt_list flat_map set_sub app paths_node];
                     (split; [|intro Hf; try discriminate Hf]);
                     (apply files_ok_cons_nonfile; [reflexivity | apply files_ok_nil]) ..].
    - rewrite modify_node_unfold. cbn [rp_visit fst snd opt_list flat_map paths_node app].
      destruct (forallb has_data c) eqn:Eall; cbn [negb].
      + rewrite (filter_const has_data true c (fun x => forallb_In Eall)). split; intros; apply files_ok_file_kept, Eall.
      + split; [apply files_ok_file_marked, Eall | discriminate].
    - pose proof (tree_files_ok (pre ++ [a]) s IH) as Ht.
      rewrite (modify_node_visit (rp_visit has_data mark resize) readable pre a KDir m t c s _ _ eq_refl eq_refl).
      cbn [opt_list flat_map set_sub]. rewrite app_nil_r, !paths_node_dir. split.
      + apply files_ok_cons_nonfile; [reflexivity | exact Ht].
      + intro Hf. destruct (modify_node_visit_flag _ _ pre a KDir m t c s _ _ eq_refl Hf) as [_ Hu]. fold mt in Hu.
        rewrite Hu in Ht. apply files_ok_cons_nonfile; [reflexivity | exact Ht].
  Qed.
End RepairProofs.

Module P13 := Verif.C13.Model.

Definition conv (b : bt * N) : P13.bt * N := (match fst b with Data => P13.Data | Tree => P13.Tree end, snd b).
(* the (type, id) pairs of the packs the copy run's indexer holds at the end *)
Definition indexed_blobs (s : P13.st) : list (bt * N) :=
  flat_map (fun e => map (fun i => (match fst e with P13.Data => Data | P13.Tree => Tree end, i)) (snd e)) (P13.idx s).

Lemma has_app ix1 ix2 b : has (ix1 ++ ix2) b = (has ix1 b || has ix2 b)%bool.
Proof. unfold has. apply existsb_app. Qed.

Lemma has_in ix t i : In (t, i) ix -> has ix (t, i) = true.
Proof.
  intro H. unfold has. apply existsb_exists. exists (t, i). split; [exact H|]. cbn [fst snd].
  rewrite N.eqb_refl. destruct t; reflexivity.
Qed.

Lemma reach_file_chunk tid : forall t pre p n i,
  In (p, n) (paths pre t) -> n_kind n = KFile -> In i (n_content n) -> In (Data, i) (reach tid t).
Proof.
  intros t pre p n i Hp Hk Hi. right. revert t pre Hp.
  induction t as [|[a k m tg c s] r IHs IHr] using tree_ind'; intros pre Hp; [destruct Hp|].
  rewrite paths_cons in Hp. cbn [flat_map]. apply in_or_app. apply in_app_or in Hp as [Hp|Hp]; [left | right; exact (IHr pre Hp)].
  cbn [paths_node reach_node n_sub] in *. destruct Hp as [E|Hp].
  - inv E. cbn [n_kind] in Hk. subst k. apply in_map. exact Hi.
  - destruct k; try (destruct Hp; fail). right. exact (IHs _ Hp).
Qed.

(* the walk covers the whole reachable set — provable only when it starts from every snapshot root *)
Lemma seen_covers_reach tid dst snaps b : In b (flat_map (reach tid) snaps) -> In b (seen tid dst snaps).
Proof.
  intro H. unfold seen, walked.
  change copy_walk_from_all_snapshot_trees with true. cbv iota.
  apply in_flat_map in H. destruct H as [t [Ht Hb]]. apply in_or_app. destruct Hb as [<-|Hb].
  - left. apply (in_map (fun t => (Tree, tid t))). exact Ht.
  - right. apply in_flat_map. exists t. split; assumption.
Qed.

Lemma needed_iff tid src dst snaps b :
  In b (needed tid src dst snaps) <-> In b (seen tid dst snaps) /\ has src b = true /\ has dst b = false.
Proof.
  unfold needed. rewrite filter_In. change copy_skips_ids_unknown_to_source with true. cbv iota.
  rewrite andb_true_iff, negb_true_iff. tauto.
Qed.

Section CopyRun.
  Variables (tid : tree -> N) (src dst : list (bt * N)) (snaps : list tree) (es : list P13.ev) (s : P13.st).
  (* a complete run of the packer pipeline that was handed at least what copy needs *)
  Hypothesis Hrun : P13.run P13.init es = Some s.
  Hypothesis Hfin : P13.final s = true.
  Hypothesis Hreq : forall b, In b (needed tid src dst snaps) -> In (conv b) (P13.requested s).

  Lemma needed_indexed b : In b (needed tid src dst snaps) -> has (indexed_blobs s) b = true.
  Proof.
    destruct b as [t i]. intro Hn. pose proof (Hreq _ Hn) as Hr. unfold conv in Hr. cbn [fst snd] in Hr.
    (* or_introl eq_refl : indexer_typed = true \/ _, by computation of C13's generated Extracted.indexer_typed *)
    destruct (Verif.C13.Props.every_final_state_indexes_all_typed es s Hrun Hfin (or_introl eq_refl) _ _ Hr) as [pk [Hpk Hi]].
    apply has_in. unfold indexed_blobs. apply in_flat_map.
    eexists. split; [exact Hpk|]. cbn [fst snd]. apply in_map_iff. exists i. split; [|exact Hi].
    destruct t; reflexivity.
  Qed.

  Lemma reach_copied b : In b (flat_map (reach tid) snaps) -> has src b = true -> has (dst ++ indexed_blobs s) b = true.
  Proof.
    intros Hb Hs. rewrite has_app. destruct (has dst b) eqn:Ed; [reflexivity|].
    apply needed_indexed, needed_iff. auto using seen_covers_reach.
  Qed.
End CopyRun.
