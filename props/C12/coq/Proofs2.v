(* C12 — TreeModifier (blob/tree/modify.rs) and the rewrite visitor: the rewritten tree is the input
   pruned of exactly the matched paths. *)
From Verif.Base Require Import Tactics Sorting.
From Verif.C12 Require Import Extracted Model Proofs.
Local Open Scope N_scope.

Lemma list_eqb_sound {A} (e : A -> A -> bool) l1 :
  (forall x, In x l1 -> forall y, e x y = true -> x = y) -> forall l2, list_eqb e l1 l2 = true -> l1 = l2.
Proof.
  induction l1 as [|x r IH]; intros He l2 H; destruct l2 as [|y r2]; try discriminate; [reflexivity|].
  cbn [list_eqb] in H. apply andb_true_iff in H. destruct H as [H1 H2].
  f_equal; [apply He; [left; reflexivity | exact H1] | apply IH; [intros; apply He; [right; assumption | assumption] | exact H2]].
Qed.

Lemma node_eqb_unfold n1 k1 m1 t1 c1 s1 n2 k2 m2 t2 c2 s2 :
  node_eqb (Node n1 k1 m1 t1 c1 s1) (Node n2 k2 m2 t2 c2 s2) =
  ((n1 =? n2) && kind_eqb k1 k2 && (m1 =? m2) && (t1 =? t2) && list_eqb N.eqb c1 c2 && list_eqb node_eqb s1 s2)%bool.
Proof.
  cbn [node_eqb]. f_equal. revert s2. induction s1 as [|x r IH]; intros [|y r2]; try reflexivity.
  cbn [list_eqb]. rewrite <- IH. reflexivity.
Qed.

Lemma kind_eqb_sound a b : kind_eqb a b = true -> a = b.
Proof. destruct a, b; cbn; congruence. Qed.

Lemma node_eqb_sound : forall a b, node_eqb a b = true -> a = b.
Proof.
  induction a as [n1 k1 m1 t1 c1 s1 IH] using node_ind'. intros [n2 k2 m2 t2 c2 s2] H.
  rewrite node_eqb_unfold, !andb_true_iff in H. destruct H as [[[[[Hn Hk] Hm] Ht] Hc] Hs].
  apply N.eqb_eq in Hn, Hm, Ht. apply kind_eqb_sound in Hk.
  apply (list_eqb_sound _ _ (fun x _ y => proj1 (N.eqb_eq x y))) in Hc. apply (list_eqb_sound _ _ IH) in Hs.
  congruence.
Qed.

Lemma tree_eqb_sound a b : tree_eqb a b = true -> a = b.
Proof. apply list_eqb_sound. intros x _. apply node_eqb_sound. Qed.

(* insert_node and sort_tree are Sorting.insert and Sorting.isort at the comparison of names: the same fix *)
Lemma insert_in n l x : In x (insert_node n l) <-> n = x \/ In x l.
Proof. exact (In_insert _ n l x). Qed.
Lemma sort_tree_in t x : In x (sort_tree t) <-> In x t.
Proof. exact (In_isort _ t x). Qed.
Lemma sort_sorted_id t : sorted t -> sort_tree t = t.
Proof.
  induction t as [|n r IH]; intro Hs; [reflexivity|]. apply sorted_cons in Hs as [Hlt Hr].
  unfold sort_tree in *. cbn [fold_right]. rewrite (IH Hr). destruct r as [|x r']; [reflexivity|].
  cbn [insert_node]. specialize (Hlt x (or_introl eq_refl)).
  destruct (n_name n <=? n_name x) eqn:E; [reflexivity | lia].
Qed.

(* non-strict sortedness (a renamed node may collide with a sibling's name) *)
Fixpoint sorted_le_names (l : list N) : bool :=
  match l with
  | [] => true
  | a :: r => match r with [] => true | b :: _ => (a <=? b) && sorted_le_names r end
  end.
Definition sorted_le (t : tree) : Prop := sorted_le_names (map n_name t) = true.

Lemma sorted_le_cons n r : sorted_le (n :: r) <-> (forall x, In x r -> n_name n <= n_name x) /\ sorted_le r.
Proof.
  (* sorted_le_names is Sorting.chain at N.leb: the same fix *)
  unfold sorted_le. change sorted_le_names with (chain N.leb). rewrite !chain_map, chain_cons_iff by (intros; lia).
  split; intros [H Hr]; (split; [|exact Hr]); intros x Hx; specialize (H x Hx); lia.
Qed.

Lemma sort_tree_sorted_le t : sorted_le (sort_tree t).
Proof.
  unfold sorted_le. change sorted_le_names with (chain N.leb). rewrite chain_map.
  apply (isort_chain (fun a b => n_name a <=? n_name b)). intros; lia.
Qed.

Lemma finish_changed_sorted rd old res st : finish rd old res = Changed st -> sorted_le st.
Proof.
  unfold finish. change modifier_sorts_changed_trees with true. cbv iota.
  destruct (if rd then res else ([], true)) as [nt ch].
  destruct (ch && negb (tree_eqb (sort_tree nt) old))%bool; [|discriminate]. intro H. inv H. apply sort_tree_sorted_le.
Qed.

(* the `new_id != id` test changes the answer, not the tree the snapshot ends up with *)
Lemma finish_value rd old nt ch :
  result_tree old (finish rd old (nt, ch)) = if rd then (if ch then sort_tree nt else old) else [].
Proof.
  unfold finish. change modifier_sorts_changed_trees with true. cbv iota. destruct rd.
  - destruct ch; cbn [andb]; [|reflexivity].
    destruct (tree_eqb (sort_tree nt) old) eqn:E; cbn [negb result_tree]; [symmetry; apply tree_eqb_sound; exact E | reflexivity].
  - cbn [andb]. change (sort_tree []) with ([] : tree).
    destruct (tree_eqb [] old) eqn:E; cbn [negb result_tree]; [symmetry; apply tree_eqb_sound; exact E | reflexivity].
Qed.

Lemma finish_not_removed rd old res : finish rd old res <> Removed.
Proof.
  unfold finish. destruct (if rd then res else ([], true)) as [nt ch].
  destruct (ch && negb (tree_eqb _ old))%bool; discriminate.
Qed.

Lemma finish_flag rd old res : rd = true -> snd res = false -> finish rd old res = Unchanged.
Proof. destruct res as [nt ch]. cbn [snd]. intros -> ->. reflexivity. Qed.

Lemma fold_nodes_cons f x r :
  fold_nodes f (x :: r) =
  (opt_list (fst (f x)) ++ fst (fold_nodes f r), (snd (f x) || snd (fold_nodes f r))%bool).
Proof. cbn [fold_nodes]. destruct (f x) as [[y|] cx]; destruct (fold_nodes f r) as [r' cr]; reflexivity. Qed.

Lemma fold_nodes_ext f g l : (forall x, In x l -> f x = g x) -> fold_nodes f l = fold_nodes g l.
Proof.
  induction l as [|x r IH]; intro H; [reflexivity|]. rewrite !fold_nodes_cons.
  rewrite (H x (or_introl eq_refl)), IH by (intros; apply H; right; assumption). reflexivity.
Qed.

Lemma fold_flag_false f l : (forall x, In x l -> snd (f x) = false) -> snd (fold_nodes f l) = false.
Proof.
  induction l as [|x r IH]; intro H; [reflexivity|]. rewrite fold_nodes_cons. cbn [snd].
  rewrite (H x (or_introl eq_refl)), IH by (intros; apply H; right; assumption). reflexivity.
Qed.

Lemma fold_nodes_spec (f : node -> option node * bool) (g : node -> option node) l :
  (forall x, In x l -> fst (f x) = g x /\ (snd (f x) = false -> g x = Some x)) ->
  fst (fold_nodes f l) = flat_map (fun x => opt_list (g x)) l /\
  (snd (fold_nodes f l) = false -> flat_map (fun x => opt_list (g x)) l = l).
Proof.
  induction l as [|x r IH]; intro H; [split; reflexivity|].
  destruct (IH (fun y Hy => H y (or_intror Hy))) as [IH1 IH2].
  destruct (H x (or_introl eq_refl)) as [H1 H2].
  rewrite fold_nodes_cons. cbn [fst snd flat_map]. rewrite H1, IH1. split; [reflexivity|].
  intro Hf. apply orb_false_iff in Hf as [Hf1 Hf2]. rewrite (H2 Hf1), (IH2 Hf2). reflexivity.
Qed.

Lemma modify_node_unfold visit readable path a k m t c s :
  modify_node visit readable path (Node a k m t c s) =
  match visit (path ++ [a]) (Node a k m t c s) with
  | ANode n' ch => (Some n', ch)
  | ARemoved => (None, true)
  | ACreate n' => (Some (set_sub n' []), true)
  | AVisit n' ch =>
      match modify_tree visit readable (path ++ [a]) s with
      | Removed => (None, true)
      | Unchanged => (Some n', ch)
      | Changed s' => (Some (set_sub n' s'), true)
      end
  end.
Proof. reflexivity. Qed.

Lemma modify_node_visit_flag visit readable path a k m t c s n' ch :
  visit (path ++ [a]) (Node a k m t c s) = AVisit n' ch ->
  snd (modify_node visit readable path (Node a k m t c s)) = false ->
  ch = false /\ modify_tree visit readable (path ++ [a]) s = Unchanged.
Proof.
  intros Hv. rewrite modify_node_unfold, Hv.
  destruct (modify_tree visit readable (path ++ [a]) s); cbn [snd]; intro H; try discriminate. auto.
Qed.

(* n_sub n' = s: on Unchanged the modifier returns n' as the visitor gave it, subtree included *)
Lemma modify_node_visit visit readable path a k m t c s n' ch :
  visit (path ++ [a]) (Node a k m t c s) = AVisit n' ch -> n_sub n' = s ->
  fst (modify_node visit readable path (Node a k m t c s)) =
    Some (set_sub n' (result_tree s (modify_tree visit readable (path ++ [a]) s))).
Proof.
  intros Hv Hs. rewrite modify_node_unfold, Hv.
  pose proof (finish_not_removed (readable s) s (fold_nodes (modify_node visit readable (path ++ [a])) s)) as Hnr.
  fold (modify_tree visit readable (path ++ [a]) s) in Hnr.
  destruct (modify_tree visit readable (path ++ [a]) s); [congruence | reflexivity |]; cbn [fst result_tree].
  rewrite <- Hs, set_sub_id. reflexivity.
Qed.

Section RewriteProofs.
  Variable excl : list N -> bool -> bool.
  Variable modn : node -> node * bool.
  (* NodeModification keeps name, type and subtree (it only touches metadata; what it does to the rest does
     not matter here); an unflagged node is unchanged *)
  Hypothesis Hframe : forall n, n_name (fst (modn n)) = n_name n /\ n_kind (fst (modn n)) = n_kind n /\
                                n_sub (fst (modn n)) = n_sub n.
  Hypothesis Hflag : forall n, snd (modn n) = false -> fst (modn n) = n.

  (* the declarative result: drop a node iff its path is matched; keep every other node (modified by
     modn only), directories with their pruned subtree *)
  Fixpoint prune_node (path : list N) (n : node) {struct n} : option node :=
    match n with
    | Node a k m t c s =>
        let p := path ++ [a] in
        if excl p (is_dir (Node a k m t c s)) then None
        else let n' := fst (modn (Node a k m t c s)) in
             match k with
             | KDir => Some (set_sub n' (flat_map (fun x => opt_list (prune_node p x)) s))
             | _ => Some n'
             end
    end.
  Definition prune (path : list N) (t : tree) : tree := flat_map (fun x => opt_list (prune_node path x)) t.

  Let mn := modify_node (rw_visit excl modn) (fun _ => true).
  Let mt := modify_tree (rw_visit excl modn) (fun _ => true).

  Lemma rw_visit_unfold p n :
    rw_visit excl modn p n =
    if excl p (is_dir n) then ARemoved
    else match n_kind (fst (modn n)) with
         | KDir => AVisit (fst (modn n)) (snd (modn n))
         | _ => ANode (fst (modn n)) (snd (modn n))
         end.
  Proof. unfold rw_visit. destruct (modn n); reflexivity. Qed.

  Lemma prune_node_name path n n' : prune_node path n = Some n' -> n_name n' = n_name n.
  Proof.
    destruct n as [a k m t c s]. cbn [prune_node]. destruct (excl _ _); [discriminate|].
    destruct (Hframe (Node a k m t c s)) as [F1 _]. destruct k; intro H; inv H; rewrite ?set_sub_name; exact F1.
  Qed.

  Lemma prune_sorted path s : sorted s -> sorted (prune path s).
  Proof.
    unfold prune. induction s as [|n r IH]; intro Hs; [reflexivity|]. apply sorted_cons in Hs as [Hlt Hr].
    cbn [flat_map]. destruct (prune_node path n) as [n'|] eqn:E; cbn [opt_list app]; [|apply IH; exact Hr].
    apply sorted_cons. split; [|apply IH; exact Hr]. intros y Hy. apply in_flat_map in Hy as [x [Hx Hy]].
    destruct (prune_node path x) as [y'|] eqn:Ex; [|destruct Hy]. destruct Hy as [<-|[]].
    rewrite (prune_node_name _ _ _ E), (prune_node_name _ _ _ Ex). apply Hlt. exact Hx.
  Qed.

  Lemma rw_tree_value path s : sorted s ->
    (forall x, In x s -> fst (mn path x) = prune_node path x /\ (snd (mn path x) = false -> prune_node path x = Some x)) ->
    result_tree s (mt path s) = prune path s.
  Proof.
    intros Hs H. apply fold_nodes_spec in H as [H1 H2]. unfold mt, modify_tree. fold (mn path).
    destruct (fold_nodes (mn path) s) as [nt ch]. cbn [fst snd] in *.
    rewrite finish_value. destruct ch; [|symmetry; apply H2; reflexivity].
    rewrite H1. apply sort_sorted_id, prune_sorted, Hs.
  Qed.

  Lemma rw_node_value : forall n, wf_node n = true -> forall path,
    fst (mn path n) = prune_node path n /\ (snd (mn path n) = false -> prune_node path n = Some n).
  Proof.
    induction n as [a k m t c s IH] using node_ind'. intros Hwf path.
    assert (result_tree s (mt (path ++ [a]) s) = prune (path ++ [a]) s) as Hsub.
    { cbn [wf_node] in Hwf. rewrite !andb_true_iff, forallb_forall in Hwf. destruct Hwf as [[_ Hss] Hwfc].
      apply rw_tree_value; [exact Hss|]. intros x Hx. apply (IH x Hx (Hwfc x Hx)). }
    destruct (Hframe (Node a k m t c s)) as [F1 [F2 F4]]. cbn [n_kind n_sub] in F2, F4.
    pose proof (Hflag (Node a k m t c s)) as Hfl.
    pose proof (rw_visit_unfold (path ++ [a]) (Node a k m t c s)) as Hv. rewrite F2 in Hv.
    unfold mn. cbn [prune_node]. fold (prune (path ++ [a]) s).
    destruct (excl (path ++ [a]) (is_dir (Node a k m t c s))).
    { rewrite modify_node_unfold, Hv. split; [reflexivity | discriminate]. }
    destruct k; try (rewrite modify_node_unfold, Hv; split; [reflexivity | cbn [snd]; intro Hc; f_equal; apply Hfl; exact Hc]).
    rewrite (modify_node_visit _ (fun _ => true) path a KDir m t c s _ _ Hv F4). fold mt. rewrite Hsub. split; [reflexivity|].
    intro Hc. destruct (modify_node_visit_flag _ _ path a KDir m t c s _ _ Hv Hc) as [Hch Hu]. fold mt in Hu.
    rewrite Hu in Hsub. cbn [result_tree] in Hsub.
    rewrite <- Hsub, (Hfl Hch). reflexivity.
  Qed.

  Lemma rewrite_value path t : wf_tree t = true -> path = [] \/ excl path true = false ->
    result_tree t (rewrite_tree excl modn path t) = prune path t.
  Proof.
    intros Hwf Hroot. unfold wf_tree in Hwf. apply andb_true_iff in Hwf. destruct Hwf as [Hs Hwf]. rewrite forallb_forall in Hwf.
    assert (result_tree t (mt path t) = prune path t) as H.
    { apply rw_tree_value; [exact Hs|]. intros x Hx. apply rw_node_value, Hwf, Hx. }
    unfold rewrite_tree. change rewrite_root_is_matched with false. cbn [andb].
    destruct Hroot as [-> | Hroot]; [exact H|]. destruct path; [exact H|]. rewrite Hroot. exact H.
  Qed.

  (* path view of `prune`: the kept (path, node) pairs — a node is listed iff neither it nor an ancestor
     directory is matched *)
  Fixpoint kept_node (path : list N) (n : node) {struct n} : list (list N * node) :=
    match n with
    | Node a k m t c s =>
        let p := path ++ [a] in
        if excl p (is_dir (Node a k m t c s)) then []
        else (p, Node a k m t c s) :: match k with KDir => flat_map (kept_node p) s | _ => [] end
    end.
  Definition kept (path : list N) (t : tree) := flat_map (kept_node path) t.

  (* a node without its subtree: what `ls` shows apart from the subtree id *)
  Definition strip (n : node) : node := set_sub n [].
  Definition strip_mod (n : node) : node := strip (fst (modn n)).

  Lemma strip_set_sub n s : strip (set_sub n s) = strip n. Proof. destruct n; reflexivity. Qed.

  Lemma prune_paths : forall t path,
    map (fun pn => (fst pn, strip (snd pn))) (paths path (prune path t)) =
    map (fun pn => (fst pn, strip_mod (snd pn))) (kept path t).
  Proof.
    induction t as [|[a k m t c s] r IHs IHr] using tree_ind'; intro path; [reflexivity|].
    unfold prune, kept, paths in *. cbn [flat_map]. rewrite flat_map_app, !map_app, IHr. f_equal.
    cbn [prune_node kept_node n_sub] in *.
    destruct (excl (path ++ [a]) (is_dir (Node a k m t c s))); [reflexivity|].
    destruct (Hframe (Node a k m t c s)) as [F1 [F2 F4]].
    assert (strip_mod (Node a k m t c s) = strip (fst (modn (Node a k m t c s)))) as Hsm by reflexivity.
    destruct (fst (modn (Node a k m t c s))) as [a' k' m' t' c' s'] eqn:Em.
    cbn [n_name n_kind n_sub] in F1, F2, F4. subst a' k' s'.
    destruct k; cbn [opt_list flat_map app set_sub paths_node map fst snd]; rewrite ?app_nil_r, ?Hsm; try reflexivity.
    f_equal. apply IHs.
  Qed.
End RewriteProofs.
