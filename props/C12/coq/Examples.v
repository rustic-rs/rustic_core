(* C12 — the hypotheses of the theorems are satisfiable, and the functions do what the comments say
   on small inputs (vm_compute). *)
From Verif.Base Require Import Tactics.
From Verif.C12 Require Import Extracted Model Proofs Proofs2 Proofs3 Proofs4 Proofs5 Proofs6.
From Verif.C08 Require Model Spec Repack.
From Verif.C13 Require Extracted Model.
Local Open Scope N_scope.

Definition f (a mt tag : N) (c : list N) := Node a KFile mt tag c [].
Definition d (a mt tag : N) (s : tree) := Node a KDir mt tag [] s.
Definition l (a mt tag : N) := Node a KSymlink mt tag [] [].

(* two snapshots: name 1 is a file in the first and a directory in the second (newer); name 2 is a
   directory in both (equal mtime: the later input wins the tie, subtrees are merged) *)
Definition t1 : tree := [f 1 5 11 [3]; d 2 5 12 [f 7 6 13 [4]]].
Definition t2 : tree := [d 1 7 14 [f 9 5 15 []]; d 2 5 16 [f 7 9 17 [8]; l 8 1 18]].

Example cmp_mtime_preorder : preorder cmp_mtime.
Proof. unfold preorder, cmp_mtime. repeat split; intros *; rewrite ?N.compare_le_iff, ?N.compare_gt_iff; lia. Qed.
Example sched_id_perm : forall l, Permutation (sched_id l) l.
Proof. intro. apply Permutation_refl. Qed.
Example sched_rev_perm : forall l, Permutation (sched_rev l) l.
Proof. intro. apply Permutation_sym. apply Permutation_rev. Qed.
Example inputs_wf : Forall (fun t => wf_tree t = true) [t1; t2].
Proof. repeat constructor. Qed.

Example merge_example :
  merge cmp_mtime sched_id [t1; t2] =
  [d 1 7 14 [f 9 5 15 []]; d 2 5 16 [f 7 9 17 [8]; l 8 1 18]].
Proof. vm_compute. reflexivity. Qed.
(* with the inputs swapped the tie on name 2 goes to the other directory node; the file/dir clash on
   name 1 is still decided by the mtime *)
Example merge_example_swapped :
  merge cmp_mtime sched_id [t2; t1] =
  [d 1 7 14 [f 9 5 15 []]; d 2 5 12 [f 7 9 17 [8]; l 8 1 18]].
Proof. vm_compute. reflexivity. Qed.
(* a file that wins over a directory hides everything below the directory *)
Example merge_file_wins :
  merge cmp_mtime sched_id [[f 1 9 11 [3]]; [d 1 7 14 [f 9 5 15 []]]] = [f 1 9 11 [3]] /\
  lookup (merge cmp_mtime sched_id [[f 1 9 11 [3]]; [d 1 7 14 [f 9 5 15 []]]]) [1; 9] = None /\
  cands [[f 1 9 11 [3]]; [d 1 7 14 [f 9 5 15 []]]] [1; 9] <> [].
Proof. vm_compute. repeat split. discriminate. Qed.

(* rewrite: exclude path [2;7] and everything named 9 *)
Definition ex_excl (p : list N) (_ : bool) : bool :=
  list_eqb N.eqb p [2; 7] || match rev p with 9 :: _ => true | _ => false end.
Definition ex_modn (n : node) : node * bool := (n, false).
Example rewrite_example :
  result_tree t2 (rewrite_tree ex_excl ex_modn [] t2) = [d 1 7 14 []; d 2 5 16 [l 8 1 18]] /\
  map fst (kept ex_excl [] t2) = [[1]; [2]; [2; 8]].
Proof. vm_compute. split; reflexivity. Qed.
(* a glob that matches everything, the empty root path included (`!*`): the root itself is not excludable,
   its entries go one by one, the snapshot gets the empty tree (before the fix: Removed, snapshot unchanged) *)
Example rewrite_example_everything_excluded :
  rewrite_tree (fun _ _ => true) ex_modn [] t2 = Changed [].
Proof. vm_compute. reflexivity. Qed.
Example rewrite_example_nothing_excluded :
  rewrite_tree (fun _ _ => false) ex_modn [] t2 = Unchanged.
Proof. vm_compute. reflexivity. Qed.
Example ex_modn_frame : (forall n, n_name (fst (ex_modn n)) = n_name n /\ n_kind (fst (ex_modn n)) = n_kind n /\
                                   n_content (fst (ex_modn n)) = n_content n /\ n_sub (fst (ex_modn n)) = n_sub n) /\
                        (forall n, snd (ex_modn n) = false -> fst (ex_modn n) = n).
Proof. split; intros; cbn; auto. Qed.

(* repair: chunk 4 is lost; the subtree of directory 1 is unreadable *)
Definition ex_has (i : N) : bool := negb (i =? 4).
Definition ex_mark (a : N) : N := a + 100.
Definition ex_resize (t : N) (_ : list N) : N := t.
Definition ex_readable (t : tree) : bool := negb (tree_eqb t [f 9 5 15 []]).
Definition t3 : tree := [d 1 7 14 [f 9 5 15 []]; d 2 5 12 [f 7 6 13 [4; 8]; f 8 6 19 [8]]].
(* the marked file 7 -> 107 moves behind its sibling 8: the changed tree is sorted again.  Without the sort
   (before fix "TreeModifier keeps a changed tree sorted by name") the tree was [107; 8], and merging such a
   tree with itself lists names twice (merge_loop_unsorted_duplicates) *)
Example repair_example :
  result_tree t3 (repair_tree ex_has ex_mark ex_resize ex_readable t3) =
  [d 1 7 14 []; d 2 5 12 [f 8 6 19 [8]; f 107 6 13 [8]]].
Proof. vm_compute. reflexivity. Qed.
Example repair_intact_example :
  intact (fun _ => true) (fun _ => true) t3 = true /\
  repair_tree (fun _ => true) ex_mark ex_resize (fun _ => true) t3 = Unchanged.
Proof. vm_compute. split; reflexivity. Qed.

(* copy: the empty tree's id collides with a data blob id (both 0 under this toy id function) *)
Definition ex_tid (t : tree) : N := N.of_nat (length t).
Definition t4 : tree := [f 1 5 11 [0; 3]; d 2 5 12 []].
Example copy_example :
  reach ex_tid t4 = [(Tree, 2); (Data, 0); (Data, 3); (Tree, 0)] /\
  needed ex_tid (reach ex_tid t4) [(Data, 0)] [t4] = [(Tree, 2); (Data, 3); (Tree, 0)] /\
  copy_order (needed ex_tid (reach ex_tid t4) [(Data, 0)] [t4]) = [(Data, 3); (Tree, 2); (Tree, 0)].
Proof. vm_compute. repeat split. Qed.

(* The loop as written (merge_loop, exact BinaryHeap) on inputs that are NOT sorted in the compared order
   — the situation of backup-written trees before fix 54f57aa when names need escaping (here: rank 2 =
   "x\ty" escaped, rank 1 = "xAy"; the tree is stored in raw order [2; 1]): merging the tree with itself
   lists every name twice.  Replayed on the real code (corpus.txt line 1 before the fix; M cases with
   unsorted inputs in every run). *)
Definition t_unsorted : tree := [f 2 5 11 []; f 1 5 12 []].
Example merge_loop_unsorted_duplicates :
  merge_loop cmp_mtime [t_unsorted; t_unsorted] = [f 2 5 11 []; f 1 5 12 []; f 2 5 11 []; f 1 5 12 []].
Proof. vm_compute. reflexivity. Qed.
(* on sorted inputs the loop and the abstract k-way merge agree (here; tested on every generated case) *)
Example merge_loop_sorted_agrees :
  merge_loop cmp_mtime [t1; t2] = merge cmp_mtime sched_id [t1; t2] /\
  merge_loop cmp_mtime [t2; t1] = merge cmp_mtime sched_id [t2; t1].
Proof. vm_compute. split; reflexivity. Qed.

(* copy_closed: a complete run of the C13 pipeline for the two blobs copy needs here (one data blob, the
   root tree): data through its packer, then the tree through the other one, both ending indexed *)
Module X13 := Verif.C13.Model.
Definition t5 : tree := [f 1 5 11 [3]].
Definition ex_run : list X13.ev :=
  [X13.Send X13.Data 3; X13.Adv X13.Data 0; X13.Adv X13.Data 0; X13.Adv X13.Data 0; X13.Adv X13.Data 0; X13.Adv X13.Data 0;
   X13.Flush X13.Data; X13.WriteP X13.Data; X13.IndexP X13.Data;
   X13.Send X13.Tree 1; X13.Adv X13.Tree 0; X13.Adv X13.Tree 0; X13.Adv X13.Tree 0; X13.Adv X13.Tree 0; X13.Adv X13.Tree 0;
   X13.Flush X13.Tree; X13.WriteP X13.Tree; X13.IndexP X13.Tree].
Example copy_closed_hypotheses :
  needed ex_tid (reach ex_tid t5) [] [t5] = [(Tree, 1); (Data, 3)] /\
  exists s, X13.run X13.init ex_run = Some s /\ X13.final s = true /\
            (forall b, In b (needed ex_tid (reach ex_tid t5) [] [t5]) -> In (conv b) (X13.requested s)) /\
            indexed_blobs s = [(Data, 3); (Tree, 1)].
Proof.
  split; [vm_compute; reflexivity|]. eexists. split; [vm_compute; reflexivity|]. split; [vm_compute; reflexivity|].
  split; [|vm_compute; reflexivity]. intros b Hb. vm_compute in Hb. vm_compute. destruct Hb as [<-|[<-|[]]]; auto.
Qed.

(* merge_loop_paths / merge_loop_sorted: the loop over the simple priority queue on the example inputs *)
Example merge_loop_simple_pq :
  merge_loop_gen cmp_mtime (fun h x => x :: h) Proofs4.pop_min [t1; t2] = merge cmp_mtime sched_id [t1; t2].
Proof. vm_compute. reflexivity. Qed.

(* a destination holding the root tree of the snapshot but not the data below it (partial closure):
   the walk starts from every snapshot root, so the data blob is still found and requested *)
Example copy_partial_closure :
  copy_walk_from_all_snapshot_trees = true /\
  needed ex_tid (reach ex_tid t5) [(Tree, 1)] [t5] = [(Data, 3)].
Proof. vm_compute. split; reflexivity. Qed.

(* the BinaryHeap transcription on a heap-ordered vector: push three, pop the least *)
Definition hn (a : N) : hnode := (f a 1 1 [], []).
Example heap_example :
  heap_ok (heap_push (heap_push (heap_push [] (hn 5)) (hn 3)) (hn 4)) /\
  option_map (fun r => n_name (fst (fst r))) (heap_pop (heap_push (heap_push (heap_push [] (hn 5)) (hn 3)) (hn 4))) = Some 3.
Proof.
  split; [|vm_compute; reflexivity]. repeat apply heap_push_ok. apply heap_ok_nil.
Qed.

(* copy_preserves_content: one blob copied out of a two-blob source pack (decoders = identity, destination
   blob encoding = a 1-byte frame, header encryption = 16 + 16 bytes) *)
Module E8 := Verif.C08.Model.
Module ER := Verif.C08.Repack.
Example copy_preserves_content_hypotheses :
  let p1 := repeat 1 32 in
  let sstore := fun p => if E8.bytes_eqb p p1 then Some [10; 11; 12; 13; 14] else None in
  let es := [ER.mkce p1 (ER.mkloc 2 3 None) (repeat 8 32)] in
  let denc := fun x => 99 :: x in
  let enc := fun x => repeat 0 16 ++ x ++ repeat 0 16 in
  exists out packs,
    NoDup (map ER.ce_id es) /\
    ER.repack true sstore (fun d _ => Some d) es = E8.Ok out /\
    Forall Verif.C08.Spec.wf_op (Proofs6.dest_ops denc (fun _ => None) out [true]) /\
    E8.packer_run enc E8.Data (Proofs6.dest_ops denc (fun _ => None) out [true]) = E8.Ok packs /\
    length packs = 1%nat.
Proof.
  cbv zeta. eexists. eexists. split; [repeat constructor; intros []|].
  split; [vm_compute; reflexivity|]. split; [repeat constructor; cbn; lia|].
  split; [vm_compute; reflexivity | reflexivity].
Qed.

(* copy_closed_relative: a source that lost data blob 3: only the tree is requested *)
Example copy_damaged_source :
  needed ex_tid [(Tree, 1)] [] [t5] = [(Tree, 1)].
Proof. vm_compute. reflexivity. Qed.
