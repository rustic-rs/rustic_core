(* C12 — merge_trees / merge_nodes (blob/tree.rs).  One level of a merged tree is the image under
   merge_nodes of the name classes of the inputs' nodes, in increasing name order (`is_level`); every
   merge function whose levels have that shape meets the path specification (`paths_spec`).  At the
   end: merging copies of one tree returns the tree. *)
From Verif.Base Require Import Tactics Lists Sorting.
From Verif.C12 Require Import Model.
Local Open Scope N_scope.

Definition namep (x : N) (n : node) : bool := n_name n =? x.
Definition group (x : N) (ts : list tree) : list node := flat_map (filter (namep x)) ts.
Definition sorted (t : tree) : Prop := sorted_names (map n_name t) = true.
Definition opt_list {A} (o : option A) : list A := match o with Some a => [a] | None => [] end.
(* the nodes found at path p in the inputs (descending through directories only) *)
Definition cands (ts : list tree) (p : list N) : list node := flat_map (fun t => opt_list (lookup t p)) ts.
(* the subtrees merge_nodes hands to the recursive merge *)
Definition subdirs (g : list node) : list tree := map n_sub (filter is_dir g).

(* cmp is a total preorder: what `max_by` needs to return a greatest element *)
Definition preorder (cmp : node -> node -> comparison) : Prop :=
  (forall a, cmp a a <> Gt) /\
  (forall a b, cmp a b = Gt -> cmp b a <> Gt) /\
  (forall a b c, cmp a b <> Gt -> cmp b c <> Gt -> cmp a c <> Gt).

Lemma total_len_concat ts : total_len ts = length (concat ts).
Proof. induction ts as [|t ts IH]; [reflexivity|]. cbn [concat]. rewrite app_length, <- IH. reflexivity. Qed.

Lemma total_len_perm l l' : Permutation l l' -> total_len l = total_len l'.
Proof. induction 1; unfold total_len in *; cbn [fold_right] in *; lia. Qed.

Lemma find_some_in {A} (f : A -> bool) l a : find f l = Some a -> In a l /\ f a = true.
Proof. apply find_some. Qed.

Lemma sorted_nil : sorted []. Proof. reflexivity. Qed.

Lemma sorted_cons n r : sorted (n :: r) <-> (forall x, In x r -> n_name n < n_name x) /\ sorted r.
Proof.
  (* sorted_names is Sorting.chain at N.ltb: the same fix *)
  unfold sorted. change sorted_names with (chain N.ltb). rewrite !chain_map, chain_cons_iff by (intros; lia).
  split; intros [H Hr]; (split; [|exact Hr]); intros x Hx; specialize (H x Hx); lia.
Qed.

(* names are unique on a sorted level: `find` sees all there is *)
Lemma find_filter_sorted x t : sorted t -> filter (namep x) t = opt_list (find (namep x) t).
Proof.
  induction t as [|n r IH]; intro Hs; [reflexivity|]. apply sorted_cons in Hs as [Hlt Hr]. cbn [find filter].
  destruct (namep x n) eqn:E; [|apply IH; exact Hr].
  cbn [opt_list]. f_equal. apply (filter_const _ false). intros y Hy. specialize (Hlt y Hy). unfold namep in *. lia.
Qed.

Lemma find_sorted_in t n : sorted t -> In n t -> find (namep (n_name n)) t = Some n.
Proof.
  intros Hs Hn. assert (In n (filter (namep (n_name n)) t)) as H by (apply filter_In; split; [exact Hn | apply N.eqb_refl]).
  rewrite (find_filter_sorted _ t Hs) in H. destruct (find _ t); [destruct H as [<-|[]]; reflexivity | destruct H].
Qed.

Lemma group_in x ts y : In y (group x ts) <-> In y (concat ts) /\ n_name y = x.
Proof.
  unfold group. rewrite flat_map_concat_map, concat_filter_map, filter_In. unfold namep.
  split; intros [H E]; (split; [exact H | lia]).
Qed.

(* what holds of every subtree in the inputs holds of the subtrees a name class hands down *)
Lemma group_subdirs (P : tree -> Prop) ts x g : (forall y, In y g <-> In y (group x ts)) ->
  (forall t n, In t ts -> In n t -> P (n_sub n)) -> Forall P (subdirs g).
Proof.
  intros Hg H. apply Forall_forall. intros s Hs. apply in_map_iff in Hs as [m [<- Hm]]. apply filter_In in Hm as [Hm _].
  apply Hg, group_in in Hm as [Hm _]. apply in_concat in Hm as [t [Ht Hm]]. exact (H t m Ht Hm).
Qed.

Lemma set_sub_name w s : n_name (set_sub w s) = n_name w. Proof. destruct w; reflexivity. Qed.
Lemma set_sub_is_dir w s : is_dir (set_sub w s) = is_dir w. Proof. destruct w; reflexivity. Qed.
Lemma set_sub_sub w s : n_sub (set_sub w s) = s. Proof. destruct w; reflexivity. Qed.
Lemma set_sub_id w : set_sub w (n_sub w) = w. Proof. destruct w; reflexivity. Qed.

Lemma node_ind' (P : node -> Prop) :
  (forall a k m t c s, (forall x, In x s -> P x) -> P (Node a k m t c s)) -> forall n, P n.
Proof.
  intro H. fix IH 1. intros [a k m t c s]. apply H.
  induction s as [|x s IHs]; [intros y []|]. intros y [<-|Hy]; [apply IH | apply IHs; exact Hy].
Qed.

(* trees by first child and next sibling: one induction for statements about whole levels *)
Lemma tree_ind' (Q : list node -> Prop) :
  Q [] -> (forall n r, Q (n_sub n) -> Q r -> Q (n :: r)) -> forall t, Q t.
Proof.
  intros H0 Hc. assert (forall n, Q (n_sub n)) as H.
  { induction n as [a k m t c s IH] using node_ind'. cbn [n_sub]. induction s as [|x s IHs]; [exact H0|].
    apply Hc; [apply IH; left; reflexivity | apply IHs; intros y Hy; apply IH; right; exact Hy]. }
  intro t. exact (H (Node 0 KFile 0 0 [] t)).
Qed.

Lemma fold_max_le {A} (f : A -> nat) l a :
  In a l -> (f a <= fold_right (fun x acc => Nat.max (f x) acc) O l)%nat.
Proof.
  induction l as [|b l IH]; [intros []|]. intros [->|H]; cbn [fold_right]; [lia | specialize (IH H); lia].
Qed.

Lemma depth_in t n : In n t -> (depth_node n <= depth t)%nat.
Proof. apply fold_max_le. Qed.
Lemma depths_in ts t : In t ts -> (depth t <= depths ts)%nat.
Proof. apply fold_max_le. Qed.
Lemma depths_le ts d : (forall t, In t ts -> (depth t <= d)%nat) -> (depths ts <= d)%nat.
Proof.
  induction ts as [|a r IH]; intro H; [cbn; lia|]. cbn [depths fold_right].
  pose proof (H a (or_introl eq_refl)). assert (depths r <= d)%nat by (apply IH; intros; apply H; right; assumption).
  unfold depths in *. lia.
Qed.
Lemma depth_sub n : (S (depth (n_sub n)) = depth_node n)%nat.
Proof. destruct n. reflexivity. Qed.
Lemma depth_O t : (depth t <= 0)%nat -> t = [].
Proof.
  intro H. destruct t as [|n r]; [reflexivity|].
  pose proof (depth_in (n :: r) n (or_introl eq_refl)). pose proof (depth_sub n). lia.
Qed.
Lemma depth_sub_le d t n : (depth t <= S d)%nat -> In n t -> (depth (n_sub n) <= d)%nat.
Proof. intros H Hn. pose proof (depth_in _ _ Hn). pose proof (depth_sub n). lia. Qed.

Definition wft (t : tree) : Prop := wf_tree t = true.
Lemma wft_sorted t : wft t -> sorted t.
Proof. unfold wft, wf_tree, sorted. intro H. apply andb_true_iff in H. apply H. Qed.
Lemma wft_all_sorted ts : Forall wft ts -> Forall sorted ts.
Proof. apply Forall_impl, wft_sorted. Qed.

(* what a merge of recursion depth d can take in *)
Definition fits (d : nat) (t : tree) : Prop := wft t /\ (depth t <= d)%nat.
Lemma wft_sub t n : wft t -> In n t -> wft (n_sub n).
Proof.
  unfold wft, wf_tree. intros H Hn. apply andb_true_iff in H as [_ H].
  rewrite forallb_forall in H. specialize (H n Hn). destruct n as [a k m tg c s]. cbn [wf_node n_sub] in *.
  apply andb_true_iff in H as [H H2]. apply andb_true_iff in H as [_ H1]. rewrite H1, H2. reflexivity.
Qed.
Lemma fits_sub d t n : fits (S d) t -> In n t -> fits d (n_sub n).
Proof. intros [Hw Hd] Hn. exact (conj (wft_sub t n Hw Hn) (depth_sub_le d t n Hd Hn)). Qed.

Lemma min_name_spec ts :
  match min_name ts with
  | Some m => (exists n r, In (n :: r) ts /\ n_name n = m) /\ forall n r, In (n :: r) ts -> m <= n_name n
  | None => forall t, In t ts -> t = []
  end.
Proof.
  induction ts as [|[|n r] ts IH]; cbn [min_name head_name].
  - intros t [].
  - destruct (min_name ts) as [b|].
    + destruct IH as [[n [r [Hin E]]] Hlb]. split; [exists n, r; split; [right|]; assumption|].
      intros n0 r0 [H|H]; [discriminate | apply (Hlb _ _ H)].
    + intros t [<-|H]; [reflexivity | apply IH; exact H].
  - destruct (min_name ts) as [b|].
    + destruct IH as [[n' [r' [Hin E]]] Hlb]. split.
      * destruct (N.le_ge_cases (n_name n) b);
          [exists n, r; split; [left; reflexivity | lia] | exists n', r'; split; [right; exact Hin | lia]].
      * intros n0 r0 [H|H]; [inv H; lia | specialize (Hlb _ _ H); lia].
    + split; [exists n, r; split; [left|]; reflexivity|].
      intros n0 r0 [H|H]; [inv H; lia | discriminate (IH _ H)].
Qed.

Lemma take_drop m t : take_head m t ++ drop_head m t = t.
Proof. destruct t as [|n r]; [reflexivity|]. cbn [take_head drop_head]. destruct (n_name n =? m); reflexivity. Qed.

Lemma heads_drops_perm m ts : Permutation (heads m ts ++ concat (drops m ts)) (concat ts).
Proof.
  unfold heads, drops. induction ts as [|t ts IH]; [apply Permutation_refl|]. cbn [flat_map map concat].
  rewrite <- (take_drop m t) at 3. rewrite <- !app_assoc. apply Permutation_app_head.
  eapply Permutation_trans; [apply Permutation_app_swap_app|]. apply Permutation_app_head. exact IH.
Qed.

Lemma heads_name m ts y : In y (heads m ts) -> n_name y = m.
Proof.
  intro H. apply in_flat_map in H as [[|n r] [_ H]]; [destruct H|]. cbn [take_head] in H.
  destruct (n_name n =? m) eqn:E; [|destruct H]. destruct H as [<-|[]]. lia.
Qed.

Lemma heads_in m ts n r : In (n :: r) ts -> n_name n = m -> In n (heads m ts).
Proof.
  intros Hin E. apply in_flat_map. exists (n :: r). split; [exact Hin|]. cbn [take_head].
  rewrite E, N.eqb_refl. left. reflexivity.
Qed.

Lemma heads_nonempty m ts : min_name ts = Some m -> heads m ts <> [].
Proof.
  intro Hm. pose proof (min_name_spec ts) as H. rewrite Hm in H. destruct H as [[n [r [Hin E]]] _].
  intro E0. apply (in_nil (a := n)). rewrite <- E0. exact (heads_in m ts n r Hin E).
Qed.

Lemma drops_sorted m ts : Forall sorted ts -> Forall sorted (drops m ts).
Proof.
  intro H. unfold drops. apply Forall_map. revert H. apply Forall_impl. intros [|n r] Hs; [exact Hs|]. cbn [drop_head].
  destruct (n_name n =? m); [apply (sorted_cons n r), Hs | exact Hs].
Qed.

Lemma drops_spec m ts : Forall sorted ts -> (forall n r, In (n :: r) ts -> m <= n_name n) ->
  Forall sorted (drops m ts) /\ forall n r, In (n :: r) (drops m ts) -> N.succ m <= n_name n.
Proof.
  intros Hs Hlb. split; [apply drops_sorted; exact Hs|]. rewrite Forall_forall in Hs.
  intros n r Hin. apply in_map_iff in Hin as [[|a q] [E Ht]]; [discriminate|].
  specialize (Hs _ Ht). specialize (Hlb a q Ht). cbn [drop_head] in E. destruct (n_name a =? m) eqn:E1.
  - subst q. apply sorted_cons in Hs as [Hlt _]. specialize (Hlt n (or_introl eq_refl)). lia.
  - inv E. lia.
Qed.

Lemma total_len_drops_lt m ts n r : In (n :: r) ts -> n_name n = m ->
  (total_len (drops m ts) < total_len ts)%nat.
Proof.
  intros Hin E. pose proof (Permutation_length (heads_drops_perm m ts)) as Hl.
  rewrite app_length, <- !total_len_concat in Hl. pose proof (heads_in m ts n r Hin E) as Hh.
  destruct (heads m ts); [destruct Hh | cbn [length] in Hl; lia].
Qed.

Section Level.
  Variable cmp : node -> node -> comparison.

  Lemma fold_max_step_in r : forall x, In (fold_left (max_step cmp) r x) (x :: r).
  Proof.
    induction r as [|y r IH]; intro x; [left; reflexivity|]. cbn [fold_left].
    destruct (IH (max_step cmp x y)) as [H|H]; [|right; right; exact H].
    rewrite <- H. unfold max_step. destruct (cmp x y); [right; left | right; left | left]; reflexivity.
  Qed.

  Lemma max_by_in g w : max_by cmp g = Some w -> In w g.
  Proof. destruct g as [|x r]; [discriminate|]. intro H. inv H. apply fold_max_step_in. Qed.

  Lemma max_by_max (Hp : preorder cmp) g w : max_by cmp g = Some w -> forall y, In y g -> cmp y w <> Gt.
  Proof.
    destruct Hp as [Hrefl [Hasym Htrans]]. destruct g as [|x r]; [discriminate|]. intro H. inv H.
    revert x. induction r as [|z r IH]; intros x y Hy; cbn [fold_left].
    - destruct Hy as [<-|[]]. apply Hrefl.
    - (* both x and z are below max_step x z, which is below the maximum of the rest *)
      assert (cmp x (max_step cmp x z) <> Gt /\ cmp z (max_step cmp x z) <> Gt) as [Hx Hz].
      { unfold max_step. destruct (cmp x z) eqn:E; (split; [try apply Hrefl; congruence|]); try apply Hrefl.
        apply Hasym. exact E. }
      pose proof (IH (max_step cmp x z) _ (or_introl eq_refl)) as Hm.
      destruct Hy as [<-|[<-|Hy]]; [eapply Htrans; eassumption | eapply Htrans; eassumption | apply IH; right; exact Hy].
  Qed.

  Lemma merge_nodes_some rec g n : merge_nodes cmp rec g = Some n ->
    exists w, max_by cmp g = Some w /\ n = if is_dir w then set_sub w (rec (subdirs g)) else w.
  Proof. unfold merge_nodes. destruct (max_by cmp g) as [w|]; [|discriminate]. intro H. inv H. exists w. auto. Qed.

  Lemma max_by_none g : max_by cmp g = None -> g = [].
  Proof. destruct g; [reflexivity | discriminate]. Qed.

  Lemma merge_nodes_none rec g : merge_nodes cmp rec g = None -> g = [].
  Proof. unfold merge_nodes. destruct (max_by cmp g) eqn:E; [discriminate | intros _; exact (max_by_none g E)]. Qed.

  Lemma merge_nodes_named rec g m : g <> [] -> (forall y, In y g -> n_name y = m) ->
    exists n, merge_nodes cmp rec g = Some n /\ n_name n = m.
  Proof.
    intros Hne Hm. destruct (merge_nodes cmp rec g) as [n|] eqn:E; [|apply merge_nodes_none in E; contradiction].
    exists n. split; [reflexivity|]. apply merge_nodes_some in E as [w [Hmax ->]].
    rewrite <- (Hm w (max_by_in _ _ Hmax)). destruct (is_dir w); [apply set_sub_name | reflexivity].
  Qed.

  Definition level_of (rec : list tree -> tree) (gs : list (list node)) : tree :=
    flat_map (fun g => opt_list (merge_nodes cmp rec g)) gs.

  (* name classes in strictly increasing order, names from lb on *)
  Fixpoint classes (lb : N) (gs : list (list node)) : Prop :=
    match gs with
    | [] => True
    | g :: gs' => g <> [] /\ exists m, lb <= m /\ (forall y, In y g -> n_name y = m) /\ classes (N.succ m) gs'
    end.

  (* out is a merged level of the inputs ts: every node of every input is in exactly one class *)
  Definition is_level (rec : list tree -> tree) (ts : list tree) (out : tree) : Prop :=
    exists gs, out = level_of rec gs /\ classes 0 gs /\ Permutation (concat gs) (concat ts).

  Lemma classes_lb : forall gs lb, classes lb gs -> forall y, In y (concat gs) -> lb <= n_name y.
  Proof.
    induction gs as [|g gs IH]; intros lb Hc y Hy; [destruct Hy|]. destruct Hc as [_ [m [Hlb [Hnm Hc]]]].
    cbn [concat] in Hy. apply in_app_or in Hy as [Hy|Hy]; [rewrite (Hnm y Hy); exact Hlb|].
    specialize (IH _ Hc y Hy). lia.
  Qed.

  Lemma level_of_cons rec g gs m : g <> [] -> (forall y, In y g -> n_name y = m) ->
    exists n, merge_nodes cmp rec g = Some n /\ n_name n = m /\ level_of rec (g :: gs) = n :: level_of rec gs.
  Proof.
    intros Hne Hnm. destruct (merge_nodes_named rec g m Hne Hnm) as [n [E Hn]]. exists n.
    unfold level_of. cbn [flat_map]. rewrite E. auto.
  Qed.

  Lemma classes_sorted rec : forall gs lb, classes lb gs ->
    sorted (level_of rec gs) /\ forall y, In y (level_of rec gs) -> lb <= n_name y.
  Proof.
    induction gs as [|g gs IH]; intros lb Hc; [split; [reflexivity | intros y []]|].
    destruct Hc as [Hne [m [Hlb [Hnm Hc]]]]. destruct (level_of_cons rec g gs m Hne Hnm) as [n [_ [Hn ->]]].
    destruct (IH _ Hc) as [Hs Hb]. split.
    - apply sorted_cons. split; [|exact Hs]. intros y Hy. specialize (Hb y Hy). lia.
    - intros y [<-|Hy]; [lia | specialize (Hb y Hy); lia].
  Qed.

  Lemma classes_find rec x : forall gs lb, classes lb gs ->
    exists g, (forall y, In y g <-> In y (concat gs) /\ n_name y = x) /\
              find (namep x) (level_of rec gs) = merge_nodes cmp rec g.
  Proof.
    induction gs as [|g gs IH]; intros lb Hc; [exists []; split; [cbn; tauto | reflexivity]|].
    destruct Hc as [Hne [m [Hlb [Hnm Hc]]]]. destruct (level_of_cons rec g gs m Hne Hnm) as [n [En [Hn ->]]].
    cbn [find concat]. unfold namep at 1. rewrite Hn. destruct (m =? x) eqn:E.
    - exists g. split; [|symmetry; exact En]. intro y. rewrite in_app_iff. split.
      + intro Hy. split; [left; exact Hy | rewrite (Hnm y Hy); lia].
      + intros [[Hy|Hy] Ey]; [exact Hy|]. pose proof (classes_lb _ _ Hc y Hy). lia.
    - destruct (IH _ Hc) as [g' [Hg' Hf]]. exists g'. split; [|exact Hf].
      intro y. rewrite Hg', in_app_iff. split; [tauto|].
      intros [[Hy|Hy] Ey]; [specialize (Hnm y Hy); lia | tauto].
  Qed.

  Lemma level_sorted rec ts out : is_level rec ts out -> sorted out.
  Proof. intros [gs [-> [Hc _]]]. apply (classes_sorted rec gs 0 Hc). Qed.

  Lemma level_find rec ts out x : is_level rec ts out ->
    exists g, (forall y, In y g <-> In y (group x ts)) /\ find (namep x) out = merge_nodes cmp rec g.
  Proof.
    intros [gs [-> [Hc Hp]]]. destruct (classes_find rec x gs 0 Hc) as [g [Hg Hf]]. exists g. split; [|exact Hf].
    intro y. rewrite Hg, group_in. split; intros [H E]; (split; [|exact E]).
    - apply (Permutation_in _ Hp H).
    - apply (Permutation_in _ (Permutation_sym Hp) H).
  Qed.

  Lemma level_find_none rec ts out x : is_level rec ts out -> find (namep x) out = None -> group x ts = [].
  Proof.
    intros Hl F. destruct (level_find rec ts out x Hl) as [g [Hg Hfind]]. rewrite F in Hfind.
    symmetry in Hfind. apply merge_nodes_none in Hfind. subst g.
    apply incl_l_nil. intros z Hz. apply Hg, Hz.
  Qed.

  Variable sched : list node -> list node.
  Hypothesis Hsched : forall l, Permutation (sched l) l.

  Lemma sched_in l x : In x (sched l) <-> In x l.
  Proof. split; apply Permutation_in; [apply Hsched | apply Permutation_sym, Hsched]. Qed.

  Lemma merge_level_names rec : forall f ts n', In n' (merge_level cmp sched f rec ts) ->
    exists t n0, In t ts /\ In n0 t /\ n_name n0 = n_name n'.
  Proof.
    assert (forall f ts n', In n' (merge_level cmp sched f rec ts) ->
              exists n0, In n0 (concat ts) /\ n_name n0 = n_name n') as H.
    { induction f as [|f IH]; intros ts n' H; [destruct H|]. cbn [merge_level] in H.
      destruct (min_name ts) as [m|]; [|destruct H].
      pose proof (fun x Hx => Permutation_in x (heads_drops_perm m ts) (in_or_app _ _ x Hx)) as Hin.
      assert (In n' (merge_level cmp sched f rec (drops m ts)) ->
              exists n0, In n0 (concat ts) /\ n_name n0 = n_name n') as Hrest.
      { intro H1. destruct (IH _ _ H1) as [n0 [H0 E]]. exists n0. split; [apply Hin; right; exact H0 | exact E]. }
      destruct (merge_nodes cmp rec (sched (heads m ts))) as [n|] eqn:En; [|exact (Hrest H)].
      destruct H as [<-|H]; [|exact (Hrest H)].
      apply merge_nodes_some in En as [w [Hw ->]]. exists w. split.
      - apply Hin. left. apply sched_in, (max_by_in _ _ Hw).
      - destruct (is_dir w); [symmetry; apply set_sub_name | reflexivity]. }
    intros f ts n' Hn. destruct (H f ts n' Hn) as [n0 [H0 E]]. apply in_concat in H0 as [t [Ht H0]].
    exists t, n0. auto.
  Qed.

  (* merge_level pops the least name m, merges the heads of that name — all nodes of that name, the
     inputs being sorted — and goes on with inputs that start above m *)
  Lemma merge_level_classes rec : forall f ts lb, Forall sorted ts -> (total_len ts <= f)%nat ->
    (forall n r, In (n :: r) ts -> lb <= n_name n) ->
    exists gs, merge_level cmp sched f rec ts = level_of rec gs /\ classes lb gs /\
               Permutation (concat gs) (concat ts).
  Proof.
    assert (forall ts lb, (forall t, In t ts -> t = []) ->
              exists gs, [] = level_of rec gs /\ classes lb gs /\ Permutation (concat gs) (concat ts)) as Hnil.
    { intros ts lb H. exists []. split; [reflexivity|]. split; [exact I|].
      replace (concat ts) with ([] : list node); [apply Permutation_refl|].
      symmetry. apply concat_nil_Forall, Forall_forall. exact H. }
    induction f as [|f IH]; intros ts lb Hs Hf Hlb; pose proof (min_name_spec ts) as Hm; cbn [merge_level];
      (destruct (min_name ts) as [m|]; [|apply Hnil; exact Hm]); destruct Hm as [[n [r [Hin E]]] Hmin];
      pose proof (total_len_drops_lt m ts n r Hin E) as Hlt.
    { (* a node left, but no fuel *) lia. }
    destruct (drops_spec m ts Hs Hmin) as [Hsd Hlbd].
    destruct (IH (drops m ts) (N.succ m) Hsd ltac:(lia) Hlbd) as [gs [-> [Hc Hp]]].
    exists (sched (heads m ts) :: gs). split; [|split].
    - unfold level_of. cbn [flat_map]. destruct (merge_nodes cmp rec (sched (heads m ts))); reflexivity.
    - split.
      + intro E0. apply (in_nil (a := n)). rewrite <- E0. apply sched_in. exact (heads_in m ts n r Hin E).
      + exists m. split; [specialize (Hlb n r Hin); lia|]. split; [|exact Hc].
        intros y Hy. rewrite sched_in in Hy. exact (heads_name m ts y Hy).
    - cbn [concat]. eapply Permutation_trans; [apply Permutation_app; [apply Hsched | exact Hp]|].
      apply heads_drops_perm.
  Qed.

  Lemma merge_trees_level d ts : Forall sorted ts ->
    is_level (merge_trees cmp sched d) ts (merge_trees cmp sched (S d) ts).
  Proof.
    intro Hs. apply (merge_level_classes _ (total_len ts) ts 0 Hs (le_n _)). intros. apply N.le_0_l.
  Qed.
End Level.

Lemma lookup_one t x : lookup t [x] = find (namep x) t.
Proof. cbn [lookup]. unfold namep. destruct (find (fun n => n_name n =? x) t); reflexivity. Qed.

Lemma lookup_cons t x y q : lookup t (x :: y :: q) =
  match find (namep x) t with
  | Some n => if is_dir n then lookup (n_sub n) (y :: q) else None
  | None => None
  end.
Proof. reflexivity. Qed.

Lemma lookup_prefix : forall q t s n, q <> [] -> s <> [] -> lookup t (q ++ s) = Some n ->
  exists m, lookup t q = Some m /\ is_dir m = true.
Proof.
  induction q as [|x q IH]; intros t s n Hq Hs H; [congruence|].
  destruct q as [|y q].
  - destruct s as [|z s]; [congruence|]. cbn [app] in H. rewrite lookup_cons in H. rewrite lookup_one.
    destruct (find (namep x) t) as [m|]; [|discriminate]. exists m. split; [reflexivity|].
    destruct (is_dir m); [reflexivity | discriminate].
  - change ((x :: y :: q) ++ s) with (x :: y :: (q ++ s)) in H. rewrite lookup_cons in *.
    destruct (find (namep x) t) as [m|]; [|discriminate].
    destruct (is_dir m); [|discriminate].
    apply (IH (n_sub m) s n); [discriminate | exact Hs | exact H].
Qed.

Lemma paths_cons pre n r : paths pre (n :: r) = paths_node pre n ++ paths pre r.
Proof. reflexivity. Qed.

Lemma paths_node_dir pre a m t c s : paths_node pre (Node a KDir m t c s) = (pre ++ [a], Node a KDir m t c s) :: paths (pre ++ [a]) s.
Proof. reflexivity. Qed.

Lemma in_cands ts p w : In w (cands ts p) <-> exists t, In t ts /\ lookup t p = Some w.
Proof.
  unfold cands. rewrite in_flat_map. split.
  - intros [t [Ht Hw]]. exists t. split; [exact Ht|]. destruct (lookup t p); cbn in Hw; [destruct Hw as [<-|[]]; reflexivity | destruct Hw].
  - intros [t [Ht Hw]]. exists t. split; [exact Ht|]. rewrite Hw. left; reflexivity.
Qed.

Lemma cands_nil_iff ts p : cands ts p = [] <-> forall t, In t ts -> lookup t p = None.
Proof.
  split.
  - intros E t Ht. destruct (lookup t p) eqn:L; [|reflexivity].
    assert (In n (cands ts p)) by (apply in_cands; eauto). rewrite E in H. destruct H.
  - intro H. destruct (cands ts p) as [|w l] eqn:E; [reflexivity|].
    assert (In w (cands ts p)) by (rewrite E; left; reflexivity).
    apply in_cands in H0. destruct H0 as [t [Ht L]]. rewrite (H t Ht) in L. discriminate.
Qed.

Lemma cands_one ts x : Forall sorted ts -> cands ts [x] = group x ts.
Proof.
  intro Hs. unfold cands, group. apply flat_map_ext_In. intros t Ht. rewrite lookup_one.
  symmetry. apply find_filter_sorted. rewrite Forall_forall in Hs. apply Hs. exact Ht.
Qed.

Lemma cands_cons ts x p : p <> [] -> Forall sorted ts -> cands ts (x :: p) = cands (subdirs (group x ts)) p.
Proof.
  intros Hp Hs. destruct p as [|y q]; [congruence|]. unfold cands, subdirs, group.
  induction Hs as [|t ts Ht _ IH]; [reflexivity|]. cbn [flat_map].
  rewrite filter_app, map_app, flat_map_app, <- IH. f_equal.
  rewrite lookup_cons, (find_filter_sorted x t Ht). destruct (find (namep x) t) as [m|]; [|reflexivity].
  cbn [opt_list filter]. destruct (is_dir m); cbn [map flat_map]; [rewrite app_nil_r|]; reflexivity.
Qed.

Lemma cands_subdirs_incl g g' p z : (forall y, In y g -> In y g') ->
  In z (cands (subdirs g) p) -> In z (cands (subdirs g') p).
Proof.
  intros H Hz. unfold cands in *. apply in_flat_map in Hz as [s [Hs Hz]]. apply in_flat_map. exists s.
  split; [|exact Hz]. apply in_map_iff in Hs as [m [E Hm]]. apply in_map_iff. exists m. split; [exact E|].
  apply filter_In in Hm as [Hm D]. apply filter_In. split; [apply H; exact Hm | exact D].
Qed.

(* what the result holds at path p, in terms of the inputs *)
Definition spec_at (cmp : node -> node -> comparison) (ts : list tree) (r : tree) (p : list N) : Prop :=
  match lookup r p with
  | Some n' =>
      exists w, In w (cands ts p) /\ (forall y, In y (cands ts p) -> cmp y w <> Gt) /\
                n' = (if is_dir w then set_sub w (n_sub n') else w)
  | None =>
      cands ts p = [] \/
      exists q s n, p = q ++ s /\ q <> [] /\ s <> [] /\ lookup r q = Some n /\ is_dir n = false
  end.

(* ts' is tied to ts through its candidates only: the class `level_find` returns is known up to
   membership, not as `group x ts` itself *)
Lemma spec_at_descend cmp ts ts' r x n p : p <> [] -> find (namep x) r = Some n -> is_dir n = true ->
  (forall z, In z (cands ts' p) <-> In z (cands ts (x :: p))) ->
  spec_at cmp ts' (n_sub n) p -> spec_at cmp ts r (x :: p).
Proof.
  intros Hp F D Hc. unfold spec_at. destruct p as [|y q]; [congruence|]. rewrite lookup_cons, F, D.
  destruct (lookup (n_sub n) (y :: q)).
  - intros [w [Hw [Hmax E]]]. exists w. split; [apply Hc; exact Hw|].
    split; [intros z Hz; apply Hmax, Hc, Hz | exact E].
  - intros [E|[q' [s [n0 [Hq [Hq' [Hs [L D0]]]]]]]].
    + left. apply incl_l_nil. intros z Hz. rewrite <- E. apply Hc. exact Hz.
    + right. exists (x :: q'), s, n0. rewrite Hq. repeat split; try assumption; try discriminate.
      destruct q'; [congruence|]. rewrite lookup_cons, F, D. exact L.
Qed.

Lemma level_spec_at_one cmp rec ts out x : preorder cmp -> Forall sorted ts -> is_level cmp rec ts out ->
  spec_at cmp ts out [x].
Proof.
  intros Hpre Hs Hl. unfold spec_at. rewrite lookup_one, cands_one by exact Hs.
  destruct (find (namep x) out) as [n|] eqn:F; [|left; exact (level_find_none cmp rec ts out x Hl F)].
  destruct (level_find cmp rec ts out x Hl) as [g [Hg Hfind]]. rewrite F in Hfind. symmetry in Hfind.
  apply merge_nodes_some in Hfind as [w [Hmax ->]]. exists w. split; [apply Hg, (max_by_in _ _ _ Hmax)|].
  split; [intros y Hy; apply (max_by_max cmp Hpre g w Hmax), Hg, Hy|].
  destruct (is_dir w); [rewrite set_sub_sub|]; reflexivity.
Qed.

Section Paths.
  Variable cmp : node -> node -> comparison.
  Hypothesis Hpre : preorder cmp.
  (* a merge function, by recursion depth, every level of which is a merged level of its inputs *)
  Variable mt : nat -> list tree -> tree.
  Hypothesis mt_O : forall ts, mt O ts = [].
  Hypothesis mt_S : forall d ts, Forall sorted ts -> is_level cmp (mt d) ts (mt (S d) ts).

  Theorem paths_spec : forall d ts, Forall (fits d) ts -> forall p, p <> [] -> spec_at cmp ts (mt d ts) p.
  Proof.
    induction d as [|d IH]; intros ts Hf p Hp; destruct p as [|x p]; try congruence; rewrite Forall_forall in Hf.
    - (* all inputs are empty *)
      unfold spec_at. rewrite mt_O. left. apply flat_map_nil_iff. intros t Ht.
      rewrite (depth_O t (proj2 (Hf t Ht))). reflexivity.
    - assert (Forall sorted ts) as Hs by (apply Forall_forall; intros t Ht; apply wft_sorted, Hf, Ht).
      destruct p as [|y q]; [exact (level_spec_at_one cmp _ ts _ x Hpre Hs (mt_S d ts Hs))|].
      (* below x: the subtree of a directory winner is the merge of all directory subtrees of the group *)
      destruct (level_find cmp _ _ _ x (mt_S d ts Hs)) as [g [Hg Hfind]]. symmetry in Hfind.
      destruct (find (namep x) (mt (S d) ts)) as [n|] eqn:F.
      + apply merge_nodes_some in Hfind as [w [_ E]]. destruct (is_dir n) eqn:D.
        * apply (spec_at_descend cmp ts (subdirs g) _ x n); [discriminate | exact F | exact D | |].
          { intro z. rewrite (cands_cons ts x (y :: q)) by (discriminate || exact Hs).
            split; apply cands_subdirs_incl; intros m Hm; apply Hg; exact Hm. }
          assert (n_sub n = mt d (subdirs g)) as ->.
          { subst n. destruct (is_dir w) eqn:Dw; [apply set_sub_sub | congruence]. }
          apply IH; [|discriminate]. apply (group_subdirs (fits d) ts x g Hg). intros t m Ht. apply fits_sub, Hf, Ht.
        * unfold spec_at. rewrite lookup_cons, F, D. right. exists [x], (y :: q), n.
          rewrite lookup_one. repeat split; try discriminate; assumption.
      + unfold spec_at. rewrite lookup_cons, F, cands_cons by (discriminate || exact Hs).
        rewrite (level_find_none cmp _ _ _ x (mt_S d ts Hs) F). left. reflexivity.
  Qed.

  (* the merge proper: recursion depth just above that of the inputs *)
  Corollary top_spec ts : Forall wft ts -> forall p, p <> [] -> spec_at cmp ts (mt (S (depths ts)) ts) p.
  Proof.
    intro Hwf. apply paths_spec, Forall_forall. intros t Ht. rewrite Forall_forall in Hwf.
    split; [apply Hwf, Ht | apply Nat.le_le_succ_r, depths_in, Ht].
  Qed.
  (* beyond the top level: the result is well-formed throughout, so a merged tree can be merged, and looked up
     by paths_spec, again *)
  Theorem merge_wf : forall d ts, Forall wft ts -> wft (mt d ts).
  Proof.
    induction d as [|d IH]; intros ts Hwf; [rewrite mt_O; reflexivity|].
    pose proof (mt_S d ts (wft_all_sorted ts Hwf)) as Hl. pose proof (level_sorted cmp _ _ _ Hl) as Hs.
    unfold wft, wf_tree. rewrite Hs. apply forallb_forall. intros n Hn.
    (* n is the merge of the class of its name *)
    destruct (level_find cmp _ _ _ (n_name n) Hl) as [g [Hg Hfind]]. rewrite (find_sorted_in _ n Hs Hn) in Hfind.
    symmetry in Hfind. apply merge_nodes_some in Hfind as [w [Hmax ->]]. rewrite Forall_forall in Hwf.
    apply max_by_in, Hg, group_in in Hmax as [Hw _]. apply in_concat in Hw as [t [Ht Hw]].
    pose proof (Hwf t Ht) as Hwt. unfold wft, wf_tree in Hwt. apply andb_true_iff in Hwt as [_ Hwt].
    pose proof (forallb_In Hwt Hw) as Hwn. destruct (is_dir w) eqn:D; [|exact Hwn].
    (* a directory winner: well-formed as a node, and its new subtree is a merge of well-formed subtrees *)
    assert (wft (mt d (subdirs g))) as Hsub.
    { apply IH, (group_subdirs wft ts _ g Hg). intros t' m Ht'. apply wft_sub, Hwf, Ht'. }
    destruct w as [a k m tg c s]. cbn [set_sub wf_node] in *. destruct k; try discriminate; exact Hsub.
  Qed.
End Paths.

Lemma merge_trees_wf cmp sched : (forall l, Permutation (sched l) l) ->
  forall d ts, Forall wft ts -> wft (merge_trees cmp sched d ts).
Proof. intro Hs. exact (merge_wf cmp (merge_trees cmp sched) (fun _ => eq_refl) (merge_trees_level cmp sched Hs)). Qed.

Lemma filter_repeat {A} (f : A -> bool) a k : filter f (repeat a k) = if f a then repeat a k else [].
Proof.
  induction k as [|k IH]; [destruct (f a); reflexivity|]. cbn [repeat filter]. rewrite IH.
  destruct (f a); reflexivity.
Qed.

Lemma map_repeat {A B} (f : A -> B) a k : map f (repeat a k) = repeat (f a) k.
Proof. induction k as [|k IH]; [reflexivity|]. cbn [repeat map]. rewrite IH. reflexivity. Qed.

Section Repeat.
  Variable cmp : node -> node -> comparison.
  Variable sched : list node -> list node.
  Hypothesis Hsched : forall l, Permutation (sched l) l.

  Lemma min_name_repeat_nil k : min_name (repeat ([] : tree) k) = None.
  Proof. induction k as [|k IH]; [reflexivity|]. cbn [repeat min_name head_name]. exact IH. Qed.

  Lemma min_name_repeat n r k : min_name (repeat (n :: r) (S k)) = Some (n_name n).
  Proof.
    induction k as [|k IH]; [reflexivity|].
    change (repeat (n :: r) (S (S k))) with ((n :: r) :: repeat (n :: r) (S k)).
    cbn [min_name head_name]. rewrite IH. rewrite N.min_id. reflexivity.
  Qed.

  Lemma heads_repeat n r k : heads (n_name n) (repeat (n :: r) k) = repeat n k.
  Proof.
    induction k as [|k IH]; [reflexivity|]. unfold heads in *. cbn [repeat flat_map take_head].
    rewrite N.eqb_refl, IH. reflexivity.
  Qed.

  Lemma drops_repeat n r k : drops (n_name n) (repeat (n :: r) k) = repeat r k.
  Proof.
    induction k as [|k IH]; [reflexivity|]. unfold drops in *. cbn [repeat map drop_head].
    rewrite N.eqb_refl, IH. reflexivity.
  Qed.

  Lemma fold_max_step_repeat n k : fold_left (max_step cmp) (repeat n k) n = n.
  Proof.
    induction k as [|k IH]; [reflexivity|]. cbn [repeat fold_left].
    replace (max_step cmp n n) with n; [exact IH|]. unfold max_step. destruct (cmp n n); reflexivity.
  Qed.

  Lemma total_len_repeat (t : tree) k : total_len (repeat t k) = (k * length t)%nat.
  Proof. induction k as [|k IH]; [reflexivity|]. cbn [repeat total_len fold_right]. unfold total_len in IH. lia. Qed.

  (* one level: every group is k copies of one node, which wins; a directory gets the merge of k copies of
     its subtree *)
  Definition resub (rec : list tree -> tree) (k : nat) (n : node) : node :=
    if is_dir n then set_sub n (rec (repeat (n_sub n) k)) else n.

  Lemma merge_level_repeat rec k : forall t f, (S k * length t <= f)%nat ->
    merge_level cmp sched f rec (repeat t (S k)) = map (resub rec (S k)) t.
  Proof.
    induction t as [|n r IH]; intros f Hf.
    - destruct f; [reflexivity|]. cbn [merge_level]. rewrite min_name_repeat_nil. reflexivity.
    - destruct f as [|f]; [cbn [length] in Hf; lia|].
      cbn [merge_level]. rewrite min_name_repeat, heads_repeat, drops_repeat.
      rewrite (Permutation_repeat _ _ (Hsched _)).
      unfold merge_nodes. change (max_by cmp (repeat n (S k))) with (Some (fold_left (max_step cmp) (repeat n k) n)).
      rewrite fold_max_step_repeat. rewrite filter_repeat, IH by (cbn [length] in Hf; lia).
      cbn [map]. f_equal. unfold resub. destruct (is_dir n); [|reflexivity].
      rewrite map_repeat. reflexivity.
  Qed.

  Lemma merge_trees_repeat k : forall d t, (depth t <= d)%nat -> merge_trees cmp sched d (repeat t (S k)) = t.
  Proof.
    induction d as [|d IH]; intros t Hd.
    - rewrite (depth_O t Hd). reflexivity.
    - cbn [merge_trees]. rewrite merge_level_repeat by (rewrite total_len_repeat; lia).
      rewrite <- (map_id t) at 2. apply map_ext_in. intros n Hn. unfold resub.
      destruct (is_dir n); [|reflexivity]. rewrite IH; [apply set_sub_id | exact (depth_sub_le d t n Hd Hn)].
  Qed.
End Repeat.
