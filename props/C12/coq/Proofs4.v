(* C12 — the merge loop as written (Model.loop / merge_trees_loop), for EVERY priority queue:
   whatever `push`/`pop` satisfy the priority-queue specification (pop returns an element of least
   name and leaves the others), every level the loop produces is a merged level of its inputs
   (Proofs.is_level), hence the loop meets the same path specification as the abstract merge. *)
From Verif.Base Require Import Tactics.
From Verif.C12 Require Import Model Proofs.
Local Open Scope N_scope.

Definition pq_spec (hpush : list hnode -> hnode -> list hnode) (hpop : list hnode -> option (hnode * list hnode)) : Prop :=
  (forall h x, Permutation (hpush h x) (x :: h)) /\
  (forall h, hpop h = None -> h = []) /\
  (forall h x h', hpop h = Some (x, h') ->
     Permutation h (x :: h') /\ forall y, In y h' -> n_name (fst x) <= n_name (fst y)).

(* the specification relative to a representation invariant (heap order for a binary heap) *)
Definition pq_spec_inv (Inv : list hnode -> Prop) (hpush : list hnode -> hnode -> list hnode)
           (hpop : list hnode -> option (hnode * list hnode)) : Prop :=
  Inv [] /\
  (forall h x, Inv h -> Inv (hpush h x) /\ Permutation (hpush h x) (x :: h)) /\
  (forall h, hpop h = None -> h = []) /\
  (forall h x h', Inv h -> hpop h = Some (x, h') ->
     Inv h' /\ Permutation h (x :: h') /\ forall y, In y h' -> n_name (fst x) <= n_name (fst y)).

Lemma pq_spec_is_inv hpush hpop : pq_spec hpush hpop -> pq_spec_inv (fun _ => True) hpush hpop.
Proof.
  intros [H1 [H2 H3]]. split; [exact I|]. split; [intros; split; [exact I | apply H1]|]. split; [exact H2|].
  intros h x h' _ E. split; [exact I | apply H3; exact E].
Qed.

(* the part of its tree a heap element stands for *)
Definition tl_of (e : hnode) : tree := fst e :: snd e.

Section LoopProofs.
  Variable cmp : node -> node -> comparison.
  Variable hpush : list hnode -> hnode -> list hnode.
  Variable hpop : list hnode -> option (hnode * list hnode).
  Variable Inv : list hnode -> Prop.
  Hypothesis Hpq : pq_spec_inv Inv hpush hpop.

  Let Hpush := proj1 (proj2 Hpq).
  Let Hpop_none := proj1 (proj2 (proj2 Hpq)).
  Let Hpop_some := proj2 (proj2 (proj2 Hpq)).

  Definition qinv (lb : N) (h : list hnode) : Prop :=
    Inv h /\ forall e, In e h -> sorted (tl_of e) /\ lb <= n_name (fst e).

  (* the nodes not yet popped: the rest of the current node's tree and what the queue elements stand for *)
  Definition pend (rc : tree) (heap : list hnode) : list node := rc ++ flat_map tl_of heap.

  Lemma pop_spec lb h : qinv lb h ->
    match hpop h with
    | None => h = []
    | Some (nx, h2) =>
        sorted (tl_of nx) /\ qinv (n_name (fst nx)) h2 /\ lb <= n_name (fst nx) /\
        Permutation (flat_map tl_of h) (fst nx :: pend (snd nx) h2)
    end.
  Proof.
    intros [Hi Hh]. destruct (hpop h) as [[nx h2]|] eqn:Ep; [|apply Hpop_none, Ep].
    destruct (Hpop_some _ _ _ Hi Ep) as [Hi2 [P Hmin]].
    assert (forall e, In e (nx :: h2) -> In e h) as Hsub by (intro e; apply Permutation_in, Permutation_sym, P).
    destruct (Hh _ (Hsub _ (or_introl eq_refl))) as [Hs Hlb]. split; [exact Hs|]. split; [|split; [exact Hlb|]].
    - split; [exact Hi2|]. intros e He. split; [apply Hh, Hsub; right; exact He | apply Hmin; exact He].
    - apply (Permutation_flat_map tl_of P).
  Qed.

  Lemma push_spec lb (t : tree) heap : sorted t -> (forall n r, t = n :: r -> lb <= n_name n) -> qinv lb heap ->
    qinv lb (push_next hpush t heap) /\
    Permutation (flat_map tl_of (push_next hpush t heap)) (pend t heap).
  Proof.
    intros Hst Hlb [Hi Hh]. destruct t as [|s r]; [split; [split; assumption | apply Permutation_refl]|].
    destruct (Hpush heap (s, r) Hi) as [Hi1 P1]. cbn [push_next]. split; [split; [exact Hi1|]|].
    - intros e He. apply (Permutation_in _ P1) in He as [<-|He]; [|apply Hh; exact He].
      split; [exact Hst | exact (Hlb s r eq_refl)].
    - apply (Permutation_flat_map tl_of P1).
  Qed.

  Lemma emit_eq rec g gs : emit cmp rec g (level_of cmp rec gs) = level_of cmp rec (g :: gs).
  Proof. unfold emit, level_of. cbn [flat_map]. destruct (merge_nodes cmp rec g); reflexivity. Qed.

  (* the loop emits, in increasing name order, the classes of the current node and the pending nodes; the
     class of the current name starts with the nodes collected so far *)
  Lemma loop_classes rec : forall fuel c (rc : tree) nodes heap,
    sorted (c :: rc) -> qinv (n_name c) heap -> (length (pend rc heap) < fuel)%nat ->
    exists g gs, loop cmp hpush hpop fuel rec (c, rc) nodes heap = level_of cmp rec ((nodes ++ g) :: gs) /\
                 g <> [] /\ (forall y, In y g -> n_name y = n_name c) /\ classes (N.succ (n_name c)) gs /\
                 Permutation (g ++ concat gs) (c :: pend rc heap).
  Proof.
    induction fuel as [|f IH]; intros c rc nodes heap Hsc Hq Hf; [inversion Hf|]. cbn [loop fst snd].
    (* the successor of c in its tree is above c, the tree being sorted *)
    apply sorted_cons in Hsc as [Hlt Hrc].
    destruct (push_spec (n_name c) rc heap Hrc) as [Hq1 P1];
      [intros n r ->; apply N.lt_le_incl, Hlt; left; reflexivity | exact Hq |]. pose proof (pop_spec _ _ Hq1) as Hpop.
    destruct (hpop (push_next hpush rc heap)) as [[[n' r'] heap2]|]; cbn [fst snd] in Hpop |- *.
    - destruct Hpop as [Hs2 [Hq2 [Hle Pp]]]. apply (Permutation_trans (Permutation_sym P1)) in Pp.
      assert (length (pend r' heap2) < f)%nat as Hf2 by (apply Permutation_length in Pp; cbn [length] in Pp; lia).
      destruct (n_name c =? n_name n') eqn:E.
      + (* same name: collect and go on *)
        apply N.eqb_eq in E. destruct (IH n' r' (nodes ++ [c]) heap2 Hs2 Hq2 Hf2) as [g [gs [-> [_ [Hg [Hc Pg]]]]]].
        exists (c :: g), gs. rewrite <- app_assoc, E. split; [reflexivity|]. split; [discriminate|].
        split; [intros y [<-|Hy]; [exact E | apply Hg; exact Hy]|]. split; [exact Hc|].
        apply perm_skip. exact (Permutation_trans Pg (Permutation_sym Pp)).
      + (* a larger name: the collected class is complete *)
        destruct (IH n' r' [] heap2 Hs2 Hq2 Hf2) as [g [gs [-> [Hne [Hg [Hc Pg]]]]]].
        exists [c], (g :: gs). split; [apply emit_eq|]. split; [discriminate|].
        split; [intros y [<-|[]]; reflexivity|]. split.
        * split; [exact Hne|]. exists (n_name n'). split; [lia|]. split; [exact Hg | exact Hc].
        * apply perm_skip. exact (Permutation_trans Pg (Permutation_sym Pp)).
    - (* the queue is empty: last class *)
      rewrite Hpop in P1. apply Permutation_nil in P1. exists [c], []. rewrite P1.
      split; [exact (emit_eq rec _ [])|]. split; [discriminate|]. split; [intros y [<-|[]]; reflexivity|].
      split; [exact I | apply Permutation_refl].
  Qed.

  (* first_elems pushes the inputs one by one, as push_next does *)
  Lemma first_elems_spec : forall ts, Forall sorted ts -> forall h, qinv 0 h ->
    qinv 0 (first_elems hpush h ts) /\
    Permutation (flat_map tl_of (first_elems hpush h ts)) (concat ts ++ flat_map tl_of h).
  Proof.
    induction 1 as [|t ts Hs _ IH]; intros h Hq; cbn [first_elems concat app]; [split; [exact Hq | apply Permutation_refl]|].
    destruct (push_spec 0 t h Hs (fun n r _ => N.le_0_l _) Hq) as [Hq1 P1]. destruct (IH _ Hq1) as [Hq2 P2].
    split; [exact Hq2|]. eapply Permutation_trans; [exact P2|]. rewrite <- app_assoc.
    eapply Permutation_trans; [apply Permutation_app_head, P1|]. apply (Permutation_app_swap_app (concat ts) t).
  Qed.

  Lemma loop_level_is_level rec ts : Forall sorted ts -> is_level cmp rec ts (loop_level cmp hpush hpop rec ts).
  Proof.
    intro Hs. unfold loop_level.
    destruct (first_elems_spec ts Hs []) as [Hq0 P0]; [split; [exact (proj1 Hpq) | intros e []]|].
    cbn [flat_map] in P0. rewrite app_nil_r in P0. pose proof (pop_spec _ _ Hq0) as Hpop.
    destruct (hpop (first_elems hpush [] ts)) as [[[c rc] h']|]; cbn [fst snd] in Hpop.
    - destruct Hpop as [Hsc [Hq [_ Pp]]]. apply (Permutation_trans (Permutation_sym P0)) in Pp.
      destruct (loop_classes rec (S (total_len ts)) c rc [] h' Hsc Hq) as [g [gs [-> [Hne [Hg [Hc Pg]]]]]].
      + apply Permutation_length in Pp. cbn [length] in Pp. rewrite total_len_concat. lia.
      + exists (g :: gs). split; [reflexivity|]. split; [|exact (Permutation_trans Pg (Permutation_sym Pp))].
        split; [exact Hne|]. exists (n_name c). split; [apply N.le_0_l|]. split; [exact Hg | exact Hc].
    - rewrite Hpop in P0. exists []. split; [reflexivity|]. split; [exact I | exact P0].
  Qed.

  Lemma merge_loop_wf_inv ts : Forall wft ts -> wft (merge_loop_gen cmp hpush hpop ts).
  Proof. exact (merge_wf cmp (merge_trees_loop cmp hpush hpop) (fun _ => eq_refl) (fun d => loop_level_is_level _) _ ts). Qed.

  Lemma merge_loop_sorted_inv ts : Forall wft ts -> sorted (merge_loop_gen cmp hpush hpop ts).
  Proof. intro Hwf. exact (wft_sorted _ (merge_loop_wf_inv ts Hwf)). Qed.

  Lemma merge_loop_paths_inv : preorder cmp -> forall ts, Forall wft ts ->
    forall p, p <> [] -> spec_at cmp ts (merge_loop_gen cmp hpush hpop ts) p.
  Proof.
    intro Hp. exact (top_spec cmp Hp (merge_trees_loop cmp hpush hpop) (fun _ => eq_refl) (fun d => loop_level_is_level _)).
  Qed.
End LoopProofs.

(* a simple priority queue meeting the specification: push = cons, pop = first element of least name *)
Fixpoint pop_min (h : list hnode) : option (hnode * list hnode) :=
  match h with
  | [] => None
  | x :: r =>
      match pop_min r with
      | None => Some (x, [])
      | Some (y, r') => if n_name (fst y) <? n_name (fst x) then Some (y, x :: r') else Some (x, r)
      end
  end.

Lemma pop_min_none h : pop_min h = None -> h = [].
Proof.
  destruct h as [|a r]; [reflexivity|]. cbn [pop_min]. destruct (pop_min r) as [[y r']|]; [destruct (_ <? _)|]; discriminate.
Qed.

Lemma pop_min_some : forall h x h', pop_min h = Some (x, h') ->
  Permutation h (x :: h') /\ forall y, In y h' -> n_name (fst x) <= n_name (fst y).
Proof.
  induction h as [|a r IH]; intros x h' H; [discriminate|]. cbn [pop_min] in H.
  destruct (pop_min r) as [[y r']|] eqn:E.
  - destruct (IH y r' eq_refl) as [P M]. destruct (n_name (fst y) <? n_name (fst a)) eqn:L; inv H.
    + split; [eapply Permutation_trans; [apply perm_skip; exact P | apply perm_swap]|].
      intros z [<-|Hz]; [lia | apply M; exact Hz].
    + split; [apply Permutation_refl|]. intros z Hz. apply (Permutation_in _ P) in Hz.
      destruct Hz as [<-|Hz]; [lia | specialize (M z Hz); lia].
  - inv H. rewrite (pop_min_none r E). split; [apply Permutation_refl | intros z []].
Qed.
