(* C12 — executable model of the tree operations behind merge, rewrite, repair and copy.

   Trees are lists of nodes; a directory node carries its subtree (the value that
   `Tree::from_backend(node.subtree)` would return).  Names are numbers whose order is the
   order of `Node::name()` (the unescaped name, an `OsStr`, compared bytewise).

   Anchors:
     blob/tree.rs            merge_trees / merge_nodes            -> merge_trees, merge_nodes
     blob/tree/modify.rs     TreeModifier::modify_tree            -> modify_node, modify_tree, finish
     blob/tree/rewrite.rs    RewriteVisitor, Rewriter::rewrite_tree -> rw_visit, rewrite_tree
     commands/repair/snapshots.rs  RepairState (Visitor)          -> rp_visit, repair_tree
     commands/copy.rs        copy                                  -> reach, needed, copy_order  *)
From Verif.Base Require Import Tactics.
From Verif.C12 Require Import Extracted.
Local Open Scope N_scope.

Inductive kind := KFile | KDir | KDirNoSub | KSymlink | KOther.
(* KDirNoSub: a node of type "dir" whose `subtree` field is None (never written by a backup;
   repair turns it into a directory with an empty tree, merge would panic on it). *)

Definition kind_eqb (a b : kind) : bool :=
  match a, b with
  | KFile, KFile | KDir, KDir | KDirNoSub, KDirNoSub | KSymlink, KSymlink | KOther, KOther => true
  | _, _ => false
  end.

(* name, type, modification time, all other metadata (one number), content (data blob ids), subtree *)
Inductive node := Node (name : N) (k : kind) (mtime : N) (meta : N) (content : list N) (sub : list node).
Definition tree := list node.

Definition n_name (n : node) := match n with Node a _ _ _ _ _ => a end.
Definition n_kind (n : node) := match n with Node _ k _ _ _ _ => k end.
Definition n_mtime (n : node) := match n with Node _ _ m _ _ _ => m end.
Definition n_meta (n : node) := match n with Node _ _ _ m _ _ => m end.
Definition n_content (n : node) := match n with Node _ _ _ _ c _ => c end.
Definition n_sub (n : node) : tree := match n with Node _ _ _ _ _ s => s end.
Definition is_dir (n : node) : bool := match n_kind n with KDir | KDirNoSub => true | _ => false end.
Definition is_file (n : node) : bool := match n_kind n with KFile => true | _ => false end.
Definition set_sub (n : node) (s : tree) : node :=
  match n with Node a k m t c _ => Node a k m t c s end.
Definition set_name (n : node) (a : N) : node :=
  match n with Node _ k m t c s => Node a k m t c s end.

Fixpoint list_eqb {A} (e : A -> A -> bool) (l1 l2 : list A) : bool :=
  match l1, l2 with
  | [], [] => true
  | x :: r1, y :: r2 => e x y && list_eqb e r1 r2
  | _, _ => false
  end.

(* equality of nodes / trees: stands for equality of the serialised tree's SHA-256 id *)
Fixpoint node_eqb (a b : node) {struct a} : bool :=
  match a, b with
  | Node n1 k1 m1 t1 c1 s1, Node n2 k2 m2 t2 c2 s2 =>
      (n1 =? n2) && kind_eqb k1 k2 && (m1 =? m2) && (t1 =? t2) && list_eqb N.eqb c1 c2 &&
      (fix go (l1 l2 : list node) {struct l1} : bool :=
         match l1, l2 with
         | [], [] => true
         | x :: r1, y :: r2 => node_eqb x y && go r1 r2
         | _, _ => false
         end) s1 s2
  end.
Definition tree_eqb (a b : tree) : bool := list_eqb node_eqb a b.

Fixpoint depth_node (n : node) : nat :=
  match n with Node _ _ _ _ _ s => S (fold_right (fun x a => Nat.max (depth_node x) a) O s) end.
Definition depth (t : tree) : nat := fold_right (fun x a => Nat.max (depth_node x) a) O t.
Definition depths (ts : list tree) : nat := fold_right (fun t a => Nat.max (depth t) a) O ts.

(* ------------------------------------------------------------------ merge *)

Section Merge.
  (* the comparison handed to merge_trees (`cmp(n1, n2)`), e.g. last_modified_node *)
  Variable cmp : node -> node -> comparison.
  (* the order in which the BinaryHeap (ordered by name only) delivers nodes of EQUAL name;
     the theorems hold for every permutation *)
  Variable sched : list node -> list node.

  (* Iterator::max_by: `fold(first, |x, y| match cmp(&x, &y) { Greater => x, _ => y })` — the last maximum *)
  Definition max_step (m x : node) : node := match cmp m x with Gt => m | _ => x end.
  Definition max_by (l : list node) : option node :=
    match l with [] => None | x :: r => Some (fold_left max_step r x) end.

  Definition head_name (t : tree) : option N := match t with [] => None | n :: _ => Some (n_name n) end.
  (* the name the heap pops next: the least name among the current heads of all trees *)
  Fixpoint min_name (ts : list tree) : option N :=
    match ts with
    | [] => None
    | t :: r => match head_name t, min_name r with
                | None, m => m
                | Some a, None => Some a
                | Some a, Some b => Some (N.min a b)
                end
    end.
  Definition take_head (m : N) (t : tree) : list node :=
    match t with n :: _ => if n_name n =? m then [n] else [] | [] => [] end.
  Definition drop_head (m : N) (t : tree) : tree :=
    match t with n :: r => if n_name n =? m then r else t | [] => [] end.
  (* the nodes collected in `nodes` until a different name is popped, and the iterators afterwards *)
  Definition heads (m : N) (ts : list tree) : list node := flat_map (take_head m) ts.
  Definition drops (m : N) (ts : list tree) : list tree := map (drop_head m) ts.

  (* merge_nodes: subtrees of ALL directories of the group, winner by max_by; a directory winner
     gets the merge of all those subtrees *)
  Definition merge_nodes (rec : list tree -> tree) (g : list node) : option node :=
    match max_by g with
    | None => None
    | Some w => Some (if is_dir w then set_sub w (rec (map n_sub (filter is_dir g))) else w)
    end.

  (* the loop of merge_trees; fuel = number of nodes still in the iterators *)
  Fixpoint merge_level (fuel : nat) (rec : list tree -> tree) (ts : list tree) : tree :=
    match fuel with
    | O => []
    | S f =>
        match min_name ts with
        | None => []
        | Some m =>
            match merge_nodes rec (sched (heads m ts)) with
            | Some n => n :: merge_level f rec (drops m ts)
            | None => merge_level f rec (drops m ts)
            end
        end
    end.

  Definition total_len (ts : list tree) : nat := fold_right (fun t a => (length t + a)%nat) O ts.

  (* merge_trees, recursion depth bounded by d (use d > depths ts) *)
  Fixpoint merge_trees (d : nat) (ts : list tree) : tree :=
    match d with
    | O => []
    | S d' => merge_level (total_len ts) (merge_trees d') ts
    end.

  Definition merge (ts : list tree) : tree := merge_trees (S (depths ts)) ts.
End Merge.

(* ------------------------------------------------------------------ merge, the loop as written

   The loop of `tree::merge_trees` literally: the heap holds (node, tree number); after a pop the successor
   of the popped node in ITS tree is pushed BEFORE the next pop.  On trees sorted in the compared order
   the successor is larger than the current name, so the nodes collected for one name are exactly
   `heads`; on unsorted trees (the pre-fix situation for names that need escaping) the two differ — this
   literal version reproduces the duplicates.  Used by the correspondence (also on unsorted inputs) and
   compared with `merge` on every sorted case; the refinement is not proved (see NOTES). *)
(* A heap element: the node together with the rest of its tree's iterator.  (The code keeps the iterators
   in `tree_iters` and stores the tree number in the element; `tree_iters[num]` is only advanced when the
   element of tree `num` has been popped, so carrying the iterator's remainder with the element is the same
   data, and the heap never looks at it: `Ord for SortedNode` compares names only.) *)
Definition hnode := (node * tree)%type.

Fixpoint set_nth {A} (i : nat) (v : A) (l : list A) : list A :=
  match i, l with
  | _, [] => []
  | O, _ :: r => v :: r
  | S j, x :: r => x :: set_nth j v r
  end.

(* std::collections::BinaryHeap (a max-heap on a Vec) under `Ord for SortedNode` = reversed name order:
   `hle a b` is `a <= b` there.  push = Vec::push + sift_up(0, old_len); pop = Vec::pop, swap with the
   root, sift_down_to_bottom(0) (children move up, picking the right child on `<=`), then sift_up. *)
Definition hle (a b : hnode) : bool := n_name (fst b) <=? n_name (fst a).

Fixpoint sift_up (fuel : nat) (data : list hnode) (pos : nat) (elt : hnode) : list hnode :=
  match fuel with
  | O => set_nth pos elt data
  | S f =>
      match pos with
      | O => set_nth O elt data
      | _ =>
          let parent := Nat.div (pos - 1) 2 in
          let p := nth parent data elt in
          if hle elt p then set_nth pos elt data else sift_up f (set_nth pos p data) parent elt
      end
  end.

Definition heap_push (data : list hnode) (x : hnode) : list hnode :=
  sift_up (S (length data)) (data ++ [x]) (length data) x.

Fixpoint sift_down (fuel : nat) (data : list hnode) (pos end_ : nat) (d : hnode) : list hnode * nat :=
  match fuel with
  | O => (data, pos)
  | S f =>
      let child := (2 * pos + 1)%nat in
      if (child + 2 <=? end_)%nat then
        let c := if hle (nth child data d) (nth (child + 1) data d) then (child + 1)%nat else child in
        sift_down f (set_nth pos (nth c data d) data) c end_ d
      else if (child + 1 =? end_)%nat then (set_nth pos (nth child data d) data, child)
      else (data, pos)
  end.

Definition heap_pop (data : list hnode) : option (hnode * list hnode) :=
  match rev data with
  | [] => None
  | last :: rrest =>
      let rest := rev rrest in
      match rest with
      | [] => Some (last, [])
      | top :: _ =>
          let '(data2, pos) := sift_down (S (length rest)) (set_nth O last rest) O (length rest) last in
          Some (top, sift_up (S (length rest)) data2 pos last)
      end
  end.

Section MergeLoop.
  Variable cmp : node -> node -> comparison.
  (* the priority queue: BinaryHeap::push / BinaryHeap::pop.  The theorems about the loop (Proofs4.v) hold
     for every pair satisfying the priority-queue specification; extraction uses heap_push / heap_pop *)
  Variable hpush : list hnode -> hnode -> list hnode.
  Variable hpop : list hnode -> option (hnode * list hnode).

  (* `if let Some(next_node) = tree_iters[num].next() { elems.push(SortedNode(next_node, num)) }` *)
  Definition push_next (rest : tree) (heap : list hnode) : list hnode :=
    match rest with
    | n :: r => hpush heap (n, r)
    | [] => heap
    end.

  Definition emit (rec : list tree -> tree) (g : list node) (rest : tree) : tree :=
    match merge_nodes cmp rec g with Some n => n :: rest | None => rest end.

  Fixpoint loop (fuel : nat) (rec : list tree -> tree) (cur : hnode) (nodes : list node)
                (heap : list hnode) : tree :=
    match fuel with
    | O => []
    | S f =>
        match hpop (push_next (snd cur) heap) with
        | None => emit rec (nodes ++ [fst cur]) []
        | Some (nx, heap2) =>
            if n_name (fst cur) =? n_name (fst nx)
            then loop f rec nx (nodes ++ [fst cur]) heap2
            else emit rec (nodes ++ [fst cur]) (loop f rec nx [] heap2)
        end
    end.

  (* fill the heap with the first element of every tree, in tree order *)
  Fixpoint first_elems (h : list hnode) (ts : list tree) : list hnode :=
    match ts with
    | [] => h
    | t :: r => first_elems (match t with n :: q => hpush h (n, q) | [] => h end) r
    end.

  Definition loop_level (rec : list tree -> tree) (ts : list tree) : tree :=
    match hpop (first_elems [] ts) with
    | None => []
    | Some (c, h') => loop (S (total_len ts)) rec c [] h'
    end.

  Fixpoint merge_trees_loop (d : nat) (ts : list tree) : tree :=
    match d with
    | O => []
    | S d' => loop_level (merge_trees_loop d') ts
    end.

  Definition merge_loop_gen (ts : list tree) : tree := merge_trees_loop (S (depths ts)) ts.
End MergeLoop.

Definition merge_loop (cmp : node -> node -> comparison) (ts : list tree) : tree :=
  merge_loop_gen cmp heap_push heap_pop ts.

(* the comparisons used by the correspondence *)
Definition cmp_mtime (a b : node) : comparison := N.compare (n_mtime a) (n_mtime b).
Definition cmp_meta (a b : node) : comparison := N.compare (n_meta a) (n_meta b).
Definition cmp_equal (a b : node) : comparison := Eq.
Definition cmp_dir_mtime (a b : node) : comparison :=
  match is_dir a, is_dir b with
  | true, false => Gt
  | false, true => Lt
  | _, _ => N.compare (n_mtime a) (n_mtime b)
  end.
Definition sched_id (l : list node) : list node := l.
Definition sched_rev (l : list node) : list node := rev l.

(* paths *)
Fixpoint lookup (t : tree) (p : list N) {struct p} : option node :=
  match p with
  | [] => None
  | x :: q =>
      match find (fun n => n_name n =? x) t with
      | None => None
      | Some n => match q with
                  | [] => Some n
                  | _ => if is_dir n then lookup (n_sub n) q else None
                  end
      end
  end.

(* all (path, node) pairs of a tree, directories before their contents *)
Fixpoint paths_node (pre : list N) (n : node) : list (list N * node) :=
  match n with
  | Node a k m t c s =>
      (pre ++ [a], n) ::
      (match k with KDir => flat_map (paths_node (pre ++ [a])) s | _ => [] end)
  end.
Definition paths (pre : list N) (t : tree) : list (list N * node) := flat_map (paths_node pre) t.

Fixpoint sorted_names (l : list N) : bool :=
  match l with
  | [] => true
  | a :: r => match r with [] => true | b :: _ => (a <? b) && sorted_names r end
  end.
(* every level strictly sorted by name, no directory without subtree, only directories have subtrees *)
Fixpoint wf_node (n : node) : bool :=
  match n with
  | Node _ k _ _ _ s =>
      negb (kind_eqb k KDirNoSub) &&
      (match k with KDir => true | _ => match s with [] => true | _ => false end end) &&
      sorted_names (map n_name s) && forallb wf_node s
  end.
Definition wf_tree (t : tree) : bool := sorted_names (map n_name t) && forallb wf_node t.

(* ------------------------------------------------------------------ TreeModifier *)

(* Vec::sort_by(|a, b| a.name().cmp(&b.name())): stable sort by name (insertion sort) *)
Fixpoint insert_node (n : node) (l : tree) : tree :=
  match l with
  | [] => [n]
  | x :: r => if n_name n <=? n_name x then n :: l else x :: insert_node n r
  end.
Definition sort_tree (t : tree) : tree := fold_right insert_node [] t.

Inductive change := Removed | Changed (t : tree) | Unchanged.
Inductive action :=
| ANode (n : node) (changed : bool)        (* NodeAction::Node *)
| ARemoved                                  (* NodeAction::Removed *)
| AVisit (n : node) (changed : bool)        (* NodeAction::VisitTree(node.subtree, node, changed) *)
| ACreate (n : node).                       (* NodeAction::CreateTree *)

Section Modifier.
  (* Visitor::process_node on (path of the node, node) *)
  Variable visit : list N -> node -> action.
  (* does Tree::from_backend succeed on this tree?  (rewrite: an error aborts — modelled as
     readable; repair: ProcessChangedTree(Tree::new())) *)
  Variable readable : tree -> bool.

  Definition fold_nodes (f : node -> option node * bool) : list node -> tree * bool :=
    fix go (l : list node) : tree * bool :=
      match l with
      | [] => ([], false)
      | x :: r =>
          let '(x', cx) := f x in
          let '(r', cr) := go r in
          (match x' with Some y => y :: r' | None => r' end, cx || cr)
      end.

  (* the tail of modify_tree: `if changed { new_tree.nodes.sort_by(name); save; (new_id != id).then_some(new_id) }
     else None` — the sort keeps a tree in name order when a visitor renamed nodes (repair's marker suffix);
     whether the source has it is read by extract.py (Extracted.modifier_sorts_changed_trees) *)
  Definition finish (rd : bool) (old : tree) (res : tree * bool) : change :=
    let '(nt, ch) := if rd then res else ([], true) in
    let st := if modifier_sorts_changed_trees then sort_tree nt else nt in
    if ch && negb (tree_eqb st old) then Changed st else Unchanged.

  (* one iteration of the `for node in tree` loop, including the recursive modify_tree *)
  Fixpoint modify_node (path : list N) (n : node) {struct n} : option node * bool :=
    match n with
    | Node a k m t c s =>
        let p := path ++ [a] in
        match visit p (Node a k m t c s) with
        | ANode n' ch => (Some n', ch)
        | ARemoved => (None, true)
        | ACreate n' => (Some (set_sub n' []), true)
        | AVisit n' ch =>
            match finish (readable s) s (fold_nodes (modify_node p) s) with
            | Removed => (None, true)
            | Unchanged => (Some n', ch)
            | Changed s' => (Some (set_sub n' s'), true)
            end
        end
    end.

  Definition modify_tree (path : list N) (t : tree) : change :=
    finish (readable t) t (fold_nodes (modify_node path) t).

  (* the tree a snapshot points to afterwards *)
  Definition result_tree (old : tree) (c : change) : tree :=
    match c with Changed t => t | _ => old end.
End Modifier.

(* ------------------------------------------------------------------ rewrite *)

Section Rewrite.
  (* `overrides.matched(path, is_dir)` is `Match::Ignore` — the glob matcher is not modelled *)
  Variable excl : list N -> bool -> bool.
  (* NodeModification::modify_node (| all_trees): new node and change flag *)
  Variable modn : node -> node * bool.

  Definition rw_visit (p : list N) (n : node) : action :=
    if excl p (is_dir n) then ARemoved
    else let '(n', ch) := modn n in
         match n_kind n' with KDir => AVisit n' ch | _ => ANode n' ch end.

  (* Rewriter::rewrite_tree: the nameless root (empty path) is not matched against the globs
     (Extracted.rewrite_root_is_matched = false, read from the source) *)
  Definition rewrite_tree (path : list N) (t : tree) : change :=
    match path with
    | [] => if rewrite_root_is_matched && excl path true then Removed
            else modify_tree rw_visit (fun _ => true) path t
    | _ => if excl path true then Removed else modify_tree rw_visit (fun _ => true) path t
    end.
End Rewrite.

(* ------------------------------------------------------------------ repair *)

Section Repair.
  (* index.get_data(id) is Some *)
  Variable has_data : N -> bool.
  (* name + opts.suffix *)
  Variable mark : N -> N.
  (* metadata after `node.meta.size = new_size` *)
  Variable resize : N -> list N -> N.
  Variable readable : tree -> bool.

  Definition rp_visit (p : list N) (n : node) : action :=
    match n with
    | Node a k m t c s =>
        match k with
        | KFile =>
            let c' := filter has_data c in
            let file_changed := negb (forallb has_data c) in
            ANode (Node (if file_changed then mark a else a) KFile m (resize t c') c' s) file_changed
        | KDir => AVisit n false
        | KDirNoSub => ACreate (Node a KDir m t c s)
        | _ => ANode n false
        end
    end.

  Definition repair_tree (t : tree) : change := modify_tree rp_visit readable [] t.
End Repair.

(* ------------------------------------------------------------------ copy *)

Inductive bt := Data | Tree.
Definition bt_eqb (a b : bt) : bool := match a, b with Data, Data | Tree, Tree => true | _, _ => false end.

Section Copy.
  (* id of a tree blob = SHA-256 of its serialisation *)
  Variable tid : tree -> N.

  (* every (type, id) a restore of the tree reads *)
  Fixpoint reach_node (n : node) : list (bt * N) :=
    match n with
    | Node _ k _ _ c s =>
        match k with
        | KFile => map (fun i => (Data, i)) c
        | KDir => (Tree, tid s) :: flat_map reach_node s
        | _ => []
        end
    end.
  Definition reach (t : tree) : list (bt * N) := (Tree, tid t) :: flat_map reach_node t.

  Definition has (ix : list (bt * N)) (b : bt * N) : bool :=
    existsb (fun e => bt_eqb (fst e) (fst b) && (snd e =? snd b)) ix.

  (* copy.rs "finding needed blobs": the root tree ids of the snapshots, plus whatever the tree walk
     (`TreeStreamerOnce`) sees below the trees it is started from.  The code must start it from ALL
     snapshot root trees — the destination may hold a root tree without everything below it; where the
     walk starts is read from the source (Extracted.copy_walk_from_all_snapshot_trees). *)
  Definition walked (dst : list (bt * N)) (snaps : list tree) : list tree :=
    if copy_walk_from_all_snapshot_trees then snaps
    else filter (fun t => negb (has dst (Tree, tid t))) snaps.
  Definition seen (dst : list (bt * N)) (snaps : list tree) : list (bt * N) :=
    map (fun t => (Tree, tid t)) snaps ++ flat_map (flat_map reach_node) (walked dst snaps).
  (* of those: ids not in the destination's TYPED index, and known to the source index
     (filter_map on index.get_data / get_tree: ids the source does not know are skipped silently —
     Extracted.copy_skips_ids_unknown_to_source, read from the source) *)
  Definition needed (src dst : list (bt * N)) (snaps : list tree) : list (bt * N) :=
    filter (fun b => negb (has dst b) && (if copy_skips_ids_unknown_to_source then has src b else true)) (seen dst snaps).
  (* data blobs first, then tree blobs *)
  Definition copy_order (l : list (bt * N)) : list (bt * N) :=
    filter (fun b => bt_eqb (fst b) Data) l ++ filter (fun b => bt_eqb (fst b) Tree) l.
End Copy.
