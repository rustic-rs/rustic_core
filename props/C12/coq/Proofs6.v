(* C12 — copy preserves content: composition of C08's repacker (`repack_preserves_blobs`: every blob handed
   to the target packer carries the decoded bytes of its own source location) and C08's packer
   (`packer_pack_wellformed`: the packs written are the groups of the ops, offsets contiguous).  Every blob
   copy needs ends up in a destination pack at an indexed location whose bytes decode to the source blob's
   bytes. *)
From Verif.Base Require Import Tactics Lists.
From Verif.C08 Require Extracted Model Spec Repack ProofsCodec ProofsPacker ProofsRepack Props.
Local Open Scope N_scope.

Module M8 := Verif.C08.Model.
Module S8 := Verif.C08.Spec.
Module R8 := Verif.C08.Repack.

Lemma slice_mid (p d t : M8.bytes) :
  M8.slice (p ++ d ++ t) (N.of_nat (length p)) (N.of_nat (length d)) = d.
Proof.
  unfold M8.slice. rewrite !Nat2N.id, skipn_app_exact, firstn_app_exact; reflexivity.
Qed.

Lemma blobs_of_locate tpe g off o : In o g ->
  exists b, In b (S8.blobs_of tpe off g) /\ M8.bid b = M8.op_id o /\ M8.btpe b = tpe /\ M8.bulen b = M8.op_ulen o /\
            forall pre tail, N.of_nat (length pre) = off ->
              M8.slice (pre ++ S8.data_of g ++ tail) (M8.boff b) (M8.blen b) = M8.op_data o.
Proof.
  intro Hin. apply in_split in Hin as [g1 [g2 ->]].
  rewrite Verif.C08.ProofsPacker.blobs_of_app, Verif.C08.ProofsPacker.data_of_app. cbn [S8.blobs_of].
  eexists. split; [apply in_or_app; right; left; reflexivity|]. cbn [M8.bid M8.btpe M8.bulen M8.boff M8.blen]. repeat split.
  (* the blob of o starts where the data before it ends *)
  intros pre tail <-. change (S8.data_of (o :: g2)) with (M8.op_data o ++ S8.data_of g2).
  rewrite <- Nat2N.inj_add, <- app_length, <- !app_assoc, (app_assoc pre). apply slice_mid.
Qed.

Lemma pack_of_group_locate enc tpe g o : In o g ->
  exists b, In b (snd (S8.pack_of_group enc tpe g)) /\ M8.bid b = M8.op_id o /\ M8.btpe b = tpe /\
            M8.bulen b = M8.op_ulen o /\
            M8.slice (fst (S8.pack_of_group enc tpe g)) (M8.boff b) (M8.blen b) = M8.op_data o.
Proof.
  intro Hin. destruct (blobs_of_locate tpe g 0 o Hin) as [b [Hb [H1 [H2 [H3 H4]]]]].
  exists b. unfold S8.pack_of_group. cbn [fst snd]. repeat split; try assumption.
  unfold S8.pack_file. apply (H4 [] _ eq_refl).
Qed.

(* with distinct ids no op is dropped as a duplicate: the packer's groups are the ops in order, cut at the saves *)
Lemma spec_groups_concat : forall ops cur,
  NoDup (map M8.op_id (cur ++ ops)) -> concat (S8.spec_groups cur ops) = cur ++ ops.
Proof.
  induction ops as [|a r IH]; intros cur Hnd; cbn [S8.spec_groups].
  - rewrite app_nil_r. destruct cur; [reflexivity | apply app_nil_r].
  - (* the id of a is fresh: a joins the current group *)
    assert (existsb (fun p => M8.bytes_eqb (M8.op_id p) (M8.op_id a)) cur = false) as ->.
    { apply not_true_iff_false. intro E. apply existsb_exists in E as [p [Hp Ep]].
      apply Verif.C08.ProofsCodec.bytes_eqb_eq in Ep. rewrite map_app in Hnd.
      apply NoDup_remove_2 in Hnd. apply Hnd, in_or_app. left. rewrite <- Ep. apply in_map, Hp. }
    change (cur ++ a :: r) with (cur ++ [a] ++ r) in *. rewrite app_assoc in *.
    destruct (M8.op_save a); [|exact (IH (cur ++ [a]) Hnd)].
    cbn [concat]. f_equal. apply (IH []). rewrite map_app in Hnd. apply NoDup_app_iff in Hnd as (_ & Hnd & _). exact Hnd.
Qed.

Lemma Forall2_in_l {A B} (R : A -> B -> Prop) l l' x : Forall2 R l l' -> In x l -> exists y, In y l' /\ R x y.
Proof.
  induction 1 as [|a b l l' Hab _ IH]; [intros []|]. intros [<-|Hx]; [exists b; split; [left; reflexivity | exact Hab]|].
  destruct (IH Hx) as [y [Hy HR]]. exists y. split; [right; exact Hy | exact HR].
Qed.

Section CopyContent.
  (* source: pack store and blob decoder (decrypt with the source key, decompress, check the length) *)
  Variable sstore : M8.id -> option M8.bytes.
  Variable sdecode : M8.bytes -> option N -> option M8.bytes.
  (* destination: blob encoder of Packer::add (compress, encrypt with the destination key), its
     uncompressed-length field, the decoder of a reader, and the header encryption of the packer *)
  Variable denc : M8.bytes -> M8.bytes.
  Variable dulen : M8.bytes -> option N.
  Variable ddec : M8.bytes -> option N -> option M8.bytes.
  Variable enc : M8.bytes -> M8.bytes.
  Hypothesis Hddec : forall x, ddec (denc x) (dulen x) = Some x.
  Hypothesis Henc : forall x, length (enc x) = (length x + 32)%nat.

  (* BlobCopier::copy hands (id, decoded bytes) to Packer::add; `saves` = should_save after each blob *)
  Fixpoint dest_ops (out : list R8.handed) (saves : list bool) : list M8.pop :=
    match out with
    | [] => []
    | (i, pd, _) :: r =>
        M8.mkop (denc pd) i (dulen pd) (hd false saves) :: dest_ops r (tl saves)
    end.

  Lemma dest_ops_ids out : forall saves, map M8.op_id (dest_ops out saves) = map (fun h => fst (fst h)) out.
  Proof. induction out as [|[[i pd] u] r IH]; intro saves; cbn [dest_ops map fst M8.op_id]; [reflexivity | rewrite IH; reflexivity]. Qed.

  Lemma dest_ops_in out : forall saves i pd u, In (i, pd, u) out ->
    exists sv, In (M8.mkop (denc pd) i (dulen pd) sv) (dest_ops out saves).
  Proof.
    induction out as [|[[j qd] v] r IH]; intros saves i pd u Hin; [destruct Hin|]. cbn [dest_ops].
    destruct Hin as [E|Hin]; [inv E; eexists; left; reflexivity|].
    destruct (IH (tl saves) i pd u Hin) as [sv Hs]. exists sv. right. exact Hs.
  Qed.

  Lemma copy_preserves_content_lemma : forall tpe es out saves packs,
    NoDup (map R8.ce_id es) ->
    R8.repack true sstore sdecode es = M8.Ok out ->
    Forall S8.wf_op (dest_ops out saves) ->
    M8.packer_run enc tpe (dest_ops out saves) = M8.Ok packs ->
    forall e, In e es ->
      exists pd f bs b,
        R8.expected_of sstore sdecode e = Some (R8.ce_id e, pd, R8.l_ulen (R8.ce_loc e)) /\
        In (f, bs) packs /\ In b bs /\ M8.bid b = R8.ce_id e /\ M8.btpe b = tpe /\
        ddec (M8.slice f (M8.boff b) (M8.blen b)) (M8.bulen b) = Some pd.
  Proof.
    intros tpe es out saves packs Hnd Hrep Hwf Hrun e He.
    pose proof (Verif.C08.Props.repack_preserves_blobs sstore sdecode es out Hrep) as HF.
    destruct (Forall2_in_l _ _ _ _ HF He) as [h [Hh Eh]]. destruct (Verif.C08.ProofsRepack.expected_of_some _ _ _ _ Eh) as (_ & pd & _ & _ & _ & ->).
    exists pd.
    (* ids of the ops are the ids of the entries: no duplicates *)
    assert (map (fun h => fst (fst h)) out = map R8.ce_id es) as Hids.
    { clear -HF. induction HF as [|x y l l' Hxy HF IH]; [reflexivity|]. cbn [map]. rewrite IH. f_equal.
      destruct (Verif.C08.ProofsRepack.expected_of_some _ _ _ _ Hxy) as (_ & pd & _ & _ & _ & ->). reflexivity. }
    destruct (Verif.C08.Props.packer_pack_wellformed enc tpe _ packs Henc Hwf Hrun) as [Hpacks _].
    destruct (dest_ops_in out saves _ _ _ Hh) as [sv Hop].
    pose proof (spec_groups_concat (dest_ops out saves) []) as Hc. cbn [app] in Hc.
    rewrite <- Hc in Hop by (rewrite dest_ops_ids, Hids; exact Hnd).
    apply in_concat in Hop as [g [Hg Hog]].
    destruct (pack_of_group_locate enc tpe g _ Hog) as [b [Hb [B1 [B2 [B3 B4]]]]].
    exists (fst (S8.pack_of_group enc tpe g)), (snd (S8.pack_of_group enc tpe g)), b.
    split; [exact Eh|]. split.
    - rewrite Hpacks. rewrite <- surjective_pairing. apply in_map. exact Hg.
    - split; [exact Hb|]. cbn [M8.op_id M8.op_ulen M8.op_data] in B1, B3, B4. split; [exact B1|]. split; [exact B2|].
      rewrite B4, B3. apply Hddec.
  Qed.
End CopyContent.
