(* C12 — the transcription of std's BinaryHeap (Model.heap_push / heap_pop: Vec push + sift_up;
   pop last, swap with the root, sift_down_to_bottom, sift_up) is a priority queue on heap-ordered
   vectors: the heap order is an invariant, push/pop preserve the multiset, pop returns an element of
   least name.

   Both sift functions move a hole through the vector.  The multiset is followed as "the vector without
   the hole" (`del`), the order as "some key in the hole would make the vector heap-ordered" (`holed`). *)
From Verif.Base Require Import Tactics.
From Verif.C12 Require Import Model.
Local Open Scope nat_scope.

Definition key (e : hnode) : N := n_name (fst e).
Definition par (i : nat) : nat := (i - 1) / 2.

Definition heap_ok (data : list hnode) : Prop :=
  forall i d, 0 < i < length data -> (key (nth (par i) data d) <= key (nth i data d))%N.

Lemma hle_key a b : hle a b = (key b <=? key a)%N.
Proof. reflexivity. Qed.

Lemma par_lt i : 0 < i -> par i < i.
Proof. unfold par. lia. Qed.

Lemma par_children i p : 0 < i -> par i = p <-> i = 2 * p + 1 \/ i = 2 * p + 1 + 1.
Proof. unfold par. lia. Qed.

Lemma set_nth_length {A} i (v : A) l : length (set_nth i v l) = length l.
Proof. revert i; induction l as [|x l IH]; intros [|i]; cbn [set_nth length]; auto. Qed.

Lemma nth_set_nth {A} i j (v d : A) l : i < length l ->
  nth j (set_nth i v l) d = if j =? i then v else nth j l d.
Proof.
  revert i j; induction l as [|x l IH]; intros [|i] [|j] H; cbn [length] in H; try lia; cbn [set_nth nth Nat.eqb];
    try reflexivity.
  apply IH. lia.
Qed.

Lemma nth_set_nth_neq {A} i j (v d : A) l : i <> j -> nth j (set_nth i v l) d = nth j l d.
Proof.
  revert i j; induction l as [|x l IH]; intros [|i] [|j] H; cbn [set_nth nth]; try reflexivity; try lia.
  apply IH. lia.
Qed.

Fixpoint del {A} (i : nat) (l : list A) : list A :=
  match i, l with
  | _, [] => []
  | O, _ :: r => r
  | S j, x :: r => x :: del j r
  end.

Lemma perm_del {A} i (d : A) l : i < length l -> Permutation l (nth i l d :: del i l).
Proof.
  revert i; induction l as [|x l IH]; intros [|i] H; cbn [length] in H; try lia; cbn [nth del].
  - apply Permutation_refl.
  - eapply Permutation_trans; [apply perm_skip; apply (IH i); lia | apply perm_swap].
Qed.

Lemma perm_set_nth {A} i (v : A) l : i < length l -> Permutation (set_nth i v l) (v :: del i l).
Proof.
  revert i; induction l as [|x l IH]; intros [|i] H; cbn [length] in H; try lia; cbn [set_nth del].
  - apply Permutation_refl.
  - eapply Permutation_trans; [apply perm_skip; apply (IH i); lia | apply perm_swap].
Qed.

(* moving the element at j into the hole at i moves the hole to j *)
Lemma del_move {A} i j (d : A) l : i <> j -> i < length l -> j < length l ->
  Permutation (del j (set_nth i (nth j l d) l)) (del i l).
Proof.
  intros Hne Hi Hj.
  pose proof (perm_del j d (set_nth i (nth j l d) l)) as P1. rewrite set_nth_length in P1. specialize (P1 Hj).
  rewrite nth_set_nth_neq in P1 by exact Hne.
  eapply Permutation_cons_inv, Permutation_trans; [apply Permutation_sym; exact P1 | apply perm_set_nth; exact Hi].
Qed.

Lemma del_last {A} (l : list A) x : del (length l) (l ++ [x]) = l.
Proof. induction l as [|a l IH]; cbn [length app del]; [reflexivity | rewrite IH; reflexivity]. Qed.

Lemma sift_up_perm : forall f data pos elt, pos < length data ->
  Permutation (sift_up f data pos elt) (elt :: del pos data).
Proof.
  induction f as [|f IH]; intros data pos elt Hp; cbn [sift_up]; [apply perm_set_nth; exact Hp|].
  destruct pos as [|p]; [apply perm_set_nth; exact Hp|].
  fold (par (S p)). pose proof (par_lt (S p) (Nat.lt_0_succ p)) as Hlt.
  destruct (hle elt (nth (par (S p)) data elt)); [apply perm_set_nth; exact Hp|].
  eapply Permutation_trans; [apply IH; rewrite set_nth_length; lia|].
  apply perm_skip. apply del_move; lia.
Qed.

Lemma heap_push_perm data x : Permutation (heap_push data x) (x :: data).
Proof.
  unfold heap_push. eapply Permutation_trans; [apply sift_up_perm; rewrite app_length; cbn; lia|].
  rewrite del_last. apply Permutation_refl.
Qed.

Section Order.
  (* the default of `nth`: the sift functions use the element they move *)
  Variable d : hnode.

  Definition kat (data : list hnode) (i : nat) : N := key (nth i data d).
  Definition ordered (data : list hnode) : Prop :=
    forall i, 0 < i < length data -> (kat data (par i) <= kat data i)%N.
  (* the keys with h in the place of the key at pos; a vector has a hole at pos if some key there would
     make it heap-ordered (one between the hole's parent and its children) *)
  Definition kfill (data : list hnode) (pos : nat) (h : N) (i : nat) : N := if i =? pos then h else kat data i.
  Definition holed (data : list hnode) (pos : nat) : Prop :=
    exists h, forall i, 0 < i < length data -> (kfill data pos h (par i) <= kfill data pos h i)%N.

  Lemma heap_ok_ordered data : heap_ok data <-> ordered data.
  Proof.
    split; intros H i; [apply H|]. intros d' Hi. pose proof (par_lt i (proj1 Hi)).
    rewrite !(nth_indep data d' d) by lia. apply H. exact Hi.
  Qed.

  Lemma kat_set data p v i : p < length data -> kat (set_nth p v data) i = kfill data p (key v) i.
  Proof. intro H. unfold kat, kfill. rewrite nth_set_nth by exact H. destruct (i =? p); reflexivity. Qed.

  Lemma ordered_holed data pos : ordered data -> holed data pos.
  Proof.
    intro H. exists (kat data pos). intros i Hi.
    assert (forall j, kfill data pos (kat data pos) j = kat data j) as E
      by (intro j; unfold kfill; destruct (Nat.eqb_spec j pos) as [->|]; reflexivity).
    rewrite !E. apply H. exact Hi.
  Qed.

  (* what stands in the hole does not matter *)
  Lemma holed_set data pos v : pos < length data -> holed data pos -> holed (set_nth pos v data) pos.
  Proof.
    intros Hp [h H]. exists h. intros i Hi. rewrite set_nth_length in Hi. specialize (H i Hi).
    unfold kfill in *. rewrite !kat_set by exact Hp. unfold kfill. destruct (par i =? pos), (i =? pos); exact H.
  Qed.

  (* a new last position is a hole: any key above its parent's fits *)
  Lemma holed_snoc data x : ordered data -> holed (data ++ [x]) (length data).
  Proof.
    intro H. exists (kat data (par (length data))). intros i Hi. rewrite app_length in Hi. cbn [length] in Hi.
    pose proof (par_lt i (proj1 Hi)). unfold kfill, kat.
    destruct (Nat.eqb_spec i (length data)) as [Ei|Hn]; destruct (Nat.eqb_spec (par i) (length data)); try lia;
      rewrite !app_nth1 by lia; [subst i; apply N.le_refl | apply H; lia].
  Qed.

  (* the parent of a hole is below the hole's children *)
  Lemma holed_grand data pos i : holed data pos -> 0 < pos -> 0 < i < length data -> par i = pos ->
    (kat data (par pos) <= kat data i)%N.
  Proof.
    intros [h H] Hp Hi Ei. pose proof (par_lt i (proj1 Hi)). pose proof (par_lt pos Hp).
    pose proof (H i Hi) as G1. pose proof (H pos ltac:(lia)) as G2. unfold kfill in G1, G2.
    rewrite Ei, Nat.eqb_refl in G1. rewrite Nat.eqb_refl in G2.
    destruct (Nat.eqb_spec i pos); destruct (Nat.eqb_spec (par pos) pos); lia.
  Qed.

  (* an element that is above the hole's parent and below its children fills the hole *)
  Lemma fill_ordered data pos v : pos < length data -> holed data pos ->
    (0 < pos -> (kat data (par pos) <= key v)%N) ->
    (forall i, 0 < i < length data -> par i = pos -> (key v <= kat data i)%N) ->
    ordered (set_nth pos v data).
  Proof.
    intros Hp [h H] Hpar Hc i Hi. rewrite set_nth_length in Hi. rewrite !kat_set by exact Hp.
    pose proof (par_lt i (proj1 Hi)). specialize (H i Hi). specialize (Hc i Hi). unfold kfill in *.
    destruct (Nat.eqb_spec i pos) as [Ei|Hn]; destruct (Nat.eqb_spec (par i) pos) as [E|Hn2].
    - lia.
    - subst i. apply Hpar. lia.
    - apply Hc. exact E.
    - exact H.
  Qed.

  Lemma sift_up_ok : forall f data pos, pos < length data -> pos <= f -> holed data pos ->
    (forall i, 0 < i < length data -> par i = pos -> (key d <= kat data i)%N) ->
    ordered (sift_up f data pos d).
  Proof.
    induction f as [|f IH]; intros data pos Hp Hf Hh Hc; cbn [sift_up];
      [|destruct pos as [|p]]; try (apply fill_ordered; [exact Hp | exact Hh | lia | exact Hc]).
    fold (par (S p)). pose proof (par_lt (S p) (Nat.lt_0_succ p)) as Hlt. set (q := par (S p)) in *.
    rewrite hle_key. fold (kat data q). destruct (kat data q <=? key d)%N eqn:E.
    - apply fill_ordered; [exact Hp | exact Hh | intros _; apply N.leb_le, E | exact Hc].
    - (* the parent is larger: it moves down, the hole moves up; its children are above the parent *)
      assert (ordered (set_nth (S p) (nth q data d) data)) as Ho.
      { apply fill_ordered; [exact Hp | exact Hh | intros _; apply N.le_refl|].
        intros i Hi Ei. apply (holed_grand data (S p) i Hh (Nat.lt_0_succ p) Hi Ei). }
      apply IH; [rewrite set_nth_length; lia | lia | apply ordered_holed, Ho|].
      intros i Hi Ei. specialize (Ho i Hi). rewrite Ei, (kat_set data (S p) _ q Hp) in Ho. unfold kfill in Ho.
      rewrite (proj2 (Nat.eqb_neq q (S p))) in Ho by lia. lia.
  Qed.

  Lemma heap_root_least data : ordered data -> forall i, i < length data -> (kat data 0 <= kat data i)%N.
  Proof.
    intros H i. induction i as [i IH] using lt_wf_ind. intro Hi. destruct i as [|i]; [lia|].
    pose proof (par_lt (S i) (Nat.lt_0_succ i)) as Hlt.
    specialize (IH (par (S i)) Hlt ltac:(lia)). specialize (H (S i) ltac:(lia)). lia.
  Qed.

  (* r is data with the hole moved from pos to a position without children *)
  Definition sifted (data : list hnode) (pos : nat) (r : list hnode * nat) : Prop :=
    length (fst r) = length data /\ snd r < length data /\ Permutation (del (snd r) (fst r)) (del pos data) /\
    holed (fst r) (snd r) /\ length data <= 2 * snd r + 1.

  Lemma sifted_leaf data pos : pos < length data -> holed data pos -> length data <= 2 * pos + 1 ->
    sifted data pos (data, pos).
  Proof. intros Hp Hh Hl. split; [reflexivity|]. split; [exact Hp|]. split; [apply Permutation_refl|]. split; assumption. Qed.

  (* the least child c of the hole moves up: the hole is at c, and sifting on from there sifts from pos *)
  Lemma hole_to_child data pos c : holed data pos -> c < length data -> c = 2 * pos + 1 \/ c = 2 * pos + 1 + 1 ->
    (forall i, i < length data -> i = 2 * pos + 1 \/ i = 2 * pos + 1 + 1 -> (kat data c <= kat data i)%N) ->
    holed (set_nth pos (nth c data d) data) c /\
    forall r, sifted (set_nth pos (nth c data d) data) c r -> sifted data pos r.
  Proof.
    intros Hh Hc Ec Hmin. assert (par c = pos) as Pc by (apply par_children; lia). split.
    - apply ordered_holed, fill_ordered; [lia | exact Hh | |].
      + intro H0. apply (holed_grand data pos c Hh H0); [lia | exact Pc].
      + intros i Hi Ei. apply Hmin; [lia | apply par_children; [lia | exact Ei]].
    - intros r [H1 [H2 [H3 H4]]]. rewrite set_nth_length in *. split; [exact H1|]. split; [exact H2|]. split; [|exact H4].
      apply (Permutation_trans H3), del_move; lia.
  Qed.

  Lemma sift_down_spec : forall f data pos, pos < length data -> length data <= pos + f -> holed data pos ->
    sifted data pos (sift_down f data pos (length data) d).
  Proof.
    induction f as [|f IH]; intros data pos Hp Hf Hh; [lia|]. cbn [sift_down].
    pose proof (hole_to_child data pos) as Hmove. remember (2 * pos + 1) as l eqn:El.
    destruct (l + 2 <=? length data) eqn:E2; [|destruct (l + 1 =? length data) eqn:E1].
    - (* two children *)
      apply Nat.leb_le in E2. rewrite hle_key. fold (kat data l) (kat data (l + 1)).
      set (c := if (kat data (l + 1) <=? kat data l)%N then l + 1 else l).
      assert ((c = l \/ c = l + 1) /\ (kat data c <= kat data l)%N /\ (kat data c <= kat data (l + 1))%N)
        as [Hcc [Hk1 Hk2]] by (unfold c; destruct (_ <=? _)%N eqn:E; split; auto; lia).
      destruct (Hmove c Hh) as [Hc Hr]; [lia | exact Hcc | intros i _ [-> | ->]; assumption |].
      apply Hr. pose proof (IH (set_nth pos (nth c data d) data) c) as HIH. rewrite set_nth_length in HIH.
      apply HIH; [lia | lia | exact Hc].
    - (* one child *)
      apply Nat.eqb_eq in E1. destruct (Hmove l Hh) as [Hc Hr]; [lia | left; reflexivity | intros i Hi [-> | ->]; [apply N.le_refl | lia] |].
      apply Hr, sifted_leaf; rewrite ?set_nth_length; [lia | exact Hc | lia].
    - apply Nat.leb_gt in E2. apply Nat.eqb_neq in E1. apply sifted_leaf; [exact Hp | exact Hh | lia].
  Qed.
End Order.

Lemma heap_ok_nil : heap_ok [].
Proof. intros i d H. cbn in H. lia. Qed.

Lemma heap_push_ok data x : heap_ok data -> heap_ok (heap_push data x).
Proof.
  intro H. apply (heap_ok_ordered x). unfold heap_push.
  apply sift_up_ok; rewrite ?app_length; cbn [length]; try lia.
  - apply holed_snoc, (heap_ok_ordered x), H.
  - intros i Hi Ei. apply par_children in Ei; lia.
Qed.

Lemma heap_ok_prefix l r : heap_ok (l ++ r) -> heap_ok l.
Proof.
  intros H i d Hi. pose proof (par_lt i (proj1 Hi)). specialize (H i d). rewrite app_length in H.
  rewrite !app_nth1 in H by lia. apply H. lia.
Qed.

Lemma heap_pop_snoc rest last : heap_pop (rest ++ [last]) =
  match rest with
  | [] => Some (last, [])
  | top :: _ =>
      let '(data2, pos) := sift_down (S (length rest)) (set_nth O last rest) O (length rest) last in
      Some (top, sift_up (S (length rest)) data2 pos last)
  end.
Proof. unfold heap_pop. rewrite rev_app_distr. cbn [rev app]. rewrite rev_involutive. reflexivity. Qed.

Lemma heap_pop_none data : heap_pop data = None -> data = [].
Proof.
  destruct data as [|last rest _] using rev_ind; [reflexivity|]. rewrite heap_pop_snoc.
  destruct rest; [discriminate|]. destruct (sift_down _ _ _ _ _). discriminate.
Qed.

(* the vector with `last` in the place of the root is put in order again *)
Lemma pop_sift rest last : 0 < length rest -> heap_ok rest ->
  let r := sift_down (S (length rest)) (set_nth 0 last rest) 0 (length rest) last in
  let h' := sift_up (S (length rest)) (fst r) (snd r) last in
  heap_ok h' /\ Permutation h' (last :: del 0 rest).
Proof.
  intros Hn Hok. pose proof (sift_down_spec last (S (length rest)) (set_nth 0 last rest) 0) as Hd.
  rewrite set_nth_length in Hd. destruct (Hd Hn ltac:(lia)) as [Hl [Hpos [Pd [Hh Hleaf]]]]; clear Hd.
  { (* the root is the hole *)
    apply holed_set; [exact Hn|]. apply ordered_holed, (heap_ok_ordered last), Hok. }
  rewrite set_nth_length in Hl, Hpos, Hleaf. cbv zeta. split.
  - apply (heap_ok_ordered last), sift_up_ok; [lia | lia | exact Hh|].
    intros i Hi Ei. apply par_children in Ei; lia.
  - eapply Permutation_trans; [apply sift_up_perm; lia|]. apply perm_skip.
    eapply Permutation_trans; [exact Pd|]. destruct rest; apply Permutation_refl.
Qed.

Lemma heap_pop_some data x h' : heap_ok data -> heap_pop data = Some (x, h') ->
  heap_ok h' /\ Permutation data (x :: h') /\ forall y, In y h' -> (key x <= key y)%N.
Proof.
  intros Hok. destruct data as [|last rest _] using rev_ind; [discriminate|]. rewrite heap_pop_snoc.
  destruct rest as [|top tl].
  { intro H. inv H. split; [apply heap_ok_nil|]. split; [apply Permutation_refl | intros y []]. }
  pose proof (pop_sift (top :: tl) last (Nat.lt_0_succ _) (heap_ok_prefix _ _ Hok)) as Hs. revert Hs.
  destruct (sift_down _ _ _ _ _) as [data2 pos]. cbn [fst snd del].
  remember (sift_up _ data2 pos last) as res eqn:Eres. intros [Hh' P] H. injection H as <- <-.
  split; [exact Hh'|]. split.
  - cbn [app]. apply perm_skip.
    eapply Permutation_trans; [apply Permutation_sym, Permutation_cons_append | apply Permutation_sym, P].
  - (* the root of a heap is least *)
    intros y Hy. apply (Permutation_in _ P) in Hy.
    assert (In y ((top :: tl) ++ [last])) as Hy2.
    { right. apply in_or_app. destruct Hy as [<-|Hy]; [right; left; reflexivity | left; exact Hy]. }
    destruct (In_nth _ _ top Hy2) as [i [Hi <-]]. apply (heap_ok_ordered top) in Hok.
    exact (heap_root_least top _ Hok i Hi).
Qed.
