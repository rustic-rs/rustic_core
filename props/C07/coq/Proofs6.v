(* C07 — edit locality for the chunkers of rustic_core: the abstract hypotheses
   `chunker_partition` and `resync_after_common_cut` are discharged for C06's specification
   `cuts p` of the Rabin chunker (which C06 proves equal to what the ChunkIter model yields for
   every read schedule, size hint and arithmetic mode) and for `fixed_cuts size`.  Both are
   greedy cuttings by a length function (C06's `greedy`), and that with causality of the
   length function is all the two hypotheses need. *)
From Verif.Base Require Import Tactics.
From Verif.C06 Require Import Extracted Model Spec ListLemmas Proofs Proofs2 Proofs3 Proofs4.
From Verif.C07 Require Import Model Spec.
Local Open Scope nat_scope.

Lemma rabin_partition p : (1 <= c_min p)%N -> chunker_partition (cuts p).
Proof. intro Hm. exact (greedy_partition _ _ (fun s => first_len_pos _ p s Hm) (cuts_greedy p)). Qed.

Lemma rabin_resync p : (1 <= c_min p)%N -> resync_after_common_cut (cuts p).
Proof.
  intro Hm. exact (greedy_resync _ _ (fun s => first_len_pos _ p s Hm) (cuts_greedy p) (first_len_causal _ p)).
Qed.

Lemma accepted_rabin P avg mn mx : rabin_accepts avg mn mx = true ->
  let p := {| c_poly := P; c_avg := avg; c_min := mn; c_max := mx |} in
  chunker_partition (cuts p) /\ resync_after_common_cut (cuts p) /\
  forall md hint s sched, chunks_impl md p hint s sched = Ok (cuts p s).
Proof.
  intros H p. pose proof (accepted_params_ok_lemma P avg mn mx H) as Hp.
  pose proof (params_ok_min p Hp) as Hm.
  split; [exact (rabin_partition p Hm)|]. split; [exact (rabin_resync p Hm)|].
  intros. apply chunks_impl_is_cuts, Hp.
Qed.

Lemma fixed_partition size : (0 < size)%N -> chunker_partition (fixed_cuts size).
Proof. intro Hs. apply (greedy_partition _ _ (fixed_len_pos size Hs) (fixed_greedy size)). Qed.

Lemma fixed_resync size : (0 < size)%N -> resync_after_common_cut (fixed_cuts size).
Proof. intro Hs. exact (greedy_resync _ _ (fixed_len_pos size Hs) (fixed_greedy size) (fun _ _ _ _ E => E)). Qed.

Lemma accepted_fixed size : fixed_accepts size = true ->
  chunker_partition (fixed_cuts size) /\ resync_after_common_cut (fixed_cuts size) /\
  forall hint s sched, fixed_impl size hint s sched = Some (fixed_cuts size s).
Proof.
  intro H. pose proof (accepted_fixed_size_pos size H) as Hs.
  split; [exact (fixed_partition size Hs)|]. split; [exact (fixed_resync size Hs)|].
  intros. apply fixed_size_partition_lemma, Hs.
Qed.

Lemma fixed_cuts_app_aligned size : (0 < size)%N -> forall k (u v : list N),
  nlen u = (N.of_nat k * size)%N -> fixed_cuts size (u ++ v) = fixed_cuts size u ++ fixed_cuts size v.
Proof.
  intros Hs. induction k as [|k IH]; intros u v Hu.
  - assert (u = []) as -> by (apply nlen_0; lia). reflexivity.
  - assert (Nu : u <> []) by (intro Z; subst u; cbn in Hu; lia).
    assert (Nuv : u ++ v <> []) by (destruct u; [congruence | discriminate]).
    rewrite (fixed_cuts_unfold size _ Hs Nuv), (fixed_cuts_unfold size _ Hs Nu).
    rewrite ntake_app, ndrop_app.
    replace (size - nlen u)%N with 0%N by lia. rewrite ntake_0, ndrop_0, app_nil_r. cbn [app]. f_equal.
    apply IH. rewrite nlen_ndrop. lia.
Qed.

Lemma fixed_overwrite_cuts size k j (u m m' v : list N) :
  (0 < size)%N -> nlen u = (N.of_nat k * size)%N ->
  nlen m = nlen m' -> (nlen m = (N.of_nat j * size)%N \/ v = []) ->
  fixed_cuts size (u ++ m ++ v) = fixed_cuts size u ++ fixed_cuts size m ++ fixed_cuts size v /\
  fixed_cuts size (u ++ m' ++ v) = fixed_cuts size u ++ fixed_cuts size m' ++ fixed_cuts size v.
Proof.
  intros Hs Hu Hm [Hj| ->]; rewrite !(fixed_cuts_app_aligned size Hs k u _ Hu).
  - rewrite (fixed_cuts_app_aligned size Hs j m v Hj), (fixed_cuts_app_aligned size Hs j m' v) by lia. auto.
  - rewrite !app_nil_r. auto.
Qed.

(* restic's documented polynomial, min = avg = 4096, max = 8192; three chunks of zeros (the
   fingerprint of an all-zero window is 0: a content-defined cut as soon as min is reached); one
   byte of the middle chunk overwritten: the chunks before and behind are untouched *)
Definition rp : cparams := {| c_poly := 0x3DA3358B4DC173; c_avg := 4096; c_min := 4096; c_max := 8192 |}.
Definition rz : bytes := repeat 0%N 4096.
Definition rm_old : bytes := repeat 0%N 1904 ++ [0%N] ++ repeat 0%N 2191.
Definition rm_new : bytes := repeat 0%N 1904 ++ [1%N] ++ repeat 0%N 2191.
