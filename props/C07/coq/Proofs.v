(* C07 — the archiver: what is handed to the packers is exactly the part of the new
   state that the loaded typed index does not have; tree id and blob set do not depend
   on the index. *)
From Verif.Base Require Import Tactics.
From Verif.C13 Require Import Extracted Model Proofs Proofs2.
From Verif.C07 Require Import Extracted Model.
Local Open Scope nat_scope.

(* the gates read from the source are `!has` *)
Lemma gate_negb t b : gate t b = negb b.
Proof. destruct t; reflexivity. Qed.

Lemma ghas_In g t i : ghas g t i = true <-> In (t, i) g.
Proof.
  unfold ghas. rewrite existsb_exists. split.
  - intros [[t' i'] [H E]]. apply andb_true_iff in E. destruct E as [E1 E2]. cbn in E1, E2.
    apply bt_eqb_eq in E1. apply N.eqb_eq in E2. subst. assumption.
  - intro H. exists (t, i). split; [assumption|]. cbn. apply andb_true_iff. split.
    + apply bt_eqb_eq. reflexivity.
    + apply N.eqb_refl.
Qed.

Lemma ghas_false_In g t i : ghas g t i = false <-> ~ In (t, i) g.
Proof. rewrite <- ghas_In. destruct (ghas g t i); intuition congruence. Qed.

Lemma ghas_app g1 g2 t i : ghas (g1 ++ g2) t i = ghas g1 t i || ghas g2 t i.
Proof. apply existsb_app. Qed.

Definition keep (g : gindex) (x : bt * id) : bool := negb (ghas g (fst x) (snd x)).

(* the archiver state after the blobs bl have been offered: the index decides only which of
   them are also requested *)
Definition ext (g : gindex) (a : ast) tr st (bl : list (bt * id)) : ast :=
  {| a_tree := tr; a_stack := st; a_all := a_all a ++ bl; a_sent := a_sent a ++ filter (keep g) bl |}.

Lemma ext_ext g a tr st l1 tr' st' l2 : ext g (ext g a tr st l1) tr' st' l2 = ext g a tr' st' (l1 ++ l2).
Proof. unfold ext. cbn [a_all a_sent]. rewrite filter_app, !app_assoc. reflexivity. Qed.

Lemma ext_nil g a : ext g a (a_tree a) (a_stack a) [] = a.
Proof. destruct a. unfold ext. cbn. rewrite !app_nil_r. reflexivity. Qed.

Lemma offer_ext g a t i : offer g a t i = ext g a (a_tree a) (a_stack a) [(t, i)].
Proof. unfold offer, ext, keep. cbn [filter fst snd]. rewrite gate_negb. destruct (ghas g t i); reflexivity. Qed.

Lemma offer_chunks_ext g cs : forall a,
  offer_chunks g a cs = ext g a (a_tree a) (a_stack a) (map (pair Data) cs).
Proof.
  unfold offer_chunks. induction cs as [|c cs IH]; intro a; cbn [fold_left map].
  - symmetry. apply ext_nil.
  - rewrite IH, offer_ext, ext_ext. reflexivity.
Qed.

Lemma keep_data g l :
  filter (keep g) (map (pair Data) l) = map (pair Data) (filter (fun c => gate Data (ghas g Data c)) l).
Proof.
  induction l as [|c l IH]; [reflexivity|]. cbn [map filter]. unfold keep at 1. cbn [fst snd].
  rewrite gate_negb, IH. destruct (negb _); reflexivity.
Qed.

Section ArchiverProofs.
  Variable tid : list entry -> id.

  (* the archiver without an index: the tree under construction, the stack, and the blobs of
     the new state so far *)
  Fixpoint walk tr (st : list (N * N * list entry)) (bl : list (bt * id)) (its : list item) :=
    match its with
    | [] => Some (tr, st, bl)
    | NewTree nm m :: r => walk [] ((nm, m, tr) :: st) bl r
    | EndTree :: r => match st with
                      | [] => None
                      | (nm, m, tr0) :: st' => walk (tr0 ++ [EDir nm m (tid tr)]) st' (bl ++ [(Tree, tid tr)]) r
                      end
    | Other nm m cs :: r => walk (tr ++ [EFile nm m cs]) st (bl ++ map (pair Data) cs) r
    end.

  Lemma arun_ext g a : forall its tr st bl,
    arun tid g (ext g a tr st bl) its =
    option_map (fun x => ext g a (fst (fst x)) (snd (fst x)) (snd x)) (walk tr st bl its).
  Proof.
    induction its as [|[nm m| |nm m cs] its IH]; intros tr st bl; cbn [arun walk astep]; [reflexivity|..].
    - apply IH.
    - cbn [ext a_stack a_tree]. destruct st as [|[[nm m] tr0] st]; [reflexivity|].
      rewrite offer_ext, ext_ext. apply IH.
    - rewrite offer_chunks_ext, ext_ext. apply IH.
  Qed.

  Definition result_of g (x : list entry * list (N * N * list entry) * list (bt * id)) : result :=
    let all := snd x ++ [(Tree, tid (fst (fst x)))] in
    {| r_root := tid (fst (fst x)); r_all := all; r_sent := filter (keep g) all |}.

  Lemma archive_walk g its : archive tid g its = option_map (result_of g) (walk [] [] [] its).
  Proof.
    unfold archive. change a_init with (ext g a_init [] [] []). rewrite arun_ext.
    destruct (walk [] [] [] its) as [[[tr st] bl]|]; [|reflexivity].
    cbn [option_map fst snd]. rewrite offer_ext, ext_ext. reflexivity.
  Qed.

  Lemma sent_is_filter_lemma g its r :
    archive tid g its = Some r -> r_sent r = filter (keep g) (r_all r).
  Proof. rewrite archive_walk. destruct (walk [] [] [] its); [|discriminate]. intros [= <-]. reflexivity. Qed.

  Lemma sent_iff g its r t i :
    archive tid g its = Some r ->
    (In (t, i) (r_sent r) <-> In (t, i) (r_all r) /\ ghas g t i = false).
  Proof.
    intro A. rewrite (sent_is_filter_lemma g its r A), filter_In. unfold keep. cbn [fst snd].
    rewrite negb_true_iff. tauto.
  Qed.

  Lemma sent_nil_if_covered g its r :
    archive tid g its = Some r -> (forall t i, In (t, i) (r_all r) -> ghas g t i = true) -> r_sent r = [].
  Proof.
    intros A C. destruct (r_sent r) as [|[t i] l] eqn:E; [reflexivity|].
    assert (H : In (t, i) (r_sent r)) by (rewrite E; left; reflexivity).
    apply (sent_iff g its r t i A) in H. destruct H as [H1 H2]. rewrite (C t i H1) in H2. discriminate.
  Qed.

  Lemma archive_index_independent_lemma g1 g2 its r1 :
    archive tid g1 its = Some r1 ->
    exists r2, archive tid g2 its = Some r2 /\ r_root r2 = r_root r1 /\ r_all r2 = r_all r1.
  Proof.
    rewrite !archive_walk. destruct (walk [] [] [] its); [|discriminate]. intros [= <-].
    eexists. repeat split.
  Qed.

  Lemma walk_data c : forall its tr st bl x,
    walk tr st bl its = Some x -> (In (Data, c) (snd x) <-> In (Data, c) bl \/ In c (data_of its)).
  Proof.
    induction its as [|[nm m| |nm m cs] its IH]; intros tr st bl x H; cbn [walk] in H.
    - injection H as <-. cbn. tauto.
    - exact (IH _ _ _ _ H).
    - destruct st as [|[[nm m] tr0] st]; [discriminate|].
      rewrite (IH _ _ _ _ H), in_app_iff. cbn [In]. intuition discriminate.
    - rewrite (IH _ _ _ _ H), in_app_iff, in_map_iff. unfold data_of. cbn [flat_map]. rewrite in_app_iff.
      split; [intros [[K|(y & [= <-] & K)]|K] | intros [K|[K|K]]]; eauto.
  Qed.

  Lemma arun_data g c : forall its a a',
    arun tid g a its = Some a' ->
    (In (Data, c) (a_all a') <-> In (Data, c) (a_all a) \/ In c (data_of its)).
  Proof.
    intros its a a'. pose proof (arun_ext g a its (a_tree a) (a_stack a) []) as E. rewrite ext_nil in E. rewrite E.
    destruct (walk (a_tree a) (a_stack a) [] its) as [x|] eqn:W; [|discriminate]. intros [= <-].
    cbn [ext a_all]. rewrite in_app_iff, (walk_data c its _ _ _ _ W). cbn [In]. tauto.
  Qed.

  Lemma astep_data g a it a' c :
    astep tid g a it = Some a' ->
    (In (Data, c) (a_all a') <-> In (Data, c) (a_all a) \/ In c (data_of [it])).
  Proof. intro S. apply (arun_data g c [it]). cbn [arun]. rewrite S. reflexivity. Qed.

  Lemma all_data_iff g its r c :
    archive tid g its = Some r -> (In (Data, c) (r_all r) <-> In c (data_of its)).
  Proof.
    rewrite archive_walk. destruct (walk [] [] [] its) as [x|] eqn:W; [|discriminate]. intros [= <-].
    cbn [result_of r_all]. rewrite in_app_iff, (walk_data c its _ _ _ _ W). cbn [In]. intuition discriminate.
  Qed.

  Lemma one_file_sends g (h : bytes -> id) its1 nm m chunks its2 r c :
    (forall c, In c (data_of (its1 ++ its2)) -> ghas g Data c = true) ->
    archive tid g (its1 ++ Other nm m (map h chunks) :: its2) = Some r ->
    In (Data, c) (r_sent r) -> In c (file_sends h g chunks).
  Proof.
    intros G A H. apply (sent_iff g _ r Data c A) in H. destruct H as [H Hg].
    apply (all_data_iff g _ r c A) in H. unfold data_of in *.
    rewrite flat_map_app in H, G. cbn [flat_map] in H. rewrite !in_app_iff in H.
    destruct H as [H|[H|H]].
    - rewrite G in Hg by (apply in_or_app; auto). discriminate.
    - apply filter_In. rewrite gate_negb, Hg. auto.
    - rewrite G in Hg by (apply in_or_app; auto). discriminate.
  Qed.
End ArchiverProofs.
