(* C07 — archiver and pipeline together: what ends up stored by a complete backup run; the
   runs and sources that the `_inhabited` theorems of Props evaluate. *)
From Verif.Base Require Import Tactics.
From Verif.C13 Require Import Extracted Model Proofs Proofs2.
From Verif.C07 Require Import Extracted Model Spec Proofs Proofs2.
Local Open Scope nat_scope.

(* read from the source (index/indexer.rs): the in-run set of indexed blobs is keyed by (type, id) *)
Lemma indexer_is_typed : indexer_typed = true.
Proof. reflexivity. Qed.

Lemma stored_packs_of s t i : stored s t i <-> In i (packs_of t (idx s)).
Proof.
  unfold stored, packs_of. rewrite in_flat_map. split.
  - intros [pk [H1 H2]]. exists (t, pk). split; [assumption|]. cbn [fst snd].
    rewrite (proj2 (bt_eqb_eq t t) eq_refl). assumption.
  - intros [[t' pk] [H1 H2]]. cbn [fst snd] in H2. destruct (bt_eqb t' t) eqn:E; [|contradiction].
    apply bt_eqb_eq in E. subst. exists pk. split; assumption.
Qed.

Lemma reload_In g s t i : In (t, i) (reload g s) <-> In (t, i) g \/ stored s t i.
Proof.
  unfold reload. rewrite in_app_iff, in_flat_map. apply or_iff_compat_l. unfold stored, pack_blobs. split.
  - intros [[t' pk] [H1 H2]]. cbn [fst snd] in H2. apply in_map_iff in H2.
    destruct H2 as [j [[= -> ->] Hj]]. eauto.
  - intros [pk [H1 H2]]. exists (t, pk). split; [assumption|]. apply in_map. assumption.
Qed.

Lemma reload_has g s t i : ghas (reload g s) t i = true <-> ghas g t i = true \/ stored s t i.
Proof. rewrite !ghas_In. apply reload_In. Qed.

Lemma stored_iff_sends es s t i :
  run init es = Some s -> final s = true -> (stored s t i <-> In (t, i) (sends es)).
Proof.
  intros R F. rewrite in_rev, <- (reach_requested es s R). split.
  - intros [pk [H1 H2]]. exact (inv_origin_i s (reach_inv es s R) t pk i H1 H2).
  - apply (final_typed_lookup_lemma es s R F (or_introl indexer_is_typed)).
Qed.

Section Run.
  Variable tid : list entry -> id.

  Lemma sends_iff g its es s r t i :
    backup_run tid g its es s r ->
    (In (t, i) (sends es) <-> In (t, i) (r_all r) /\ ghas g t i = false).
  Proof.
    intros (A & P & _). rewrite <- (sent_iff tid g its r t i A).
    split; apply Permutation_in; [|symmetry]; exact P.
  Qed.

  Lemma stored_iff g its es s r t i :
    backup_run tid g its es s r ->
    (stored s t i <-> In (t, i) (r_all r) /\ ghas g t i = false).
  Proof.
    intro B. rewrite <- (sends_iff g its es s r t i B). destruct B as (_ & _ & R & F).
    exact (stored_iff_sends es s t i R F).
  Qed.

  Lemma all_indexed_after_lemma g its es s r t i :
    backup_run tid g its es s r -> In (t, i) (r_all r) -> ghas (reload g s) t i = true.
  Proof.
    intros B H. apply reload_has. destruct (ghas g t i) eqn:G; [left; reflexivity|].
    right. apply (stored_iff g its es s r t i B). split; assumption.
  Qed.
End Run.

(* the window is real: the same chunk handed over twice, both copies pass all filters before
   the first pack is indexed -> two packs hold it *)
Definition window_run : list ev :=
  [Send Data 7%N; Send Data 7%N;
   Adv Data 0; Adv Data 0; Adv Data 0; Adv Data 0; Adv Data 1; Adv Data 1; Adv Data 1; Adv Data 1;
   Adv Data 0; Flush Data; WriteP Data; IndexP Data;
   Adv Data 0; Flush Data; WriteP Data; IndexP Data].

(* the same two requests when the second meets the last filter after the first pack is indexed *)
Definition no_window_run : list ev :=
  [Send Data 7%N; Send Data 7%N;
   Adv Data 0; Adv Data 0; Adv Data 0; Adv Data 0; Adv Data 1; Adv Data 1; Adv Data 1;
   Adv Data 0; Flush Data; WriteP Data; IndexP Data; Adv Data 0].

(* cross-type collision inside one run (the schedule on which the untyped indexer lost the
   tree: the data pack is indexed before the tree blob meets the first filter): both stored *)
Definition collision_full_run : list ev :=
  [Send Data 7%N; Adv Data 0; Adv Data 0; Adv Data 0; Adv Data 0; Adv Data 0; Flush Data; WriteP Data; IndexP Data;
   Send Tree 7%N; Adv Tree 0; Adv Tree 0; Adv Tree 0; Adv Tree 0; Adv Tree 0; Flush Tree; WriteP Tree; IndexP Tree].

(* a small source for the non-vacuity example of `backup_run` *)
Definition ex_items : list item := [NewTree 1 0; Other 2 0 [7; 8]%N; NewTree 3 0; EndTree; EndTree].
Definition ex_tid (es : list entry) : id := N.of_nat (100 + length es).

(* a source in which a file chunk and a tree have the same id (100): the hypotheses of
   typed_identity are satisfiable, and both blobs end up in packs of their own type *)
Definition ex_collision_items : list item := [NewTree 1 0; Other 2 0 [100]%N; NewTree 3 0; EndTree; EndTree].
Definition ex_collision_events : list ev :=
  [Send Data 100%N; Send Tree 100%N; Send Tree 102%N; Send Tree 101%N;
   Adv Data 0; Adv Data 0; Adv Data 0; Adv Data 0; Adv Data 0; Flush Data; WriteP Data; IndexP Data;
   Adv Tree 0; Adv Tree 0; Adv Tree 0; Adv Tree 0; Adv Tree 0;
   Adv Tree 0; Adv Tree 0; Adv Tree 0; Adv Tree 0; Adv Tree 0;
   Adv Tree 0; Adv Tree 0; Adv Tree 0; Adv Tree 0; Adv Tree 0; Flush Tree; WriteP Tree; IndexP Tree].
