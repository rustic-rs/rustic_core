(* C07 — dedup composed with parent-based reuse (C11): a backup with parents hands exactly the
   same blobs to the packers as the backup that reads every file, provided reused content is in
   the index (which is what C11's `process_other` guarantees) — so every theorem about `archive`
   holds for parent-based backups too. *)
From Verif.Base Require Import Tactics.
From Verif.C11 Require Extracted Model Proofs3.
From Verif.C13 Require Import Extracted Model Proofs Proofs2.
From Verif.C07 Require Import Extracted Model Spec Proofs Proofs3 ModelP.
Local Open Scope nat_scope.

Lemma offer_indexed_is_note g a t i : ghas g t i = true -> offer g a t i = note a t i.
Proof. intro H. unfold offer, note. rewrite gate_negb, H. cbn [negb]. rewrite app_nil_r. reflexivity. Qed.

Lemma offer_chunks_indexed_is_note g cs : forall a,
  (forall c, In c cs -> ghas g Data c = true) -> offer_chunks g a cs = note_chunks a cs.
Proof.
  unfold offer_chunks, note_chunks. induction cs as [|c cs IH]; intros a H; cbn [fold_left]; [reflexivity|].
  rewrite offer_indexed_is_note by (apply H; left; reflexivity). apply IH. intros x Hx. apply H. right. exact Hx.
Qed.

(* the unchanged-tree short-cut is taken only for a tree the index has (C11: guard regenerated
   from tree_archiver.rs), so it does what the gate would have done *)
Lemma tree_offer_is_offer g a par i : tree_offer g a par i = offer g a Tree i.
Proof.
  unfold tree_offer. destruct (Verif.C11.Model.backup_tree_action par i (ghas g Tree i)) eqn:E; try reflexivity.
  apply Verif.C11.Proofs3.shortcut_lemma in E. destruct E as [_ E].
  symmetry. apply offer_indexed_is_note. apply E. reflexivity.
Qed.

Definition reuse_indexed (g : gindex) (pits : list pitem) : Prop :=
  forall nm m cs u, In (POther nm m cs (PMatched u)) pits -> forall c, In c cs -> ghas g Data c = true.

Section ParentProofs.
  Variable tid : list entry -> id.

  Lemma pstep_astep g P it :
    reuse_indexed g [it] -> option_map p_a (pstep tid g P it) = astep tid g (p_a P) (erase it).
  Proof.
    intro H. destruct it as [nm m par| |nm m cs par]; cbn [pstep erase astep option_map p_a].
    - reflexivity.
    - destruct (a_stack (p_a P)) as [|[[nm m] tr] st]; [reflexivity|]. cbn [option_map p_a].
      rewrite tree_offer_is_offer. reflexivity.
    - destruct par as [u| |]; try reflexivity.
      rewrite (offer_chunks_indexed_is_note g cs (p_a P) (H nm m cs u (or_introl eq_refl))). reflexivity.
  Qed.

  Lemma prun_arun g : forall pits P, reuse_indexed g pits ->
    option_map p_a (prun tid g P pits) = arun tid g (p_a P) (map erase pits).
  Proof.
    induction pits as [|it pits IH]; intros P H; cbn [prun map arun]; [reflexivity|].
    assert (Hit : reuse_indexed g [it]) by (intros nm m cs u [->|[]]; exact (H nm m cs u (or_introl eq_refl))).
    pose proof (pstep_astep g P it Hit) as S.
    destruct (pstep tid g P it) as [P1|]; cbn [option_map] in S; rewrite <- S; [|reflexivity].
    apply IH. intros nm m cs u Hin. apply (H nm m cs u). right. exact Hin.
  Qed.

  (* whatever a parent classification of the same source reuses (every file matched, or none) is
     a blob of the first state, and those the reloaded index has *)
  Lemma reuse_indexed_after g its es s r pits' :
    backup_run tid g its es s r -> map erase pits' = its -> reuse_indexed (reload g s) pits'.
  Proof.
    intros B E nm m cs u Hin c Hc. eapply all_indexed_after_lemma; [exact B|].
    apply (all_data_iff tid g its r c (proj1 B)). rewrite <- E. apply in_flat_map.
    exists (Other nm m cs). split; [|exact Hc].
    apply in_map_iff. exists (POther nm m cs (PMatched u)). split; [reflexivity | exact Hin].
  Qed.
End ParentProofs.

(* witness: a source with a reused file and a short-cut directory *)
Definition ex_pitems : list pitem :=
  [PNewTree 1 0 (PMatched 103%N); POther 2 0 [7; 8]%N (PMatched tt); POther 4 0 [9]%N PNotFound;
   PNewTree 3 0 (PMatched 100%N); PEndTree; PEndTree].
Definition ex_pindex : gindex := [(Data, 7%N); (Data, 8%N); (Tree, 100%N)].
