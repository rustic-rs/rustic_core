(* C07 — observers of the C13 packer pipeline: no pack holds an id twice; the number of
   copies of a blob never exceeds the number of times it was handed to the packer; once a
   copy is indexed, the only further copies are the in-flight items that had already
   passed the last filter (the exact duplicate window). *)
From Verif.Base Require Import Tactics.
From Verif.C13 Require Import Extracted Model Proofs Proofs2.
From Verif.C07 Require Import Extracted Model.
Local Open Scope nat_scope.

Definition flen {A} (f : A -> bool) (l : list A) : nat := length (filter f l).
Definition b2n (b : bool) : nat := if b then 1 else 0.

Lemma flen_app {A} (f : A -> bool) l1 l2 : flen f (l1 ++ l2) = flen f l1 + flen f l2.
Proof. unfold flen. rewrite filter_app, app_length. reflexivity. Qed.

Lemma flen_cons {A} (f : A -> bool) x l : flen f (x :: l) = b2n (f x) + flen f l.
Proof. unfold flen. cbn [filter]. destruct (f x); reflexivity. Qed.

Lemma flen_perm {A} (f : A -> bool) l1 l2 : Permutation l1 l2 -> flen f l1 = flen f l2.
Proof.
  induction 1 as [|x l l' P IH|x y l|l l' l'' P1 IH1 P2 IH2]; rewrite ?flen_cons; lia.
Qed.

Lemma flen_filter_le {A} (f k : A -> bool) l : flen f (filter k l) <= flen f l.
Proof.
  induction l as [|x l IH]; [reflexivity|]. cbn [filter]. destruct (k x); rewrite !flen_cons; lia.
Qed.

Lemma flen_pos_ex {A} (f : A -> bool) l : 0 < flen f l -> exists x, In x l /\ f x = true.
Proof.
  unfold flen. destruct (filter f l) as [|x r] eqn:E; [cbn; lia|]. intros _. exists x.
  apply filter_In. rewrite E. left. reflexivity.
Qed.

Lemma cnt_flen i l : cnt i l = flen (N.eqb i) l.
Proof. reflexivity. Qed.

Lemma cnt_app i l1 l2 : cnt i (l1 ++ l2) = cnt i l1 + cnt i l2.
Proof. apply flen_app. Qed.

Lemma cnt_perm i l1 l2 : Permutation l1 l2 -> cnt i l1 = cnt i l2.
Proof. apply flen_perm. Qed.

Lemma cnt_zero_notin i l : ~ In i l -> cnt i l = 0.
Proof.
  intro H. destruct (Nat.eq_0_gt_0_cases (cnt i l)) as [E|E]; [exact E|].
  destruct (flen_pos_ex _ _ E) as (x & Hx & Ex). apply N.eqb_eq in Ex. subst x. contradiction.
Qed.

Lemma cnt_pos_in i l : In i l -> 1 <= cnt i l.
Proof.
  intro H. apply in_split in H. destruct H as (l1 & l2 & ->).
  rewrite cnt_app, (cnt_flen i (i :: l2)), flen_cons, N.eqb_refl. cbn [b2n]. lia.
Qed.

Lemma cnt_nodup i l : NoDup l -> cnt i l <= 1.
Proof.
  induction 1 as [|x l Hx Hn IH]; [cbn; lia|]. rewrite cnt_flen, flen_cons, <- cnt_flen.
  destruct (N.eqb_spec i x) as [->|Ne]; cbn [b2n]; [rewrite (cnt_zero_notin x l Hx)|]; lia.
Qed.

Lemma packs_of_app t l1 l2 : packs_of t (l1 ++ l2) = packs_of t l1 ++ packs_of t l2.
Proof. apply flat_map_app. Qed.

Lemma packs_of_single_same t pk : packs_of t [(t, pk)] = pk.
Proof. unfold packs_of. cbn. rewrite (proj2 (bt_eqb_eq t t) eq_refl). apply app_nil_r. Qed.

Lemma packs_of_single_other t t' pk : t' <> t -> packs_of t [(t', pk)] = [].
Proof.
  intro H. unfold packs_of. cbn. destruct (bt_eqb t' t) eqn:E; [|reflexivity].
  apply bt_eqb_eq in E. contradiction.
Qed.

Lemma count_sends_app t i l1 l2 : count_sends t i (l1 ++ l2) = count_sends t i l1 + count_sends t i l2.
Proof. apply flen_app. Qed.

Lemma count_sends_perm t i l1 l2 : Permutation l1 l2 -> count_sends t i l1 = count_sends t i l2.
Proof. apply flen_perm. Qed.

Lemma count_sends_filter_le t i k l : count_sends t i (filter k l) <= count_sends t i l.
Proof. apply flen_filter_le. Qed.

Lemma count_sends_In t i l : 0 < count_sends t i l -> In (t, i) l.
Proof.
  intro H. destruct (flen_pos_ex _ _ H) as ([t' i'] & Hx & E). cbn [fst snd] in E.
  apply andb_true_iff in E. destruct E as [E1 E2]. apply bt_eqb_eq in E1. apply N.eqb_eq in E2.
  subst. exact Hx.
Qed.

Lemma count_sends_pairs t i t0 (a : list id) :
  count_sends t i (map (pair t0) a) = if bt_eqb t0 t then cnt i a else 0.
Proof.
  unfold count_sends, cnt. induction a as [|j a IH]; cbn [map filter fst snd].
  - destruct (bt_eqb t0 t); reflexivity.
  - destruct (bt_eqb t0 t); cbn [andb] in *; [destruct (N.eqb i j); cbn [length]; rewrite IH|]; auto.
Qed.

Lemma packs_of_upd s t q snt wr ix t' :
  packs_of t' (idx (upd s t q snt wr ix)) = packs_of t' (idx s) ++ (if bt_eqb t t' then olist ix else []).
Proof.
  destruct t, t', ix; cbn [upd set idx olist bt_eqb];
    rewrite ?packs_of_app, ?packs_of_single_same, ?packs_of_single_other, ?app_nil_r by discriminate; reflexivity.
Qed.

(* the test of `stage_ge` *)
Definition staged (k : nat) (i : id) (x : id * nat) : bool := N.eqb i (fst x) && (k <=? snd x).

(* the potentials: counting the pack it hands to the indexer, a move of a packer raises `pot 0`
   by no more than what is sent to it, and `pot 4` not at all once i is indexed; W adds the
   packs indexed so far *)
Definition pot (k : nat) (i : id) (p : packer) : nat := cnt i (held p) + flen (staged k i) (inflight p).

Definition W (k : nat) (s : st) (t : bt) (i : id) : nat := copies s t i + stage_ge k (get s t) i.

Lemma W_pot k s t i : W k s t i = pot k i (get s t) + cnt i (packs_of t (idx s)).
Proof.
  unfold W, copies, pot. change (stage_ge k (get s t) i) with (flen (staged k i) (inflight (get s t))). lia.
Qed.

Lemma W_upd k s t0 q snt wr ix t i :
  W k (upd s t0 q snt wr ix) t i =
  if bt_eqb t t0 then pot k i q + cnt i (olist ix) + cnt i (packs_of t (idx s)) else W k s t i.
Proof.
  rewrite !W_pot, get_upd, packs_of_upd, cnt_app.
  destruct t, t0; cbn [bt_eqb]; change (cnt i []) with 0; lia.
Qed.

(* k = 0 counts every id the packer holds: C13's balance of a move bounds it *)
Lemma pot0_ids i p : pot 0 i p = cnt i (ids p).
Proof.
  unfold pot, ids, held. rewrite !cnt_app.
  assert (E : flen (staged 0 i) (inflight p) = cnt i (map fst (inflight p))).
  { induction (inflight p) as [|x l IH]; [reflexivity|]. cbn [map]. rewrite (cnt_flen i (_ :: _)), !flen_cons, IH.
    unfold staged. cbn [Nat.leb]. rewrite andb_true_r. reflexivity. }
  destruct (wip p); cbn [olist]; lia.
Qed.

Lemma pstep_pot0 has p snt wr ix q i :
  pstep has p snt wr ix q -> pot 0 i q + cnt i (olist ix) <= pot 0 i p + cnt i snt.
Proof.
  intro H. destruct (fl_ids _ _ _ _ _ _ (pstep_flow _ _ _ _ _ _ H)) as (dr & P & _).
  apply (cnt_perm i) in P. rewrite !cnt_app in P. rewrite !pot0_ids. lia.
Qed.

Lemma staged_pair k i j stg : staged k i (j, stg) = N.eqb i j && (k <=? stg).
Proof. reflexivity. Qed.

(* k = 4 counts the items past the last filter: an item enters that count only through the
   last filter, which an indexed id does not pass *)
Lemma pstep_pot4 has p snt wr ix q i :
  pstep has p snt wr ix q -> has i = true -> pot 4 i q + cnt i (olist ix) <= pot 4 i p.
Proof.
  intros H IX.
  destruct H as [i0|l1 i0 stg l2 E _|l1 i0 stg l2 E _ L|l1 i0 stg l2 E L|c cs C|pk rest Wp Q|pk Wp];
    unfold pot, held; cbn [with_inflight inflight cur wq wip concat olist];
    rewrite ?E, ?flen_app, ?flen_cons, ?staged_pair, ?app_nil_r, ?Nat.add_0_r.
  - cbn [Nat.leb]. rewrite andb_false_r. cbn [b2n flen filter length]. lia.
  - lia.
  - destruct (N.eqb_spec i i0) as [<-|]; [|cbn; lia].
    destruct (Nat.leb_spec 4 (S stg)), (Nat.leb_spec 4 stg); cbn; try lia.
    rewrite L in IX by lia. discriminate.
  - rewrite (proj2 (Nat.leb_le 4 stg) L), andb_true_r.
    rewrite !cnt_app. destruct (mem i0 (cur p)); rewrite ?cnt_app, ?(cnt_flen i [i0]), ?flen_cons; cbn [flen filter length]; lia.
  - rewrite C, concat_app. cbn [concat]. rewrite app_nil_r, !cnt_app. change (cnt i []) with 0. lia.
  - rewrite Wp, Q. cbn [concat]. rewrite !cnt_app. change (cnt i []) with 0. lia.
  - rewrite Wp, !cnt_app. change (cnt i []) with 0. lia.
Qed.

Lemma step_W0 t i s e s' : step s e = Some s' ->
  W 0 s t i <= count_sends t i (requested s) -> W 0 s' t i <= count_sends t i (requested s').
Proof.
  intros St H. destruct (step_pstep s e s' St) as (q & wr & ix & P & ->).
  pose proof (pstep_pot0 _ _ _ _ _ _ i P). rewrite W_upd, requested_upd, count_sends_app, count_sends_pairs.
  destruct t, (ev_bt e); cbn [bt_eqb]; rewrite ?W_pot in *; lia.
Qed.

Lemma step_W4 t i s e s' :
  step s e = Some s' -> ix_has s t i = true -> W 4 s' t i <= W 4 s t i.
Proof.
  intros St IX. destruct (step_pstep s e s' St) as (q & wr & ix & P & ->). rewrite W_upd.
  destruct (bt_eqb t (ev_bt e)) eqn:E; [|reflexivity]. apply bt_eqb_eq in E. rewrite <- E in P.
  pose proof (pstep_pot4 _ _ _ _ _ _ i P IX). rewrite W_pot. lia.
Qed.

Lemma step_indexed_mono s e s' : step s e = Some s' -> forall x, In x (indexed s) -> In x (indexed s').
Proof.
  intros St x H. destruct (step_pstep s e s' St) as (q & wr & ix & _ & ->).
  cbn [upd indexed]. apply in_or_app. right. destruct (ev_bt e); exact H.
Qed.

Lemma step_ix_has_mono s e s' t i : step s e = Some s' -> ix_has s t i = true -> ix_has s' t i = true.
Proof.
  intros St H. destruct (step_pstep s e s' St) as (q & wr & ix & _ & ->).
  apply ix_has_iff, ix_in_upd, ix_has_iff, H.
Qed.

Lemma reach_W0 es s t i : run init es = Some s -> W 0 s t i <= count_sends t i (sends es).
Proof.
  intro R. rewrite (count_sends_perm t i _ _ (Permutation_rev (sends es))), <- (reach_requested es s R).
  apply (run_invariant (fun s => W 0 s t i <= count_sends t i (requested s))) with (3 := R).
  - intros s1 e s2 H St. exact (step_W0 t i s1 e s2 St H).
  - destruct t; cbn; lia.
Qed.

Lemma run_W4 t i es s s' : run s es = Some s' -> ix_has s t i = true -> W 4 s' t i <= W 4 s t i.
Proof.
  intros R IX.
  apply (run_invariant (fun s1 => W 4 s1 t i <= W 4 s t i /\ ix_has s1 t i = true)) with (3 := R); [|auto].
  intros s1 e s2 [H1 H2] St. split; [|eapply step_ix_has_mono; eassumption].
  pose proof (step_W4 t i s1 e s2 St H2). lia.
Qed.

Lemma W_final k s t i : final s = true -> W k s t i = cnt i (packs_of t (idx s)).
Proof.
  intro F. destruct (quiet_inv _ (final_quiet s t F)) as (E1 & E2 & E3 & E4).
  unfold W, copies, held, stage_ge. rewrite E1, E2, E3, E4. cbn. lia.
Qed.

Definition PK (p : packer) : Prop :=
  NoDup (cur p) /\ Forall (@NoDup id) (wq p) /\ (forall pk, wip p = Some pk -> NoDup pk).
Definition PInv (s : st) : Prop :=
  (forall t, PK (get s t)) /\ Forall (fun x => NoDup (snd x)) (written s) /\ Forall (fun x => NoDup (snd x)) (idx s).

Lemma pstep_PK has p snt wr ix q :
  pstep has p snt wr ix q -> PK p ->
  PK q /\ (forall pk, wr = Some pk -> NoDup pk) /\ (forall pk, ix = Some pk -> NoDup pk).
Proof.
  intros H (C & Q & Wp).
  destruct H as [i0|l1 i0 stg l2 _ _|l1 i0 stg l2 _ _ _|l1 i0 stg l2 _ _|c cs E|pk rest _ E|pk E];
    unfold PK; cbn [with_inflight cur wq wip]; repeat split; auto; try discriminate.
  - (* add_raw appends only an id the pack does not hold *)
    destruct (mem i0 (cur p)) eqn:M; [exact C|].
    eapply Permutation_NoDup; [apply Permutation_cons_append|]. constructor; [|exact C].
    intro Hi. apply mem_In in Hi. congruence.
  - constructor.
  - rewrite <- E. apply Forall_app. auto.
  - rewrite E in Q. inversion Q. assumption.
  - intros pk' [= <-]. rewrite E in Q. inversion Q. assumption.
  - intros pk' [= <-]. rewrite E in Q. inversion Q. assumption.
  - intros pk' [= <-]. auto.
Qed.

Lemma pinv_init : PInv init.
Proof. repeat split; try constructor; destruct t; try constructor; discriminate. Qed.

Lemma step_pinv s e s' : PInv s -> step s e = Some s' -> PInv s'.
Proof.
  intros (K & Hw & Hx) St. destruct (step_pstep s e s' St) as (q & wr & ix & P & ->).
  destruct (pstep_PK _ _ _ _ _ _ P (K _)) as (K' & Nw & Nx). split.
  - intro t'. rewrite get_upd. destruct (bt_eqb t' (ev_bt e)); auto.
  - destruct (ev_bt e), wr as [pw|], ix as [px|]; cbn [upd set written idx];
      split; try assumption; apply Forall_app; split; auto; constructor; auto.
Qed.
