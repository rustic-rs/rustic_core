(* C07 — edit locality at the chunk level, over an abstract content-defined chunker. *)
From Verif.Base Require Import Tactics.
From Verif.C13 Require Import Extracted Model Proofs.
From Verif.C07 Require Import Extracted Model Spec Proofs.
Local Open Scope nat_scope.

Section Locality.
  Variable chunker : bytes -> list bytes.
  Hypothesis Part : chunker_partition chunker.
  Hypothesis Resync : resync_after_common_cut chunker.

  Lemma chunker_nil : chunker [] = [].
  Proof.
    destruct Part as [Pc Pn]. destruct (chunker []) as [|c l] eqn:E; [reflexivity|].
    exfalso. apply (Pn [] c); [rewrite E; left; reflexivity|].
    pose proof (Pc []) as H. rewrite E in H. cbn [concat] in H. apply app_eq_nil in H. tauto.
  Qed.

  (* chunks cut off by the content survive any change behind them *)
  Lemma keep_prefix : forall pre R rest, R <> [] -> chunker (concat pre ++ R) = pre ++ rest ->
    forall R', chunker (concat pre ++ R') = pre ++ chunker R'.
  Proof.
    destruct Part as [Pc Pn].
    induction pre as [|c pre IH]; intros R rest NR H R'; [reflexivity|].
    cbn [concat] in *. rewrite <- app_assoc in *. cbn [app] in H.
    assert (Nc : c <> []) by (apply (Pn (c ++ concat pre ++ R)); rewrite H; left; reflexivity).
    assert (Nr : concat pre ++ R <> []).
    { intro E. apply app_eq_nil in E. tauto. }
    assert (Hd : hd_error (chunker (c ++ concat pre ++ R)) = Some c) by (rewrite H; reflexivity).
    pose proof (Resync c (concat pre ++ R) Nc Nr Hd) as Q.
    rewrite (Q (concat pre ++ R')). cbn [app]. f_equal.
    apply (IH R rest NR). rewrite (Q (concat pre ++ R)) in H. injection H as H. exact H.
  Qed.

  (* a place where the chunk list of u ++ v is split into l | r with concat l = u is a cut: both
     sides are chunked as if they stood alone *)
  Lemma cut_app u v l r : chunker (u ++ v) = l ++ r -> concat l = u -> l = chunker u /\ r = chunker v.
  Proof.
    intros H <-. destruct v as [|b v].
    - (* the end of the input: l ++ r and l have the same bytes, and no chunk is empty *)
      rewrite app_nil_r in H. rewrite chunker_nil. destruct Part as [Pc Pn].
      pose proof (Pc (concat l)) as C. rewrite H, concat_app in C.
      rewrite <- (app_nil_r (concat l)) in C at 2. apply app_inv_head in C.
      destruct r as [|c r]; [rewrite app_nil_r in H; auto|]. exfalso.
      apply (Pn (concat l) c); [rewrite H; apply in_or_app; right; left; reflexivity|].
      cbn [concat] in C. apply app_eq_nil in C. tauto.
    - pose proof (keep_prefix l (b :: v) r ltac:(discriminate) H) as K.
      rewrite K in H. apply app_inv_head in H. split; [|symmetry; exact H].
      rewrite <- (app_nil_r (concat l)), K, chunker_nil, app_nil_r. reflexivity.
  Qed.

  (* About ONE file with a cut in front of a tail S2, and `pre` cut off by the content of ANOTHER
     that begins with the same bytes (R follows there).  Props.edit_locality applies it to the old
     file (M = P' ++ X ++ S1, itself as the other) and to the new one (M = P' ++ Y ++ S1, the old
     one as the other): the cut at S1|S2 need only exist in both. *)
  Theorem chunks_between_cuts pre R rest M S2 l r :
    R <> [] -> chunker (concat pre ++ R) = pre ++ rest ->
    chunker (concat pre ++ M ++ S2) = l ++ r -> concat l = concat pre ++ M ->
    chunker (concat pre ++ M ++ S2) = pre ++ chunker M ++ chunker S2.
  Proof.
    intros NR HR H C. rewrite H. rewrite app_assoc in H. destruct (cut_app _ _ _ _ H C) as [-> ->].
    rewrite (keep_prefix pre R rest NR HR), app_assoc. reflexivity.
  Qed.
End Locality.

Lemma sends_between (h : bytes -> id) g pre ma mb suf i :
  (forall c, In c (pre ++ ma ++ suf) -> ghas g Data (h c) = true) ->
  In i (file_sends h g (pre ++ mb ++ suf)) -> In i (map h mb).
Proof.
  intros G H. apply filter_In in H. destruct H as [H Hg]. rewrite gate_negb, negb_true_iff in Hg.
  rewrite !map_app, !in_app_iff in H. destruct H as [H|[H|H]]; [|exact H|];
    apply in_map_iff in H; destruct H as [c [<- Hc]];
    rewrite G in Hg by (rewrite !in_app_iff; auto); discriminate.
Qed.

Lemma zcut_concat : forall s, concat (zcut s) = s.
Proof.
  induction s as [|b r IH]; [reflexivity|]. cbn [zcut]. destruct (N.eqb b 0).
  - cbn [concat app]. rewrite IH. reflexivity.
  - destruct (zcut r) as [|c cs]; cbn [concat app] in *; rewrite <- IH; [reflexivity|]. reflexivity.
Qed.

Lemma zcut_nonempty : forall s c, In c (zcut s) -> c <> [].
Proof.
  induction s as [|b r IH]; intros c H; [contradiction|]. cbn [zcut] in H. destruct (N.eqb b 0).
  - destruct H as [<-|H]; [discriminate | apply IH; exact H].
  - destruct (zcut r) as [|x xs].
    + destruct H as [<-|[]]. discriminate.
    + destruct H as [<-|H]; [discriminate|]. apply IH. right. exact H.
Qed.

Lemma zcut_partition : chunker_partition zcut.
Proof. split; [exact zcut_concat | exact zcut_nonempty]. Qed.

Lemma zcut_resync : resync_after_common_cut zcut.
Proof.
  unfold resync_after_common_cut. induction c as [|b c IH]; intros r Nc Nr Hd r'; [contradiction|].
  cbn [app zcut] in Hd |- *. destruct (N.eqb b 0).
  - cbn [hd_error] in Hd. injection Hd as <-. reflexivity.
  - destruct (zcut (c ++ r)) as [|x xs] eqn:E.
    + exfalso. pose proof (zcut_concat (c ++ r)) as C. rewrite E in C. cbn in C. symmetry in C.
      apply app_eq_nil in C. tauto.
    + cbn [hd_error] in Hd. injection Hd as ->.
      assert (c <> []) as Nc'.
      { apply (zcut_nonempty (c ++ r)). rewrite E. left. reflexivity. }
      assert (hd_error (zcut (c ++ r)) = Some c) as Hd' by (rewrite E; reflexivity).
      rewrite (IH r Nc' Nr Hd' r'). reflexivity.
Qed.

(* a concrete instance: two bytes inserted into the middle chunk; first and last chunk untouched *)
Lemma zcut_example :
  zcut [5;6;0; 7;8;0; 9;1;0; 3]%N = [[5;6;0]; [7;8;0]; [9;1;0]; [3]]%N /\
  zcut [5;6;0; 7;4;4;8;0; 9;1;0; 3]%N = [[5;6;0]; [7;4;4;8;0]; [9;1;0]; [3]]%N.
Proof. split; reflexivity. Qed.
