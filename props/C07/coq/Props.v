(* C07 — identical content is stored once; unchanged data adds nothing.
   Property theorems.  `tid` (tree serialisation + hash), the chunker and the chunk hash are
   universally quantified; the pipeline statements hold for EVERY interleaving of the C13
   transition system (a superset of the schedules of the real thread pools). *)
From Verif.Base Require Import Tactics.
From Verif.C06 Require Import Extracted Model Spec.
From Verif.C11 Require Model.
From Verif.C13 Require Import Extracted Model Proofs Proofs2.
From Verif.C07 Require Import Extracted Model Spec Proofs Proofs2 Proofs3 Proofs4 Proofs6 ModelP Proofs8.
Local Open Scope nat_scope.

(* Facts read from the source on every run: the archiver gates are `!has_data` / `!has_tree`,
   the indexer of a run remembers blobs by (type, id). *)
Theorem source_facts : (forall t b, gate t b = negb b) /\ indexer_typed = true.
Proof. split; [exact gate_negb | exact indexer_is_typed]. Qed.
Print Assumptions source_facts.

(* What the archiver hands to the packers is, in order, the blob list of the new state minus
   what the loaded TYPED index has ... *)
Theorem sent_is_filter : forall tid g its r,
  archive tid g its = Some r ->
  r_sent r = filter (fun x => negb (ghas g (fst x) (snd x))) (r_all r).
Proof. exact sent_is_filter_lemma. Qed.
Print Assumptions sent_is_filter.

(* ... and tree id and blob list do not depend on the index at all. *)
Theorem archive_index_independent : forall tid g1 g2 its r1,
  archive tid g1 its = Some r1 ->
  exists r2, archive tid g2 its = Some r2 /\ r_root r2 = r_root r1 /\ r_all r2 = r_all r1.
Proof. exact archive_index_independent_lemma. Qed.
Print Assumptions archive_index_independent.

(* UPLOADS EXACTLY NEW.  For every complete backup run: the set of (type, id) handed to the
   packers = the set stored in the packs of the run = ids of the new state minus ids in the
   loaded typed index. *)
Theorem uploads_exactly_new : forall tid g its es s r t i,
  backup_run tid g its es s r ->
  (In (t, i) (sends es) <-> In (t, i) (r_all r) /\ ghas g t i = false) /\
  (stored s t i <-> In (t, i) (r_all r) /\ ghas g t i = false).
Proof.
  intros tid g its es s r t i B.
  split; [exact (sends_iff tid g its es s r t i B) | exact (stored_iff tid g its es s r t i B)].
Qed.
Print Assumptions uploads_exactly_new.

(* REBACKUP ADDS NOTHING.  A second backup of the same source against the reloaded index hands
   NO blob to the packers and yields the same tree id (and references the same blobs). *)
Theorem rebackup_adds_nothing : forall tid g its es s r,
  backup_run tid g its es s r ->
  exists r', archive tid (reload g s) its = Some r' /\ r_sent r' = [] /\
             r_root r' = r_root r /\ r_all r' = r_all r.
Proof.
  intros tid g its es s r B.
  destruct (archive_index_independent_lemma tid g (reload g s) its r (proj1 B)) as (r' & A' & E1 & E2).
  exists r'. repeat split; try assumption.
  apply (sent_nil_if_covered tid _ its r' A'). rewrite E2. intros t i.
  exact (all_indexed_after_lemma tid g its es s r t i B).
Qed.
Print Assumptions rebackup_adds_nothing.

(* Any source all of whose blobs the loaded index has (content shared with earlier snapshots,
   duplicated or moved files) adds nothing ... *)
Theorem covered_adds_nothing : forall tid g its r,
  archive tid g its = Some r ->
  (forall t i, In (t, i) (r_all r) -> ghas g t i = true) -> r_sent r = [].
Proof. exact sent_nil_if_covered. Qed.
Print Assumptions covered_adds_nothing.

(* ... and the next backup of ANY source hands over only blobs that neither the previous source
   nor the previously loaded index contained. *)
Theorem next_backup_uploads_only_unseen : forall tid g its1 es s r1 its2 r2 t i,
  backup_run tid g its1 es s r1 -> archive tid (reload g s) its2 = Some r2 ->
  In (t, i) (r_sent r2) ->
  In (t, i) (r_all r2) /\ ~ In (t, i) (r_all r1) /\ ghas g t i = false.
Proof.
  intros tid g its1 es s r1 its2 r2 t i B A2 H.
  apply (sent_iff tid _ its2 r2 t i A2) in H. destruct H as [H1 H2].
  split; [assumption|]. split.
  - intro H3. rewrite (all_indexed_after_lemma tid g its1 es s r1 t i B H3) in H2. discriminate.
  - destruct (ghas g t i) eqn:G; [|reflexivity].
    rewrite (proj2 (reload_has g s t i) (or_introl G)) in H2. discriminate.
Qed.
Print Assumptions next_backup_uploads_only_unseen.

(* After a complete run every blob of the new state is found under its own type. *)
Theorem all_indexed_after_backup : forall tid g its es s r t i,
  backup_run tid g its es s r -> In (t, i) (r_all r) -> ghas (reload g s) t i = true.
Proof. exact all_indexed_after_lemma. Qed.
Print Assumptions all_indexed_after_backup.

(* TYPED IDENTITY.  A tree and a file chunk with equal bytes (equal ids) are both kept, within
   one run and across runs, for every interleaving. *)
Theorem typed_identity : forall tid g its es s r i,
  backup_run tid g its es s r -> In (Data, i) (r_all r) -> In (Tree, i) (r_all r) ->
  ghas (reload g s) Data i = true /\ ghas (reload g s) Tree i = true /\
  (ghas g Data i = false -> stored s Data i) /\ (ghas g Tree i = false -> stored s Tree i).
Proof.
  intros tid g its es s r i B HD HT.
  split; [|split]; try (eapply all_indexed_after_lemma; eassumption).
  split; intro G; apply (stored_iff tid g its es s r _ i B); auto.
Qed.
Print Assumptions typed_identity.

(* AT MOST ONCE PER PACK: no pack file holds an id twice, at any moment of any run. *)
Theorem at_most_once_per_pack : forall es s t pk,
  run init es = Some s -> In (t, pk) (written s) \/ In (t, pk) (idx s) -> NoDup pk.
Proof.
  intros es s t pk R H. destruct (run_invariant PInv step_pinv es init s pinv_init R) as (_ & C & D).
  rewrite Forall_forall in C, D. destruct H as [H|H]; [apply (C _ H) | apply (D _ H)].
Qed.
Print Assumptions at_most_once_per_pack.

(* The number of stored copies of a blob is at most the number of times it occurs in the new
   data (0 if the loaded index has it) ... *)
Theorem copies_at_most_occurrences : forall tid g its es s r t i,
  backup_run tid g its es s r ->
  cnt i (packs_of t (idx s)) <= if ghas g t i then 0 else count_sends t i (r_all r).
Proof.
  intros tid g its es s r t i (A & P & R & F).
  pose proof (reach_W0 es s t i R) as H. rewrite (W_final 0 s t i F) in H.
  rewrite (count_sends_perm t i _ _ P) in H.
  destruct (ghas g t i) eqn:G.
  - destruct (Nat.eq_0_gt_0_cases (count_sends t i (r_sent r))) as [Z|Z]; [lia|].
    apply count_sends_In, (sent_iff tid g its r t i A) in Z. destruct Z. congruence.
  - rewrite (sent_is_filter_lemma tid g its r A) in H.
    pose proof (count_sends_filter_le t i (keep g) (r_all r)). lia.
Qed.
Print Assumptions copies_at_most_occurrences.

(* ... so a new blob that occurs once is stored exactly once. *)
Theorem stored_once_if_unique : forall tid g its es s r t i,
  backup_run tid g its es s r -> ghas g t i = false -> count_sends t i (r_all r) = 1 ->
  cnt i (packs_of t (idx s)) = 1.
Proof.
  intros tid g its es s r t i B G C.
  pose proof (copies_at_most_occurrences tid g its es s r t i B) as U. rewrite G, C in U.
  assert (S : stored s t i).
  { apply (stored_iff tid g its es s r t i B). split; [apply count_sends_In; lia | exact G]. }
  apply stored_packs_of, cnt_pos_in in S. lia.
Qed.
Print Assumptions stored_once_if_unique.

(* THE REMAINING DUPLICATE WINDOW, exactly.  From ANY state in which a copy of (t, i) is indexed,
   at every later moment of ANY continuation: copies + in-flight items past the last filter do
   not exceed what they were then.  A further copy is therefore written only by an item that had
   passed all filters before the first copy's pack was indexed. *)
Theorem duplicate_window : forall s0 es s t i,
  run s0 es = Some s -> ix_has s0 t i = true ->
  copies s t i + stage_ge 4 (get s t) i <= copies s0 t i + stage_ge 4 (get s0 t) i.
Proof. intros s0 es s t i R IX. exact (run_W4 t i es s0 s R IX). Qed.
Print Assumptions duplicate_window.

Theorem duplicate_window_final : forall s0 es s t i,
  run s0 es = Some s -> ix_has s0 t i = true -> final s = true ->
  cnt i (packs_of t (idx s)) <= copies s0 t i + stage_ge 4 (get s0 t) i.
Proof.
  intros s0 es s t i R IX F. rewrite <- (W_final 4 s t i F). exact (run_W4 t i es s0 s R IX).
Qed.
Print Assumptions duplicate_window_final.

(* EDIT LOCALITY over an abstract content-defined chunker (hypotheses: lossless partition into
   non-empty chunks; cut points depend only on the bytes since the previous cut).  Old file =
   concat pre ++ P' ++ X ++ S1 ++ S2, new file = the same with Y for X (insert: X = [], delete:
   Y = [], overwrite: same length; prepend: pre = [], P' = []; append: S1 = S2 = []); `pre` are
   chunks of the old file that end at or before the edit and not at the end of the file, S1|S2 is
   a place behind the edit where both files have a cut (the end of the files always is one).  The
   chunk lists differ only between these two cuts ... *)
Theorem edit_locality : forall chunker,
  chunker_partition chunker -> resync_after_common_cut chunker ->
  forall pre P' X Y S1 S2 rest la ra lb rb,
  let A := concat pre ++ P' ++ X ++ S1 ++ S2 in
  let B := concat pre ++ P' ++ Y ++ S1 ++ S2 in
  chunker A = pre ++ rest -> P' ++ X ++ S1 ++ S2 <> [] ->
  chunker A = la ++ ra -> concat la = concat pre ++ P' ++ X ++ S1 ->
  chunker B = lb ++ rb -> concat lb = concat pre ++ P' ++ Y ++ S1 ->
  exists ma mb,
    chunker A = pre ++ ma ++ chunker S2 /\ chunker B = pre ++ mb ++ chunker S2 /\
    concat ma = P' ++ X ++ S1 /\ concat mb = P' ++ Y ++ S1.
Proof.
  intros chunker Part Resync pre P' X Y S1 S2 rest la ra lb rb A B HA NR HLa CLa HLb CLb.
  exists (chunker (P' ++ X ++ S1)), (chunker (P' ++ Y ++ S1)).
  pose proof (fun M l r => chunks_between_cuts chunker Part Resync pre _ rest M S2 l r NR HA) as G.
  split; [|split; [|split; apply Part]].
  - specialize (G (P' ++ X ++ S1) la ra). rewrite <- !app_assoc in G. exact (G HLa CLa).
  - specialize (G (P' ++ Y ++ S1) lb rb). rewrite <- !app_assoc in G. exact (G HLb CLb).
Qed.
Print Assumptions edit_locality.

(* ... so, against an index that has the old file's chunks, only chunks between the last cut
   before the edit and the first common cut after it are handed to the packer. *)
Theorem edit_uploads_only_disturbed : forall chunker,
  chunker_partition chunker -> resync_after_common_cut chunker ->
  forall (h : bytes -> id) (g : gindex) pre P' X Y S1 S2 rest la ra lb rb,
  let A := concat pre ++ P' ++ X ++ S1 ++ S2 in
  let B := concat pre ++ P' ++ Y ++ S1 ++ S2 in
  chunker A = pre ++ rest -> P' ++ X ++ S1 ++ S2 <> [] ->
  chunker A = la ++ ra -> concat la = concat pre ++ P' ++ X ++ S1 ->
  chunker B = lb ++ rb -> concat lb = concat pre ++ P' ++ Y ++ S1 ->
  (forall c, In c (chunker A) -> ghas g Data (h c) = true) ->
  exists mb, chunker B = pre ++ mb ++ chunker S2 /\ concat mb = P' ++ Y ++ S1 /\
             forall i, In i (file_sends h g (chunker B)) -> In i (map h mb).
Proof.
  intros chunker Part Resync h g pre P' X Y S1 S2 rest la ra lb rb A B HA NR HLa CLa HLb CLb G.
  destruct (edit_locality chunker Part Resync pre P' X Y S1 S2 rest la ra lb rb HA NR HLa CLa HLb CLb)
    as (ma & mb & EA & EB & _ & Cb).
  exists mb. split; [exact EB|]. split; [exact Cb|].
  fold A in EA. fold B in EB. rewrite EB. rewrite EA in G. intro i. exact (sends_between h g pre ma mb _ i G).
Qed.
Print Assumptions edit_uploads_only_disturbed.

(* ... and at the level of a whole backup: one file of the source edited, all other files and the
   old version already indexed: the only DATA blobs handed to the packer are chunks between the cuts *)
Theorem edit_backup_uploads_only_disturbed : forall chunker,
  chunker_partition chunker -> resync_after_common_cut chunker ->
  forall (tid : list entry -> id) (h : bytes -> id) (g : gindex)
         pre P' X Y S1 S2 rest la ra lb rb its1 its2 nm m r,
  let A := concat pre ++ P' ++ X ++ S1 ++ S2 in
  let B := concat pre ++ P' ++ Y ++ S1 ++ S2 in
  chunker A = pre ++ rest -> P' ++ X ++ S1 ++ S2 <> [] ->
  chunker A = la ++ ra -> concat la = concat pre ++ P' ++ X ++ S1 ->
  chunker B = lb ++ rb -> concat lb = concat pre ++ P' ++ Y ++ S1 ->
  (forall c, In c (chunker A) -> ghas g Data (h c) = true) ->
  (forall c, In c (data_of (its1 ++ its2)) -> ghas g Data c = true) ->
  archive tid g (its1 ++ Other nm m (map h (chunker B)) :: its2) = Some r ->
  exists mb, chunker B = pre ++ mb ++ chunker S2 /\ concat mb = P' ++ Y ++ S1 /\
             forall c, In (Data, c) (r_sent r) -> In c (map h mb).
Proof.
  intros chunker Part Resync tid h g pre P' X Y S1 S2 rest la ra lb rb its1 its2 nm m r A B
         HA NR HLa CLa HLb CLb GA GO AR.
  destruct (edit_uploads_only_disturbed chunker Part Resync h g pre P' X Y S1 S2 rest la ra lb rb
              HA NR HLa CLa HLb CLb GA) as (mb & EB & Cb & Sub).
  exists mb. split; [exact EB|]. split; [exact Cb|].
  intros c Hc. exact (Sub c (one_file_sends tid g h its1 nm m _ its2 r c GO AR Hc)).
Qed.
Print Assumptions edit_backup_uploads_only_disturbed.

(* the chunk-level `file_sends` above is what the archiver hands over when it processes that file *)
Theorem file_step_sends : forall tid g a nm m (h : bytes -> id) (chunks : list bytes) a',
  astep tid g a (Other nm m (map h chunks)) = Some a' ->
  a_sent a' = a_sent a ++ map (fun c => (Data, c)) (file_sends h g chunks).
Proof.
  intros tid g a nm m h chunks a'. cbn [astep]. intros [= <-]. rewrite offer_chunks_ext.
  cbn [set_tree ext a_sent]. rewrite keep_data. reflexivity.
Qed.
Print Assumptions file_step_sends.

(* The REAL chunkers.  C06 proves that the ChunkIter model (rabin.rs statement by statement: read buffer, window
   prefill, rolling hash) yields `cuts p s` for every read schedule, size hint and arithmetic mode
   when the parameters pass check_rabin_params.  Here the two abstract hypotheses are discharged
   for `cuts p` ... *)
Theorem rabin_chunker_meets_hypotheses : forall p, params_ok p = true ->
  chunker_partition (cuts p) /\ resync_after_common_cut (cuts p).
Proof.
  intros p H. pose proof (Verif.C06.Proofs2.params_ok_min p H) as Hm.
  split; [exact (rabin_partition p Hm) | exact (rabin_resync p Hm)].
Qed.
Print Assumptions rabin_chunker_meets_hypotheses.

(* ... so for ACCEPTED Rabin parameters, any polynomial and EVERY pair of read schedules: the chunk
   lists the iterator produces for the old and the edited file differ only between the last cut
   before the edit and the first common cut after it ... *)
Theorem edit_locality_rabin : forall P avg mn mx, rabin_accepts avg mn mx = true ->
  let p := {| c_poly := P; c_avg := avg; c_min := mn; c_max := mx |} in
  forall md1 hint1 sched1 md2 hint2 sched2 pre P' X Y S1 S2 rest la ra lb rb ca cb,
  let A := concat pre ++ P' ++ X ++ S1 ++ S2 in
  let B := concat pre ++ P' ++ Y ++ S1 ++ S2 in
  chunks_impl md1 p hint1 A sched1 = Ok ca -> chunks_impl md2 p hint2 B sched2 = Ok cb ->
  ca = pre ++ rest -> P' ++ X ++ S1 ++ S2 <> [] ->
  ca = la ++ ra -> concat la = concat pre ++ P' ++ X ++ S1 ->
  cb = lb ++ rb -> concat lb = concat pre ++ P' ++ Y ++ S1 ->
  exists ma mb suf,
    ca = pre ++ ma ++ suf /\ cb = pre ++ mb ++ suf /\
    concat ma = P' ++ X ++ S1 /\ concat mb = P' ++ Y ++ S1 /\
    forall md hint sched, chunks_impl md p hint S2 sched = Ok suf.
Proof.
  intros P avg mn mx H p md1 hint1 sched1 md2 hint2 sched2 pre P' X Y S1 S2 rest la ra lb rb ca cb A B.
  destruct (accepted_rabin P avg mn mx H) as (Pt & Rs & I). fold p in Pt, Rs, I.
  rewrite !I. intros [= <-] [= <-] HA NR HLa CLa HLb CLb.
  destruct (edit_locality (cuts p) Pt Rs pre P' X Y S1 S2 rest la ra lb rb HA NR HLa CLa HLb CLb)
    as (ma & mb & Q).
  exists ma, mb, (cuts p S2). repeat split; try apply Q. intros. apply I.
Qed.
Print Assumptions edit_locality_rabin.

(* ... only those chunks are handed to the data packer ... *)
Theorem edit_uploads_only_disturbed_rabin : forall P avg mn mx, rabin_accepts avg mn mx = true ->
  let p := {| c_poly := P; c_avg := avg; c_min := mn; c_max := mx |} in
  forall (h : list N -> N) (g : gindex) md1 hint1 sched1 md2 hint2 sched2 pre P' X Y S1 S2 rest la ra lb rb ca cb,
  let A := concat pre ++ P' ++ X ++ S1 ++ S2 in
  let B := concat pre ++ P' ++ Y ++ S1 ++ S2 in
  chunks_impl md1 p hint1 A sched1 = Ok ca -> chunks_impl md2 p hint2 B sched2 = Ok cb ->
  ca = pre ++ rest -> P' ++ X ++ S1 ++ S2 <> [] ->
  ca = la ++ ra -> concat la = concat pre ++ P' ++ X ++ S1 ->
  cb = lb ++ rb -> concat lb = concat pre ++ P' ++ Y ++ S1 ->
  (forall c, In c ca -> ghas g Data (h c) = true) ->
  exists mb suf, cb = pre ++ mb ++ suf /\ concat mb = P' ++ Y ++ S1 /\
                 forall i, In i (file_sends h g cb) -> In i (map h mb).
Proof.
  intros P avg mn mx H p h g md1 hint1 sched1 md2 hint2 sched2 pre P' X Y S1 S2 rest la ra lb rb ca cb A B.
  destruct (accepted_rabin P avg mn mx H) as (Pt & Rs & I). fold p in Pt, Rs, I.
  rewrite !I. intros [= <-] [= <-] HA NR HLa CLa HLb CLb G.
  destruct (edit_uploads_only_disturbed (cuts p) Pt Rs h g pre P' X Y S1 S2 rest la ra lb rb
              HA NR HLa CLa HLb CLb G) as (mb & Q).
  exists mb, (cuts p S2). exact Q.
Qed.
Print Assumptions edit_uploads_only_disturbed_rabin.

(* ... and in a whole backup in which this one file changed, no other DATA blob is handed over. *)
Theorem edit_backup_uploads_only_disturbed_rabin : forall P avg mn mx, rabin_accepts avg mn mx = true ->
  let p := {| c_poly := P; c_avg := avg; c_min := mn; c_max := mx |} in
  forall (tid : list entry -> N) (h : list N -> N) (g : gindex)
         md1 hint1 sched1 md2 hint2 sched2 pre P' X Y S1 S2 rest la ra lb rb ca cb its1 its2 nm m r,
  let A := concat pre ++ P' ++ X ++ S1 ++ S2 in
  let B := concat pre ++ P' ++ Y ++ S1 ++ S2 in
  chunks_impl md1 p hint1 A sched1 = Ok ca -> chunks_impl md2 p hint2 B sched2 = Ok cb ->
  ca = pre ++ rest -> P' ++ X ++ S1 ++ S2 <> [] ->
  ca = la ++ ra -> concat la = concat pre ++ P' ++ X ++ S1 ->
  cb = lb ++ rb -> concat lb = concat pre ++ P' ++ Y ++ S1 ->
  (forall c, In c ca -> ghas g Data (h c) = true) ->
  (forall c, In c (data_of (its1 ++ its2)) -> ghas g Data c = true) ->
  archive tid g (its1 ++ Other nm m (map h cb) :: its2) = Some r ->
  exists mb suf, cb = pre ++ mb ++ suf /\ concat mb = P' ++ Y ++ S1 /\
                 forall c, In (Data, c) (r_sent r) -> In c (map h mb).
Proof.
  intros P avg mn mx H p tid h g md1 hint1 sched1 md2 hint2 sched2 pre P' X Y S1 S2 rest la ra lb rb ca cb
         its1 its2 nm m r A B.
  destruct (accepted_rabin P avg mn mx H) as (Pt & Rs & I). fold p in Pt, Rs, I.
  rewrite !I. intros [= <-] [= <-] HA NR HLa CLa HLb CLb GA GO AR.
  destruct (edit_backup_uploads_only_disturbed (cuts p) Pt Rs tid h g pre P' X Y S1 S2 rest la ra lb rb
              its1 its2 nm m r HA NR HLa CLa HLb CLb GA GO AR) as (mb & Q).
  exists mb, (cuts p S2). exact Q.
Qed.
Print Assumptions edit_backup_uploads_only_disturbed_rabin.

(* the hypotheses are satisfiable with real parameters (restic's documented polynomial, min = avg =
   4096, max = 8192), shown on `cuts rp`, which is what `chunks_impl` returns under `params_ok`:
   three chunks, one byte of the middle one overwritten, first and last kept *)
Theorem edit_locality_rabin_inhabited :
  params_ok rp = true /\
  cuts rp (concat [rz] ++ repeat 0%N 1904 ++ [0%N] ++ repeat 0%N 2191 ++ rz) = [rz] ++ [rm_old] ++ [rz] /\
  cuts rp (concat [rz] ++ repeat 0%N 1904 ++ [1%N] ++ repeat 0%N 2191 ++ rz) = [rz] ++ [rm_new] ++ [rz].
Proof.
  assert (Hp : params_ok rp = true) by (vm_compute; reflexivity).
  (* `lazy` computes only the table entries that the all-zero windows look up *)
  assert (Hz : Verif.C06.Proofs2.min_piece rp rz) by (split; lazy; reflexivity).
  assert (Hn : Verif.C06.Proofs2.min_piece rp rm_new) by (split; lazy; reflexivity).
  assert (C : forall z a b c, let m := a ++ b ++ c in
              Verif.C06.Proofs2.min_piece rp z -> Verif.C06.Proofs2.min_piece rp m ->
              cuts rp (concat [z] ++ a ++ b ++ c ++ z) = [z] ++ [m] ++ [z]).
  { intros z a b c m Z M. pose proof (Verif.C06.Proofs2.cuts_at_min rp [z; m; z] Hp eq_refl) as Q.
    cbn [concat] in Q |- *.
    rewrite !app_nil_r in Q |- *. unfold m in Q. rewrite <- !app_assoc in Q. apply Q.
    repeat (constructor; [assumption|]). constructor. }
  (* the old middle chunk is 4096 zeros like rz: Hz serves for it by conversion *)
  split; [exact Hp|]. split; apply C; [exact Hz | exact Hz | exact Hz | exact Hn].
Qed.
Print Assumptions edit_locality_rabin_inhabited.

(* FIXED-SIZE chunker: its cuts depend on the NUMBER of bytes since the previous cut only, so it
   meets the two hypotheses and the general theorem applies (a common cut behind the edit exists
   where the alignment of both files agrees; the end of the file always is one) ... *)
Theorem fixed_chunker_meets_hypotheses : forall size, fixed_accepts size = true ->
  chunker_partition (fixed_cuts size) /\ resync_after_common_cut (fixed_cuts size).
Proof. intros size H. destruct (accepted_fixed size H) as (Pt & Rs & _). split; assumption. Qed.
Print Assumptions fixed_chunker_meets_hypotheses.

Theorem edit_locality_fixed : forall size, fixed_accepts size = true ->
  forall hint1 sched1 hint2 sched2 pre P' X Y S1 S2 rest la ra lb rb ca cb,
  let A := concat pre ++ P' ++ X ++ S1 ++ S2 in
  let B := concat pre ++ P' ++ Y ++ S1 ++ S2 in
  fixed_impl size hint1 A sched1 = Some ca -> fixed_impl size hint2 B sched2 = Some cb ->
  ca = pre ++ rest -> P' ++ X ++ S1 ++ S2 <> [] ->
  ca = la ++ ra -> concat la = concat pre ++ P' ++ X ++ S1 ->
  cb = lb ++ rb -> concat lb = concat pre ++ P' ++ Y ++ S1 ->
  exists ma mb suf,
    ca = pre ++ ma ++ suf /\ cb = pre ++ mb ++ suf /\
    concat ma = P' ++ X ++ S1 /\ concat mb = P' ++ Y ++ S1 /\
    forall hint sched, fixed_impl size hint S2 sched = Some suf.
Proof.
  intros size H hint1 sched1 hint2 sched2 pre P' X Y S1 S2 rest la ra lb rb ca cb A B.
  destruct (accepted_fixed size H) as (Pt & Rs & I).
  rewrite !I. intros [= <-] [= <-] HA NR HLa CLa HLb CLb.
  destruct (edit_locality (fixed_cuts size) Pt Rs pre P' X Y S1 S2 rest la ra lb rb HA NR HLa CLa HLb CLb)
    as (ma & mb & Q).
  exists ma, mb, (fixed_cuts size S2). repeat split; try apply Q. intros. apply I.
Qed.
Print Assumptions edit_locality_fixed.

(* ... OVERWRITE and APPEND keep the alignment: with u = the whole chunks before the edit and m / m'
   the equally long middle (rest of the chunk the edit starts in, the edit, up to the next multiple
   of the chunk size - or everything up to the end of the file), exactly the chunks of the middle
   are replaced ... *)
Theorem fixed_size_overwrite_local : forall size, fixed_accepts size = true ->
  forall k j (u m m' v : list N) hint1 sched1 hint2 sched2,
  nlen u = (N.of_nat k * size)%N -> nlen m = nlen m' -> (nlen m = (N.of_nat j * size)%N \/ v = []) ->
  fixed_impl size hint1 (u ++ m ++ v) sched1 = Some (fixed_cuts size u ++ fixed_cuts size m ++ fixed_cuts size v) /\
  fixed_impl size hint2 (u ++ m' ++ v) sched2 = Some (fixed_cuts size u ++ fixed_cuts size m' ++ fixed_cuts size v) /\
  concat (fixed_cuts size m) = m /\ concat (fixed_cuts size m') = m'.
Proof.
  intros size H k j u m m' v hint1 sched1 hint2 sched2 Hu Hm Hj.
  destruct (accepted_fixed size H) as ((Pc & _) & _ & I).
  destruct (fixed_overwrite_cuts size k j u m m' v (Verif.C06.Proofs4.accepted_fixed_size_pos size H) Hu Hm Hj)
    as [E1 E2].
  rewrite !I, E1, E2. auto.
Qed.
Print Assumptions fixed_size_overwrite_local.

(* ... whereas an INSERT or DELETE whose length is not a multiple of the chunk size shifts every
   later boundary (no common cut but the end): one byte in front, all four chunks change. *)
Theorem fixed_size_insert_shifts :
  fixed_cuts 2 [1;2;3;4;5;6;7]%N = [[1;2];[3;4];[5;6];[7]]%N /\
  fixed_cuts 2 [9;1;2;3;4;5;6;7]%N = [[9;1];[2;3];[4;5];[6;7]]%N.
Proof. split; reflexivity. Qed.
Print Assumptions fixed_size_insert_shifts.

(* Index entries are backed by pack files.  The writer thread of C13's transition system uploads a pack (WriteP) and only then hands it to the
   indexer (IndexP); the order of `write_bytes` and `indexer.add` is regenerated from
   FileWriterHandle::process / index and Actor::new on every run. *)
Theorem writer_order_matches_source : pack_written_before_indexed = true.
Proof. reflexivity. Qed.
Print Assumptions writer_order_matches_source.

(* every pack the indexer of a run holds - at every moment of every interleaving - is a pack file
   that was written before ... *)
Theorem indexed_implies_written : forall es s t pk,
  run init es = Some s -> In (t, pk) (idx s) -> In (t, pk) (written s).
Proof. intros es s t pk R H. apply (inv_written s (reach_inv es s R)). left. exact H. Qed.
Print Assumptions indexed_implies_written.

(* ... so "the reloaded index has the blob" means: the loaded index had it, or it lies in a written
   pack - the premise on which skipping a chunk (`!has_data`) is sound. *)
Theorem reloaded_index_is_backed : forall g es s t i,
  run init es = Some s -> In (t, i) (reload g s) ->
  In (t, i) g \/ exists pk, In (t, pk) (written s) /\ In i pk.
Proof.
  intros g es s t i R H. apply reload_In in H. destruct H as [H|(pk & H1 & H2)]; [left; exact H|].
  right. exists pk. split; [exact (indexed_implies_written es s t pk R H1) | exact H2].
Qed.
Print Assumptions reloaded_index_is_backed.

(* Parent-based backups (C11).  `archive_p`: a file whose parent node matched is not read and nothing is offered for it; a tree
   equal to its matched parent's subtree takes C11's unchanged-tree short-cut.  If reused content is
   in the index, the result - tree id, blob list AND what is handed to the packers - is that of the
   backup that reads every file ... *)
Theorem parent_based_archive_equals_full : forall tid g rootpar pits,
  reuse_indexed g pits -> archive_p tid g rootpar pits = archive tid g (map erase pits).
Proof.
  intros tid g rootpar pits H. unfold archive_p, archive.
  pose proof (prun_arun tid g pits p_init H) as R. cbn [p_init p_a] in R. rewrite <- R.
  destruct (prun tid g p_init pits) as [P|]; cbn [option_map]; [|reflexivity].
  rewrite tree_offer_is_offer. reflexivity.
Qed.
Print Assumptions parent_based_archive_equals_full.

(* ... the premise is what C11's Parent::process guarantees when its index is the loaded index ... *)
Theorem reused_content_is_indexed : forall o g P nd P' nd' u,
  Verif.C11.Model.process_other o (fun c => ghas g Data c) P nd = (P', nd', PMatched u) ->
  forall c, In c (Verif.C11.Model.content_ids nd') -> ghas g Data c = true.
Proof.
  intros o g P nd P' nd' u H c Hc.
  pose proof (Verif.C11.Proofs3.process_other_lemma o (fun c => ghas g Data c) P nd P' nd' (PMatched u) H) as Q.
  cbn in Q. destruct Q as [pn [t [_ [_ [_ [_ [E Hx]]]]]]]. subst nd'. apply Hx. exact Hc.
Qed.
Print Assumptions reused_content_is_indexed.

(* ... hence uploads_exactly_new for parent-based backups ... *)
Theorem uploads_exactly_new_parent_based : forall tid g rootpar pits es s r t i,
  reuse_indexed g pits -> archive_p tid g rootpar pits = Some r ->
  Permutation (sends es) (r_sent r) -> run init es = Some s -> final s = true ->
  (In (t, i) (sends es) <-> In (t, i) (r_all r) /\ ghas g t i = false) /\
  (stored s t i <-> In (t, i) (r_all r) /\ ghas g t i = false).
Proof.
  intros tid g rootpar pits es s r t i H A P R F. rewrite (parent_based_archive_equals_full tid g rootpar pits H) in A.
  apply (uploads_exactly_new tid g (map erase pits)). unfold backup_run. tauto.
Qed.
Print Assumptions uploads_exactly_new_parent_based.

(* ... and rebackup_adds_nothing under ANY parent classification of the same source. *)
Theorem rebackup_adds_nothing_parent_based : forall tid g rootpar pits es s r,
  reuse_indexed g pits -> archive_p tid g rootpar pits = Some r ->
  Permutation (sends es) (r_sent r) -> run init es = Some s -> final s = true ->
  forall rootpar' pits', map erase pits' = map erase pits ->
  exists r', archive_p tid (reload g s) rootpar' pits' = Some r' /\ r_sent r' = [] /\
             r_root r' = r_root r /\ r_all r' = r_all r.
Proof.
  intros tid g rootpar pits es s r H A P R F rootpar' pits' E.
  rewrite (parent_based_archive_equals_full tid g rootpar pits H) in A.
  assert (B : backup_run tid g (map erase pits) es s r) by (unfold backup_run; tauto).
  rewrite (parent_based_archive_equals_full tid (reload g s) rootpar' pits'), E.
  - exact (rebackup_adds_nothing tid g _ es s r B).
  - exact (reuse_indexed_after tid g _ es s r pits' B E).
Qed.
Print Assumptions rebackup_adds_nothing_parent_based.

Theorem parent_based_inhabited :
  reuse_indexed ex_pindex ex_pitems /\
  archive_p ex_tid ex_pindex PNotFound ex_pitems = archive ex_tid ex_pindex (map erase ex_pitems) /\
  option_map r_sent (archive_p ex_tid ex_pindex PNotFound ex_pitems) = Some [(Data, 9%N); (Tree, 103%N); (Tree, 101%N)].
Proof.
  split.
  - intros nm m cs u H c Hc. cbn in H.
    destruct H as [H|[H|[H|[H|[H|[H|[]]]]]]]; try discriminate. injection H as _ _ <-.
    destruct Hc as [<-|[<-|[]]]; reflexivity.
  - split; vm_compute; reflexivity.
Qed.
Print Assumptions parent_based_inhabited.

(* the chunker hypotheses are satisfiable by a content-defined chunker (cut after a zero byte) *)
Theorem chunker_hypotheses_satisfiable : chunker_partition zcut /\ resync_after_common_cut zcut.
Proof. split; [exact zcut_partition | exact zcut_resync]. Qed.
Print Assumptions chunker_hypotheses_satisfiable.

(* the duplicate window is real, and closes as soon as the first pack is indexed *)
Theorem duplicate_window_inhabited :
  (exists s, run init window_run = Some s /\ final s = true /\ idx s = [(Data, [7%N]); (Data, [7%N])]) /\
  (exists s, run init no_window_run = Some s /\ final s = true /\ idx s = [(Data, [7%N])]).
Proof. split; eexists; (split; [vm_compute; reflexivity|]); split; reflexivity. Qed.
Print Assumptions duplicate_window_inhabited.

(* the schedule on which the untyped indexer lost the tree blob now stores both *)
Theorem collision_both_stored :
  exists s, run init collision_full_run = Some s /\ final s = true /\
            idx s = [(Data, [7%N]); (Tree, [7%N])].
Proof. eexists. split; [vm_compute; reflexivity|]. split; reflexivity. Qed.
Print Assumptions collision_both_stored.

(* the hypotheses of typed_identity are satisfiable: a chunk and a tree with the same id in one source *)
Theorem typed_identity_inhabited :
  exists s r, backup_run ex_tid [] ex_collision_items ex_collision_events s r /\
              In (Data, 100%N) (r_all r) /\ In (Tree, 100%N) (r_all r) /\
              idx s = [(Data, [100%N]); (Tree, [100%N; 102%N; 101%N])].
Proof.
  eexists. eexists. split.
  - unfold backup_run. split; [vm_compute; reflexivity|]. split; [apply Permutation_refl|].
    split; [vm_compute; reflexivity | reflexivity].
  - cbn. split; [tauto|]. split; [tauto | reflexivity].
Qed.
Print Assumptions typed_identity_inhabited.

(* a complete backup run exists: a directory with one two-chunk file and an empty directory,
   chunk 7 already in the index *)
Theorem backup_run_inhabited :
  exists es s r, backup_run ex_tid [(Data, 7%N)] ex_items es s r /\
                 r_sent r = [(Data, 8%N); (Tree, 100%N); (Tree, 102%N); (Tree, 101%N)].
Proof.
  exists ([Send Data 8%N; Send Tree 100%N; Send Tree 102%N; Send Tree 101%N;
           Adv Data 0; Adv Data 0; Adv Data 0; Adv Data 0; Adv Data 0; Flush Data; WriteP Data; IndexP Data]
          ++ [Adv Tree 0; Adv Tree 0; Adv Tree 0; Adv Tree 0; Adv Tree 0;
              Adv Tree 0; Adv Tree 0; Adv Tree 0; Adv Tree 0; Adv Tree 0;
              Adv Tree 0; Adv Tree 0; Adv Tree 0; Adv Tree 0; Adv Tree 0; Flush Tree; WriteP Tree; IndexP Tree]).
  eexists. eexists. split.
  - unfold backup_run. split; [vm_compute; reflexivity|]. split; [apply Permutation_refl|].
    split; [vm_compute; reflexivity | reflexivity].
  - reflexivity.
Qed.
Print Assumptions backup_run_inhabited.
