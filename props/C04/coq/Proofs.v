(* C04 — the envelope under an ideal AEAD: Key::decrypt_data as an equation on nonce ‖ ciphertext
   and as an inversion (what decrypts was issued), what the file and blob codecs add to it, and
   tampering with a stored ciphertext. *)
From Verif.Base Require Import Tactics Lists.
From Verif.C04 Require Import Model.
Local Open Scope N_scope.

(* body ‖ tag, what aead::decrypt receives *)
Definition ct {key} (enc : key -> bytes -> bytes -> bytes * bytes) k n m : bytes :=
  fst (enc k n m) ++ snd (enc k n m).

(* Ideal AEAD relative to the set `issued k n m` of encryptions the key holder made
   (nonce n, message m under key k).  This is the idealisation the column trusts in place of
   AES256-CTR + Poly1305: besides lengths and correctness, INT-CTXT (the only (nonce, ciphertext)
   pairs that verify are issued ones) and one message per nonce and key. *)
Record ideal_aead {key} (enc : key -> bytes -> bytes -> bytes * bytes)
       (dec : key -> bytes -> bytes -> option bytes)
       (issued : key -> bytes -> bytes -> Prop) : Prop := {
  ia_len : forall k n m, length (fst (enc k n m)) = length m /\ length (snd (enc k n m)) = tag_len;
  ia_correct : forall k n m, issued k n m -> dec k n (ct enc k n m) = Some m;
  ia_int_ctxt : forall k n c m, dec k n c = Some m -> issued k n m /\ c = ct enc k n m;
  ia_fresh : forall k n m m', issued k n m -> issued k n m' -> m = m'
}.

Definition zstd_ok (zenc : Z -> bytes -> bytes) (zdec : bytes -> option bytes) : Prop :=
  forall l d, zdec (zenc l d) = Some d.

Definition is_err {A} (r : res A) : Prop := exists e, r = Err e.

Lemma is_err_not_ok {A} (r : res A) : is_err r <-> forall x, r <> Ok x.
Proof.
  split.
  - intros [e ->] x H. discriminate.
  - intros H. destruct r as [a|e]; [exfalso; eapply H; reflexivity | eexists; reflexivity].
Qed.

Lemma distinct_nonces_fresh {key} (log : list (key * bytes * bytes)) :
  NoDup (map (fun e => (fst (fst e), snd (fst e))) log) ->
  forall k n m m', In (k, n, m) log -> In (k, n, m') log -> m = m'.
Proof.
  intros ND k n m m' H1 H2.
  assert (E : (k, n, m) = (k, n, m')) by (eapply NoDup_map_inj; [exact ND| | |]; auto).
  congruence.
Qed.

Section Framing.
  Context {key : Type}.
  Variable enc : key -> bytes -> bytes -> bytes * bytes.
  Variable dec : key -> bytes -> bytes -> option bytes.
  Variable issued : key -> bytes -> bytes -> Prop.
  Variable zenc : Z -> bytes -> bytes.
  Variable zdec : bytes -> option bytes.
  Hypothesis IA : ideal_aead enc dec issued.
  Hypothesis ZOK : zstd_ok zenc zdec.

  Notation encrypt_data := (encrypt_data key enc).
  Notation decrypt_data := (decrypt_data key dec).
  Notation encrypt_file := (encrypt_file key enc zenc).
  Notation decrypt_file := (decrypt_file key dec zdec).
  Notation encode_blob := (encode_blob key enc zenc).
  Notation decode_blob := (decode_blob key dec zdec).

  Lemma encrypt_data_eq k n m : encrypt_data k n m = n ++ ct enc k n m.
  Proof. unfold Model.encrypt_data, ct. destruct (enc k n m). reflexivity. Qed.

  Lemma ct_length k n m : length (ct enc k n m) = (length m + tag_len)%nat.
  Proof. unfold ct. rewrite app_length. destruct (ia_len _ _ _ IA k n m) as [-> ->]. reflexivity. Qed.

  Lemma encrypt_data_length k n m :
    length n = nonce_len -> length (encrypt_data k n m) = (length m + overhead)%nat.
  Proof.
    intro Hn. rewrite encrypt_data_eq, app_length, ct_length, Hn.
    unfold nonce_len, tag_len, overhead. lia.
  Qed.

  Lemma decrypt_data_app k n c :
    length n = nonce_len ->
    decrypt_data k (n ++ c) = match dec k n c with Some m => Ok m | None => Err EMac end.
  Proof.
    intro Hn. unfold Model.decrypt_data.
    rewrite firstn_app_exact, skipn_app_exact by assumption.
    replace (length (n ++ c) <? nonce_len)%nat with false; [reflexivity|].
    symmetry. apply Nat.ltb_ge. rewrite app_length, Hn. apply Nat.le_add_r.
  Qed.

  Lemma decrypt_encrypt_data k n m :
    length n = nonce_len -> issued k n m -> decrypt_data k (encrypt_data k n m) = Ok m.
  Proof.
    intros Hn Hi. rewrite encrypt_data_eq, decrypt_data_app, (ia_correct _ _ _ IA) by assumption.
    reflexivity.
  Qed.

  Lemma decrypt_data_ok_inv k t m :
    decrypt_data k t = Ok m ->
    exists n, length n = nonce_len /\ issued k n m /\ t = encrypt_data k n m.
  Proof.
    unfold Model.decrypt_data. destruct (length t <? nonce_len)%nat eqn:L; [discriminate|].
    apply Nat.ltb_ge in L.
    destruct (dec k (firstn nonce_len t) (skipn nonce_len t)) as [m'|] eqn:D; [|discriminate].
    intro H. injection H as <-.
    destruct (ia_int_ctxt _ _ _ IA _ _ _ _ D) as [Hi Hc].
    exists (firstn nonce_len t). split; [apply firstn_length_le; assumption|]. split; [assumption|].
    rewrite encrypt_data_eq, <- Hc. symmetry. apply firstn_skipn.
  Qed.

  (* Key::decrypt_data itself tests for 16 bytes only; from 16 to 31 the AEAD refuses, nothing
     issued being that short *)
  Lemma decrypt_short k t : (length t < overhead)%nat -> is_err (decrypt_data k t).
  Proof.
    intro L. apply is_err_not_ok. intros m H.
    destruct (decrypt_data_ok_inv _ _ _ H) as (n & Hn & _ & ->).
    rewrite encrypt_data_length in L by assumption. unfold overhead in L. lia.
  Qed.

  Lemma decrypt_file_decodes_payload k n p :
    length n = nonce_len -> issued k n p ->
    decrypt_file k (encrypt_data k n p) = decode_file_plain zdec p.
  Proof.
    intros Hn Hi. unfold Model.decrypt_file. rewrite decrypt_encrypt_data by assumption. reflexivity.
  Qed.

  Lemma decode_file_plain_json d : json_start d = true -> decode_file_plain zdec d = Ok d.
  Proof.
    destruct d as [|b r]; [discriminate|]. cbn [json_start decode_file_plain]. intros ->. reflexivity.
  Qed.

  Lemma decode_file_payload zstd data :
    (zstd = None -> json_start data = true) ->
    decode_file_plain zdec (file_payload zenc zstd data) = Ok data.
  Proof.
    intro Hj. destruct zstd as [l|]; cbn [file_payload].
    - cbn [decode_file_plain]. unfold m_zstd, m_brace, m_bracket. cbn. rewrite ZOK. reflexivity.
    - apply decode_file_plain_json, Hj. reflexivity.
  Qed.

  Lemma decrypt_encrypt_file zstd k n data :
    length n = nonce_len -> issued k n (file_payload zenc zstd data) ->
    (zstd = None -> json_start data = true) ->
    decrypt_file k (encrypt_file zstd k n data) = Ok data.
  Proof.
    intros Hn Hi Hj. unfold Model.encrypt_file. rewrite decrypt_file_decodes_payload by assumption.
    apply decode_file_payload. assumption.
  Qed.

  Lemma file_payload_marker zstd data :
    match zstd with
    | Some l => exists r, file_payload zenc zstd data = m_zstd :: r
    | None => file_payload zenc zstd data = data
    end.
  Proof. destruct zstd; cbn; eauto. Qed.

  Lemma blob_ulen_nonempty zstd (data : bytes) :
    zstd = None \/ data <> [] ->
    blob_ulen zstd (N.of_nat (length data))
    = match zstd with Some _ => Some (N.of_nat (length data)) | None => None end.
  Proof.
    intros H. destruct zstd as [l|]; [|reflexivity].
    destruct H as [H|H]; [discriminate|]. destruct data; [contradiction|reflexivity].
  Qed.

  Lemma encode_blob_ok_inv zstd k n data c len ul :
    encode_blob zstd k n data = Ok (c, len, ul) ->
    c = encrypt_data k n (blob_payload zenc zstd data) /\ len = N.of_nat (length data)
    /\ ul = blob_ulen zstd len.
  Proof.
    unfold Model.encode_blob. destruct (4294967295 <? N.of_nat (length data)); [discriminate|].
    intro H. injection H as <- <- <-. auto.
  Qed.

  Lemma decode_blob_encrypt_data k n p ul :
    length n = nonce_len -> issued k n p ->
    decode_blob k (encrypt_data k n p) ul
    = match ul with
      | None => Ok p
      | Some l => match zdec p with
                  | None => Err EZstd
                  | Some x => if N.of_nat (length x) =? l then Ok x else Err ELen
                  end
      end.
  Proof.
    intros Hn Hi. unfold Model.decode_blob. rewrite decrypt_encrypt_data by assumption. reflexivity.
  Qed.

  Lemma decoders_fail k t :
    is_err (decrypt_data k t) ->
    is_err (decrypt_file k t) /\ (forall ul, is_err (decode_blob k t ul)).
  Proof.
    intros [e He]. unfold Model.decrypt_file, Model.decode_blob. rewrite He.
    split; [|intro ul]; eexists; reflexivity.
  Qed.

  Lemma tampered_ok_inv k n m t :
    issued k n m -> t <> encrypt_data k n m ->
    forall m', decrypt_data k t = Ok m' ->
    exists n', n' <> n /\ length n' = nonce_len /\ issued k n' m' /\ t = encrypt_data k n' m'.
  Proof.
    intros Hi Hne m' H.
    destruct (decrypt_data_ok_inv _ _ _ H) as (n' & Hn' & Hi' & ->).
    exists n'. repeat split; try assumption.
    intros ->. apply Hne. rewrite (ia_fresh _ _ _ IA _ _ _ _ Hi Hi'). reflexivity.
  Qed.

  Lemma tamper_same_nonce k n m t :
    issued k n m -> t <> encrypt_data k n m ->
    firstn nonce_len t = n -> is_err (decrypt_data k t).
  Proof.
    intros Hi Hne Hf. apply is_err_not_ok. intros m' H.
    destruct (tampered_ok_inv _ _ _ _ Hi Hne _ H) as (n' & Hd & Hn' & _ & ->).
    apply Hd. rewrite encrypt_data_eq, firstn_app_exact in Hf by assumption. assumption.
  Qed.

  Lemma firstn_nonce_encrypt k n m x :
    length n = nonce_len -> firstn nonce_len (encrypt_data k n m ++ x) = n.
  Proof. intro Hn. rewrite encrypt_data_eq, <- app_assoc. apply firstn_app_exact. assumption. Qed.

  (* every truncation, every extension and every in-place modification outside the nonce field:
     each leaves the nonce field as it was, or less than a nonce *)
  Lemma tampered_rejected k n m t :
    length n = nonce_len -> issued k n m -> t <> encrypt_data k n m ->
    (exists j, (j < length (encrypt_data k n m))%nat /\ t = firstn j (encrypt_data k n m))
    \/ (exists x, t = encrypt_data k n m ++ x)
    \/ firstn nonce_len t = firstn nonce_len (encrypt_data k n m) ->
    is_err (decrypt_data k t).
  Proof.
    intros Hn Hi Hne H.
    pose proof (firstn_nonce_encrypt k n m [] Hn) as N0. rewrite app_nil_r in N0.
    destruct H as [(j & _ & ->)|[(x & ->)|Hf]].
    - destruct (Nat.lt_ge_cases j nonce_len) as [Hs|Hl].
      + apply decrypt_short. pose proof (firstn_le_length j (encrypt_data k n m)).
        unfold nonce_len, overhead in *. lia.
      + apply (tamper_same_nonce k n m); try assumption.
        rewrite firstn_firstn, Nat.min_l; assumption.
    - apply (tamper_same_nonce k n m); try assumption. apply firstn_nonce_encrypt. assumption.
    - apply (tamper_same_nonce k n m); try assumption. rewrite Hf. assumption.
  Qed.
End Framing.
