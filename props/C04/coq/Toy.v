(* C04 — a concrete, executable instance of the ideal primitives.  Two uses:
   (1) the hypotheses of the main property theorems are satisfiable (Examples in Props.v);
   (2) the extracted model runs the framing / routing / key-management logic with these
       stand-ins, fed with the oracle values (zstd frames) observed on the real code.
   The toy "cipher" keeps lengths faithful: body = message, tag = 16 bytes (key, then zeros);
   "verification" is a lookup in the log of issued encryptions. *)
From Verif.Base Require Import Tactics.
From Verif.C04 Require Import Model Proofs.
Local Open Scope N_scope.

Definition tkey := N.
Definition tpass := N.
Definition tlog := list (tkey * bytes * bytes).      (* key, nonce, message *)

Fixpoint beq_bytes (a b : bytes) : bool :=
  match a, b with
  | [], [] => true
  | x :: a', y :: b' => (x =? y) && beq_bytes a' b'
  | _, _ => false
  end.

Definition toy_tag (k : tkey) : bytes := k :: repeat 0 15.
Definition toy_enc (k : tkey) (n m : bytes) : bytes * bytes := (m, toy_tag k).

Definition toy_match (k : tkey) (n c : bytes) (e : tkey * bytes * bytes) : bool :=
  let '(k0, n0, m0) := e in (k0 =? k) && beq_bytes n0 n && beq_bytes (m0 ++ toy_tag k) c.

Definition toy_dec (log : tlog) (k : tkey) (n c : bytes) : option bytes :=
  match find (toy_match k n c) log with
  | Some (_, _, m0) => Some m0
  | None => None
  end.

Definition toy_issued (log : tlog) (k : tkey) (n m : bytes) : Prop := In (k, n, m) log.
Definition log_fresh (log : tlog) : Prop :=
  forall k n m m', In (k, n, m) log -> In (k, n, m') log -> m = m'.

(* zstd stand-in: a table of (level, data, frame) observed on the real code *)
Definition ztab := list (Z * bytes * bytes).
Definition toy_zenc (t : ztab) (l : Z) (d : bytes) : bytes :=
  match find (fun '(l0, d0, _) => (l0 =? l)%Z && beq_bytes d0 d) t with
  | Some (_, _, f) => f
  | None => 1000 :: d        (* fallback: a tag no real byte string starts with; invertible *)
  end.
Definition toy_zdec (t : ztab) (f : bytes) : option bytes :=
  match find (fun '(_, _, f0) => beq_bytes f0 f) t with
  | Some (_, d, _) => Some d
  | None => match f with
            | 1000 :: d => Some d
            | _ => None
            end
  end.

Definition toy_kdf (p : tpass) (salt : bytes) : tkey := p + 1000.
Definition toy_mk_ser (k : tkey) : bytes := [m_brace; k].
Definition toy_mk_de (b : bytes) : option tkey :=
  match b with [_; k] => Some k | _ => None end.
Definition toy_hash (b : bytes) : fid := fold_left (fun a x => a * 257 + x + 1) b 0.

Lemma beq_bytes_eq a b : beq_bytes a b = true <-> a = b.
Proof.
  revert b. induction a as [|x a IH]; intros [|y b]; cbn; split; intro H; try discriminate; try reflexivity.
  - apply andb_true_iff in H. destruct H as [H1 H2]. apply N.eqb_eq in H1. apply IH in H2. congruence.
  - injection H as -> ->. rewrite N.eqb_refl. cbn. apply IH. reflexivity.
Qed.

Lemma beq_bytes_refl a : beq_bytes a a = true.
Proof. apply beq_bytes_eq. reflexivity. Qed.

Lemma toy_ct k n m : ct toy_enc k n m = m ++ toy_tag k.
Proof. reflexivity. Qed.

Lemma toy_match_true k n c k0 n0 m0 :
  toy_match k n c (k0, n0, m0) = true <-> k0 = k /\ n0 = n /\ m0 ++ toy_tag k = c.
Proof.
  unfold toy_match. split.
  - intro H. apply andb_true_iff in H as [H H3]. apply andb_true_iff in H as [H1 H2].
    apply N.eqb_eq in H1. apply beq_bytes_eq in H2, H3. auto.
  - intros (-> & -> & <-). rewrite N.eqb_refl, !beq_bytes_refl. reflexivity.
Qed.

Lemma toy_ideal log : log_fresh log -> ideal_aead toy_enc (toy_dec log) (toy_issued log).
Proof.
  intro F. constructor.
  - intros k n m. split; reflexivity.
  - intros k n m Hi. unfold toy_dec.
    destruct (find (toy_match k n (ct toy_enc k n m)) log) as [[[k0 n0] m0]|] eqn:E.
    + apply find_some in E as [_ E]. apply toy_match_true in E as (_ & _ & E).
      rewrite toy_ct in E. apply app_inv_tail in E. congruence.
    + pose proof (find_none _ _ E _ Hi) as H.
      rewrite (proj2 (toy_match_true k n _ k n m)) in H by auto. discriminate.
  - intros k n c m H. unfold toy_dec in H.
    destruct (find (toy_match k n c) log) as [[[k0 n0] m0]|] eqn:E; [|discriminate].
    injection H as ->. apply find_some in E as [Hin E].
    apply toy_match_true in E as (-> & -> & <-). split; [exact Hin|reflexivity].
  - exact F.
Qed.

(* toy_ksep, toy_kdf_inj, toy_mk: the instance also meets the three premises that
   open_iff_some_password adds to ideal_aead (its Example does not restate them) *)
Lemma toy_ksep log k k' n m m' :
  toy_issued log k n m -> toy_issued log k' n m' -> ct toy_enc k n m = ct toy_enc k' n m' -> k = k'.
Proof.
  intros _ _ E. rewrite !toy_ct in E.
  change (m ++ [k] ++ repeat 0 15 = m' ++ [k'] ++ repeat 0 15) in E.
  rewrite !app_assoc in E. apply app_inv_tail, app_inj_tail in E. apply E.
Qed.

Lemma toy_kdf_inj p p' s : toy_kdf p s = toy_kdf p' s -> p = p'.
Proof. unfold toy_kdf. lia. Qed.

Lemma toy_mk k : toy_mk_de (toy_mk_ser k) = Some k.
Proof. reflexivity. Qed.

Lemma toy_zstd_ok : zstd_ok (toy_zenc []) (toy_zdec []).
Proof. intros l d. reflexivity. Qed.

(* a concrete log used by the Examples: two files and a config under master key 7, two key files *)
Definition ex_n1 : bytes := repeat 1 16.
Definition ex_n2 : bytes := repeat 2 16.
Definition ex_n3 : bytes := repeat 3 16.
Definition ex_d1 : bytes := [m_brace; 10; 11].
Definition ex_d2 : bytes := [m_brace; 20; 21; 22].
Definition ex_log : tlog :=
  [ (7, ex_n1, file_payload (toy_zenc []) (Some 3%Z) ex_d1);
    (7, ex_n2, file_payload (toy_zenc []) (Some 3%Z) ex_d2);
    (7, ex_n3, ex_d1);
    (toy_kdf 5 [9], ex_n1, toy_mk_ser 7);
    (toy_kdf 6 [8], ex_n2, toy_mk_ser 7) ].

Lemma ex_log_fresh : log_fresh ex_log.
Proof.
  refine (distinct_nonces_fresh ex_log _). cbn [ex_log map fst snd].
  repeat constructor; cbn [In]; intuition discriminate.
Qed.

Lemma ex_ids_differ :
  toy_hash (encrypt_file tkey toy_enc (toy_zenc []) (Some 3%Z) 7 ex_n1 ex_d1)
  <> toy_hash (encrypt_file tkey toy_enc (toy_zenc []) (Some 3%Z) 7 ex_n2 ex_d2).
Proof. apply N.eqb_neq. vm_compute. reflexivity. Qed.
