(* C04 — Envelope: executable model of the encryption framing of rustic_core.
   Anchors: crypto/aespoly1305.rs (Key::encrypt_data / decrypt_data),
   backend/decrypt.rs (encrypt_file / decrypt_file / encrypt_data (blob) /
   read_encrypted_from_partial / read_encrypted_full / get_file / hash_write_full),
   repofile/keyfile.rs (KeyFile::generate / key_from_password / find_key_in_backend),
   commands/key.rs + repository.rs (add_key / delete_key / open), blob/packer.rs (pack assembly).

   The AEAD (AES256-CTR + Poly1305-AES), the KDF (scrypt), zstd, SHA-256 and the JSON
   codec of the master key are PARAMETERS of every definition (Section variables,
   generalised at the end of the section); definitions only, no proofs here. *)
From Verif.Base Require Import Tactics.
Local Open Scope N_scope.

Definition byte := N.
Definition bytes := list byte.

(* error classes the correspondence distinguishes *)
Inductive err :=
| ETooShort      (* "Data is too short (less than 16 bytes)" — no error code *)
| EMac           (* MAC check failed — error code C001 *)
| EZstd          (* zstd decode failed *)
| EUnsupported   (* first byte neither '{' '[' nor 2 *)
| ELen           (* uncompressed length differs from the recorded one *)
| EConv          (* blob longer than u32::MAX *)
| EJson          (* master key JSON does not parse *)
| ECred          (* no key file matches the password — error code C002 *)
| ENotFound      (* backend has no such file *)
| EIdMismatch    (* hash(stored bytes) <> id  (only in the id-checking read) *)
| ECurrentKey.   (* delete_key of the key the handle was opened with *)

Inductive res (A : Type) := Ok (a : A) | Err (e : err).
Arguments Ok {A} a.
Arguments Err {A} e.

Definition is_ok {A} (r : res A) : bool := match r with Ok _ => true | Err _ => false end.

Definition nonce_len : nat := 16.
Definition tag_len : nat := 16.
Definition overhead : nat := 32.

(* little-endian u32 (pack trailer) *)
Definition le32 (n : N) : bytes :=
  [n mod 256; (n / 256) mod 256; (n / 65536) mod 256; (n / 16777216) mod 256].

Definition nonzero_u32 (n : N) : option N := if n =? 0 then None else Some n.

(* first-byte markers of a decrypted repository file *)
Definition m_zstd : byte := 2.
Definition m_brace : byte := 123.   (* '{' *)
Definition m_bracket : byte := 91.  (* '[' *)

Definition json_start (d : bytes) : bool :=
  match d with
  | b :: _ => (b =? m_brace) || (b =? m_bracket)
  | [] => false
  end.

Section Envelope.
  (* --- primitives (ideal; see Proofs.v for the hypotheses about them) --- *)
  Variable key : Type.
  (* detached AEAD: nonce, message -> (body, tag) ; aead::decrypt: nonce, body ++ tag *)
  Variable enc : key -> bytes -> bytes -> bytes * bytes.
  Variable dec : key -> bytes -> bytes -> option bytes.
  (* zstd as an abstract codec, level is an integer *)
  Variable zenc : Z -> bytes -> bytes.
  Variable zdec : bytes -> option bytes.

  (* Key::encrypt_data: res = nonce ‖ body ‖ tag *)
  Definition encrypt_data (k : key) (nonce : bytes) (m : bytes) : bytes :=
    let '(body, tag) := enc k nonce m in nonce ++ body ++ tag.

  (* Key::decrypt_data: `if data.len() < 16 {Err}`; nonce = data[0..16]; aead decrypt of data[16..] *)
  Definition decrypt_data (k : key) (d : bytes) : res bytes :=
    if (length d <? nonce_len)%nat then Err ETooShort
    else match dec k (firstn nonce_len d) (skipn nonce_len d) with
         | Some m => Ok m
         | None => Err EMac
         end.

  (* DecryptBackend::encrypt_file: what is handed to Key::encrypt_data *)
  Definition file_payload (zstd : option Z) (data : bytes) : bytes :=
    match zstd with
    | Some level => m_zstd :: zenc level data      (* vec![2] then copy_encode *)
    | None => data
    end.
  Definition encrypt_file (zstd : option Z) (k : key) (nonce : bytes) (data : bytes) : bytes :=
    encrypt_data k nonce (file_payload zstd data).

  (* DecryptBackend::decrypt_file (DryRunBackend::read_encrypted_full delegates to the wrapped backend) *)
  Definition decode_file_plain (p : bytes) : res bytes :=
    match p with
    | b :: r =>
      if (b =? m_brace) || (b =? m_bracket) then Ok p
      else if b =? m_zstd then
        match zdec r with Some x => Ok x | None => Err EZstd end
      else Err EUnsupported
    | [] => Err EUnsupported
    end.

  Definition decrypt_file (k : key) (d : bytes) : res bytes :=
    match decrypt_data k d with
    | Err e => Err e
    | Ok p => decode_file_plain p
    end.

  (* DecryptBackend::encrypt_data (blob): (ciphertext, data_len, uncompressed_length) *)
  Definition blob_payload (zstd : option Z) (data : bytes) : bytes :=
    match zstd with
    | Some level => zenc level data                (* encode_all *)
    | None => data
    end.
  Definition blob_ulen (zstd : option Z) (len : N) : option N :=
    match zstd with
    | Some _ => nonzero_u32 len                    (* NonZeroU32::new(data_len) *)
    | None => None
    end.
  Definition encode_blob (zstd : option Z) (k : key) (nonce : bytes) (data : bytes)
    : res (bytes * N * option N) :=
    let len := N.of_nat (length data) in
    if 4294967295 <? len then Err EConv
    else Ok (encrypt_data k nonce (blob_payload zstd data), len, blob_ulen zstd len).

  (* DecryptReadBackend::read_encrypted_from_partial *)
  Definition decode_blob (k : key) (d : bytes) (ulen : option N) : res bytes :=
    match decrypt_data k d with
    | Err e => Err e
    | Ok p =>
      match ulen with
      | None => Ok p
      | Some l =>
        match zdec p with
        | None => Err EZstd
        | Some x => if N.of_nat (length x) =? l then Ok x else Err ELen
        end
      end
    end.

  (* --- pack assembly (blob/packer.rs: add_raw*, save: encrypted header, LE32 length) --- *)
  Definition assemble_pack (blobs : list bytes) (enc_header : bytes) : bytes :=
    concat blobs ++ enc_header ++ le32 (N.of_nat (length enc_header)).

  (* --- storage: files of one type, id -> bytes (association list, first match) --- *)
  Definition fid := N.
  Definition store := list (fid * bytes).

  Fixpoint lookup (s : store) (i : fid) : option bytes :=
    match s with
    | [] => None
    | (j, b) :: r => if j =? i then Some b else lookup r i
    end.

  (* get_file / read_encrypted_full without id verification (the tree before the repair; still the
     behaviour of a DecryptBackend whose verify_id is off, and of the config file read) *)
  Definition read_encrypted_full (k : key) (s : store) (i : fid) : res bytes :=
    match lookup s i with
    | None => Err ENotFound
    | Some d => decrypt_file k d
    end.

  (* the same read with `hash(stored bytes) == id` verified first *)
  Variable hash : bytes -> fid.
  Definition read_encrypted_full_checked (k : key) (s : store) (i : fid) : res bytes :=
    match lookup s i with
    | None => Err ENotFound
    | Some d => if hash d =? i then decrypt_file k d else Err EIdMismatch
    end.

  (* DecryptBackend::read_encrypted_full as it is now: `verify_id` (switched on by
     Repository::open_raw) and `tpe != FileType::Config` select the id-checking read *)
  Definition read_repo_file (verify_id is_config : bool) (k : key) (s : store) (i : fid) : res bytes :=
    if verify_id && negb is_config then read_encrypted_full_checked k s i
    else read_encrypted_full k s i.

  (* Loaders (DecryptReadBackend::stream_all -> stream_list -> get_file, consumed with `?`):
     GlobalIndex::new_from_collector, get_all_snapshots, prune, check, ... read EVERY id of the
     backend's listing of the type; the first failing read fails the whole load.
     `complete = false` models a loader that first drops listed files of size 0. *)
  Fixpoint load_all (read : fid -> res bytes) (ids : list fid) : res (list (fid * bytes)) :=
    match ids with
    | [] => Ok []
    | i :: r =>
      match read i with
      | Err e => Err e
      | Ok x => match load_all read r with
                | Err e => Err e
                | Ok xs => Ok ((i, x) :: xs)
                end
      end
    end.

  Definition listing (s : store) : list (fid * N) := map (fun '(i, b) => (i, N.of_nat (length b))) s.

  Definition load_type (complete verify_id : bool) (k : key) (s : store) : res (list (fid * bytes)) :=
    let ids := if complete then map fst (listing s)
               else map fst (filter (fun '(_, sz) => negb (sz =? 0)) (listing s)) in
    load_all (read_repo_file verify_id false k s) ids.

  (* hash_write_full: id = hash of the stored (encrypted) bytes *)
  Definition hash_write_full (zstd : option Z) (k : key) (nonce data : bytes) (s : store) : fid * store :=
    let d := encrypt_file zstd k nonce data in (hash d, (hash d, d) :: s).

  (* exchange the contents stored under two ids *)
  Definition swap_files (s : store) (i j : fid) : store :=
    map (fun '(x, b) =>
           if x =? i then (x, match lookup s j with Some c => c | None => b end)
           else if x =? j then (x, match lookup s i with Some c => c | None => b end)
           else (x, b)) s.

  (* --- key files --- *)
  Variable password : Type.                      (* passwords are opaque to the logic *)
  Variable kdf : password -> bytes -> key.       (* password, salt -> key (scrypt) *)
  Variable mk_ser : key -> bytes.                (* serde_json::to_vec(MasterKey) *)
  Variable mk_de : bytes -> option key.          (* serde_json::from_slice::<MasterKey> *)

  Record keyfile := { kf_salt : bytes; kf_data : bytes }.

  (* KeyFile::generate *)
  Definition kf_generate (master : key) (pass : password) (salt nonce : bytes) : keyfile :=
    {| kf_salt := salt; kf_data := encrypt_data (kdf pass salt) nonce (mk_ser master) |}.

  (* KeyFile::key_from_password = key_from_data (kdf_key passwd) *)
  Definition key_from_password (kf : keyfile) (pass : password) : res key :=
    match decrypt_data (kdf pass (kf_salt kf)) (kf_data kf) with
    | Err e => Err e
    | Ok d => match mk_de d with Some k => Ok k | None => Err EJson end
    end.

  (* find_key_in_backend (hint = None): first key file that opens; C001 errors are skipped,
     any other error aborts the search; no key file matches -> C002 *)
  Fixpoint find_key (kfs : list (fid * keyfile)) (pass : password) : res (key * fid) :=
    match kfs with
    | [] => Err ECred
    | (i, kf) :: r =>
      match key_from_password kf pass with
      | Ok k => Ok (k, i)
      | Err EMac => find_key r pass
      | Err e => Err e
      end
    end.

  (* repository key state: key files in the backend, the config file (encrypted with the
     master key, saved uncompressed), and the master key itself (held by an open handle) *)
  Record kstate := { ks_files : list (fid * keyfile); ks_config : bytes }.

  Inductive kop :=
  | KAdd (i : fid) (pass : password) (salt nonce : bytes)       (* add_key: file id = hash of its JSON *)
  | KDel (i : fid) (cur : option fid).              (* delete_key on a handle opened via key `cur` *)

  Definition kremove (i : fid) (l : list (fid * keyfile)) : list (fid * keyfile) :=
    filter (fun '(j, _) => negb (j =? i)) l.

  Definition kstep (master : key) (st : kstate) (o : kop) : kstate :=
    match o with
    | KAdd i pass salt nonce =>
      {| ks_files := (i, kf_generate master pass salt nonce) :: kremove i (ks_files st);
         ks_config := ks_config st |}
    | KDel i cur =>
      match cur with
      | Some c => if c =? i then st
                  else {| ks_files := kremove i (ks_files st); ks_config := ks_config st |}
      | None => {| ks_files := kremove i (ks_files st); ks_config := ks_config st |}
      end
    end.

  Definition krun (master : key) (st : kstate) (ops : list kop) : kstate :=
    fold_left (kstep master) ops st.

  (* Repository::open: Credentials::Password -> find_key, Credentials::Masterkey -> the key itself;
     then the config file is read with that key (get_file::<ConfigFile>) *)
  Inductive cred := CPassword (p : password) | CMaster (k : key).

  Definition open_repo (st : kstate) (c : cred) : res (key * bytes) :=
    match c with
    | CPassword p =>
      match find_key (ks_files st) p with
      | Err e => Err e
      | Ok (k, _) => match decrypt_file k (ks_config st) with Ok cfg => Ok (k, cfg) | Err e => Err e end
      end
    | CMaster k => match decrypt_file k (ks_config st) with Ok cfg => Ok (k, cfg) | Err e => Err e end
    end.

  (* passwords of the key files a history leaves behind (specification side) *)
  Definition pstep (st : list (fid * password)) (o : kop) : list (fid * password) :=
    match o with
    | KAdd i pass _ _ => (i, pass) :: filter (fun '(j, _) => negb (j =? i)) st
    | KDel i cur =>
      match cur with
      | Some c => if c =? i then st else filter (fun '(j, _) => negb (j =? i)) st
      | None => filter (fun '(j, _) => negb (j =? i)) st
      end
    end.
End Envelope.

(* --- call-site inventory (classes used by Extracted.v) --- *)
Inductive site_class :=
| SEncFile        (* hash_write_full: payload = encrypt_file output *)
| SEncRaw         (* hash_write_full_uncompressed: payload = Key::encrypt_data output *)
| SPack           (* packer file writer: encrypted blobs ++ encrypted header ++ LE32 *)
| SKeyFile        (* add_key_to_repo: key file JSON *)
| SPlainRepoFile  (* save_file, branch !F::ENCRYPTED: only reachable for the listed file types *)
| SPassThrough    (* backend wrapper forwarding the payload it was given *)
| SCopyStored     (* repair hotcold: bytes read from the same repository's store *)
| SDelegate.      (* save_file / save_list / save_file_uncompressed: calls a site above *)

Inductive ftype := FConfig | FIndex | FKey | FSnapshot | FPack.
