(* C04 — key management (open iff some current password), substitution of stored files (what the
   read returns after two files were exchanged, without and with the id check), and the
   write-site classes. *)
From Verif.Base Require Import Tactics.
From Verif.C04 Require Import Model Proofs.
Local Open Scope N_scope.

Section Keys.
  Context {key password : Type}.
  Variable enc : key -> bytes -> bytes -> bytes * bytes.
  Variable dec : key -> bytes -> bytes -> option bytes.
  Variable issued : key -> bytes -> bytes -> Prop.
  Variable zdec : bytes -> option bytes.
  Variable kdf : password -> bytes -> key.
  Variable mk_ser : key -> bytes.
  Variable mk_de : bytes -> option key.
  Hypothesis IA : ideal_aead enc dec issued.
  (* ciphertexts issued under different keys differ *)
  Hypothesis KSEP : forall k k' n m m', issued k n m -> issued k' n m' ->
                                        ct enc k n m = ct enc k' n m' -> k = k'.
  (* ideal KDF: no two passwords give the same key for one salt *)
  Hypothesis KDF : forall p p' s, kdf p s = kdf p' s -> p = p'.
  Hypothesis MK : forall k, mk_de (mk_ser k) = Some k.

  Notation encrypt_data := (encrypt_data key enc).
  Notation decrypt_data := (decrypt_data key dec).
  Notation decrypt_file := (decrypt_file key dec zdec).
  Notation kf_generate := (kf_generate key enc password kdf mk_ser).
  Notation key_from_password := (key_from_password key dec password kdf mk_de).
  Notation find_key := (find_key key dec password kdf mk_de).
  Notation krun := (krun key enc password kdf mk_ser).
  Notation kstep := (kstep key enc password kdf mk_ser).
  Notation open_repo := (open_repo key dec zdec password kdf mk_de).

  (* a case split, decided by what dec answers, so that no equality test on keys is needed *)
  Lemma decrypt_issued_cases k k' n m :
    length n = nonce_len -> issued k n m ->
    (k' = k /\ decrypt_data k' (encrypt_data k n m) = Ok m)
    \/ (k' <> k /\ decrypt_data k' (encrypt_data k n m) = Err EMac).
  Proof.
    intros Hn Hi. rewrite (encrypt_data_eq enc), decrypt_data_app by assumption.
    destruct (dec k' n (ct enc k n m)) as [m'|] eqn:D.
    - left. destruct (ia_int_ctxt _ _ _ IA _ _ _ _ D) as [Hi' Hc].
      assert (k = k') by (eapply KSEP; eassumption). subst k'.
      rewrite (ia_correct _ _ _ IA) in D by assumption. injection D as <-. auto.
    - right. split; [|reflexivity].
      intros ->. rewrite (ia_correct _ _ _ IA) in D by assumption. discriminate.
  Qed.

  Definition made_with (master : key) (p : password) (kf : keyfile) : Prop :=
    exists s n, kf = kf_generate master p s n /\ length n = nonce_len
                /\ issued (kdf p s) n (mk_ser master).

  Lemma key_from_password_cases master p kf p' :
    made_with master p kf ->
    (p' = p /\ key_from_password kf p' = Ok master) \/ (p' <> p /\ key_from_password kf p' = Err EMac).
  Proof.
    intros (s & n & -> & Hn & Hi). unfold Model.key_from_password, Model.kf_generate. cbn [kf_salt kf_data].
    destruct (decrypt_issued_cases (kdf p s) (kdf p' s) n _ Hn Hi) as [[E ->]|[E ->]].
    - left. rewrite MK. split; [|reflexivity]. eapply KDF. eassumption.
    - right. split; [|reflexivity]. intros ->. apply E. reflexivity.
  Qed.

  Definition kf_rel (master : key) (f : fid * keyfile) (p : fid * password) : Prop :=
    fst f = fst p /\ made_with master (snd p) (snd f).

  Lemma find_key_spec master files pfiles pass :
    Forall2 (kf_rel master) files pfiles ->
    (In pass (map snd pfiles) -> exists i, find_key files pass = Ok (master, i))
    /\ (~ In pass (map snd pfiles) -> find_key files pass = Err ECred).
  Proof.
    induction 1 as [|[i kf] [j p] files pfiles [_ M] _ [IH1 IH2]]; cbn [map snd In Model.find_key].
    - split; [intros []|reflexivity].
    - destruct (key_from_password_cases master p kf pass M) as [[-> ->]|[Hne ->]].
      + split; [eauto|]. intro H. exfalso. apply H. left. reflexivity.
      + split; [intros [->|H]; [contradiction|apply IH1, H]|].
        intro H. apply IH2. intro H'. apply H. right. exact H'.
  Qed.

  Definition op_issued (master : key) (o : kop password) : Prop :=
    match o with
    | KAdd _ _ pass salt nonce => length nonce = nonce_len /\ issued (kdf pass salt) nonce (mk_ser master)
    | KDel _ _ _ => True
    end.

  Lemma kremove_rel master i files pfiles :
    Forall2 (kf_rel master) files pfiles ->
    Forall2 (kf_rel master) (kremove i files) (filter (fun '(j, _) => negb (j =? i)) pfiles).
  Proof.
    induction 1 as [|[j kf] [j' p] files pfiles R _ IH]; cbn [kremove filter]; [constructor|].
    pose proof (proj1 R) as E. cbn [fst] in E. subst j'.
    destruct (negb (j =? i)); [constructor|]; assumption.
  Qed.

  (* What add_key / delete_key maintain: the config file stays the one written at init, and every
     key file was made with the master key and the password that pstep records for it. *)
  Definition key_inv (master : key) (cfg_ct : bytes) (st : kstate) (pst : list (fid * password)) :=
    ks_config st = cfg_ct /\ Forall2 (kf_rel master) (ks_files st) pst.

  Lemma kstep_inv master c st pst o :
    op_issued master o -> key_inv master c st pst ->
    key_inv master c (kstep master st o) (pstep password pst o).
  Proof.
    intros Ho [C H]. pose proof (fun i => kremove_rel master i _ _ H) as F.
    destruct o as [i pass salt nonce|i cur]; cbn [Model.kstep pstep].
    - split; [exact C|]. cbn [ks_files]. constructor; [|apply F].
      split; [reflexivity|]. destruct Ho as [Hn Hi]. exists salt, nonce. auto.
    - destruct cur as [c'|]; [destruct (c' =? i)|]; split; cbn [ks_files ks_config];
        try assumption; apply F.
  Qed.

  Lemma krun_inv master c ops : forall st pst,
    Forall (op_issued master) ops -> key_inv master c st pst ->
    key_inv master c (krun master st ops) (fold_left (pstep password) ops pst).
  Proof.
    induction ops as [|o ops IH]; intros st pst Ho H; [exact H|]. inv Ho.
    apply IH; [assumption|]. apply kstep_inv; assumption.
  Qed.

  Lemma open_repo_spec master st pst n cfg pass :
    length n = nonce_len -> issued master n cfg -> json_start cfg = true ->
    key_inv master (encrypt_data master n cfg) st pst ->
    (In pass (map snd pst) -> open_repo st (CPassword key password pass) = Ok (master, cfg))
    /\ (~ In pass (map snd pst) -> open_repo st (CPassword key password pass) = Err ECred)
    /\ open_repo st (CMaster key password master) = Ok (master, cfg)
    /\ (forall k', k' <> master -> open_repo st (CMaster key password k') = Err EMac).
  Proof.
    intros Hn Hi Hj [C R].
    assert (CFG : decrypt_file master (ks_config st) = Ok cfg).
    { rewrite C, (decrypt_file_decodes_payload enc dec issued zdec IA) by assumption.
      apply decode_file_plain_json, Hj. }
    destruct (find_key_spec master _ _ pass R) as [F1 F2].
    unfold Model.open_repo. repeat split.
    - intro H. destruct (F1 H) as [i ->]. rewrite CFG. reflexivity.
    - intro H. rewrite (F2 H). reflexivity.
    - rewrite CFG. reflexivity.
    - intros k' Hk. unfold Model.decrypt_file. rewrite C.
      destruct (decrypt_issued_cases master k' n cfg Hn Hi) as [[E _]|[_ ->]]; [contradiction|reflexivity].
  Qed.
End Keys.

Lemma lookup_swap_files (s : store) i j x :
  lookup (swap_files s i j) x
  = match lookup s x with
    | None => None
    | Some b => Some (if x =? i then match lookup s j with Some c => c | None => b end
                      else if x =? j then match lookup s i with Some c => c | None => b end
                      else b)
    end.
Proof.
  unfold swap_files. generalize (lookup s j) (lookup s i). intros A B.
  induction s as [|[y b] s IH]; [reflexivity|]. cbn [map lookup].
  destruct (y =? x) eqn:E.
  - apply N.eqb_eq in E. subst y.
    destruct (x =? i); [|destruct (x =? j)]; cbn [lookup]; rewrite N.eqb_refl; reflexivity.
  - rewrite <- IH. destruct (y =? i); [|destruct (y =? j)]; cbn [lookup]; rewrite E; reflexivity.
Qed.

Lemma lookup_swapped (s : store) i j a b :
  i <> j -> lookup s i = Some a -> lookup s j = Some b ->
  lookup (swap_files s i j) i = Some b /\ lookup (swap_files s i j) j = Some a.
Proof.
  intros Hij Li Lj. assert (E : j =? i = false) by (apply N.eqb_neq; congruence).
  rewrite !lookup_swap_files, Li, Lj, E, !N.eqb_refl. split; reflexivity.
Qed.

(* the store after two files were written under different ids *)
Lemma lookup_two i j (a b : bytes) :
  i <> j -> lookup [(j, b); (i, a)] i = Some a /\ lookup [(j, b); (i, a)] j = Some b.
Proof.
  intro Hij. assert (E : j =? i = false) by (apply N.eqb_neq; congruence).
  cbn [lookup]. rewrite E, !N.eqb_refl. split; reflexivity.
Qed.

Section Subst.
  Context {key : Type}.
  Variable dec : key -> bytes -> bytes -> option bytes.
  Variable zdec : bytes -> option bytes.
  Variable hash : bytes -> fid.

  Notation decrypt_file := (decrypt_file key dec zdec).
  Notation read_encrypted_full := (read_encrypted_full key dec zdec).
  Notation read_checked := (read_encrypted_full_checked key dec zdec hash).

  Lemma swap_undetected k s i j a b :
    i <> j -> lookup s i = Some a -> lookup s j = Some b ->
    read_encrypted_full k (swap_files s i j) i = decrypt_file k b
    /\ read_encrypted_full k (swap_files s i j) j = decrypt_file k a.
  Proof.
    intros Hij Li Lj. unfold Model.read_encrypted_full.
    destruct (lookup_swapped s i j a b Hij Li Lj) as [-> ->]. split; reflexivity.
  Qed.

  Lemma swap_detected k s i j a b :
    i <> j -> lookup s i = Some a -> lookup s j = Some b -> hash a = i -> hash b = j ->
    read_checked k (swap_files s i j) i = Err EIdMismatch
    /\ read_checked k (swap_files s i j) j = Err EIdMismatch.
  Proof.
    intros Hij Li Lj Ha Hb. unfold read_encrypted_full_checked.
    destruct (lookup_swapped s i j a b Hij Li Lj) as [-> ->]. rewrite Ha, Hb.
    apply N.eqb_neq in Hij. rewrite Hij, N.eqb_sym, Hij. split; reflexivity.
  Qed.
End Subst.

Section Sites.
  Context {key password : Type}.
  Variable enc : key -> bytes -> bytes -> bytes * bytes.
  Variable zenc : Z -> bytes -> bytes.
  Variable kdf : password -> bytes -> key.
  Variable mk_ser : key -> bytes.
  Variable kf_ser : keyfile -> bytes.            (* serde_json::to_vec(KeyFile) *)

  Notation encrypt_data := (encrypt_data key enc).

  Definition is_ct (k : key) (b : bytes) : Prop :=
    exists n m, length n = nonce_len /\ b = encrypt_data k n m.
  Definition is_pack (k : key) (b : bytes) : Prop :=
    exists blobs hdr, Forall (is_ct k) blobs /\ is_ct k hdr /\ b = assemble_pack blobs hdr.
  Definition is_keyfile (b : bytes) : Prop :=
    exists (kk : key) salt d, is_ct kk d /\ b = kf_ser {| kf_salt := salt; kf_data := d |}.
  Definition storable (k : key) (b : bytes) : Prop := is_ct k b \/ is_pack k b \/ is_keyfile b.

  (* a blob placed in a pack: fresh output of process_data, or a raw encrypted blob copied from
     an existing pack by the repacker *)
  Inductive blob_src (k : key) : bytes -> Prop :=
  | B_fresh zstd n data c len ul : length n = nonce_len ->
      encode_blob key enc zenc zstd k n data = Ok (c, len, ul) -> blob_src k c
  | B_copied c : is_ct k c -> blob_src k c.

  (* what each class of call site hands to write_bytes, as in the code *)
  Inductive written (k : key) : site_class -> bytes -> Prop :=
  | W_encfile zstd n data : length n = nonce_len ->
      written k SEncFile (encrypt_file key enc zenc zstd k n data)
  | W_encraw n data : length n = nonce_len ->
      written k SEncRaw (encrypt_data k n data)
  | W_pack blobs hn hdr : Forall (blob_src k) blobs -> length hn = nonce_len ->
      written k SPack (assemble_pack blobs (encrypt_data k hn hdr))
  | W_key master p s n : length n = nonce_len ->
      written k SKeyFile (kf_ser (kf_generate key enc password kdf mk_ser master p s n))
  | W_plain_key master p s n : length n = nonce_len ->   (* save_file::<KeyFile>, F::ENCRYPTED = false *)
      written k SPlainRepoFile (kf_ser (kf_generate key enc password kdf mk_ser master p s n))
  | W_pass c b : written k c b -> written k SPassThrough b
  | W_copy c b : written k c b -> written k SCopyStored b
  | W_deleg c b : written k c b -> written k SDelegate b.

  Lemma is_ct_encrypt k n m : length n = nonce_len -> is_ct k (encrypt_data k n m).
  Proof. intro Hn. exists n, m. split; [exact Hn|reflexivity]. Qed.

  Lemma blob_src_ct k c : blob_src k c -> is_ct k c.
  Proof.
    intros [zstd n data c' len ul Hn E|c' H]; [|assumption].
    apply encode_blob_ok_inv in E as (-> & _). apply is_ct_encrypt, Hn.
  Qed.

  Lemma written_storable k c b : written k c b -> storable k b.
  Proof.
    induction 1; try assumption.
    - left. apply is_ct_encrypt. assumption.
    - left. apply is_ct_encrypt. assumption.
    - right; left. exists blobs, (encrypt_data k hn hdr). split; [|split; [|reflexivity]].
      + eapply Forall_impl; [|eassumption]. apply blob_src_ct.
      + apply is_ct_encrypt. assumption.
    - right; right. eexists _, _, _. split; [|reflexivity]. apply is_ct_encrypt. assumption.
    - right; right. eexists _, _, _. split; [|reflexivity]. apply is_ct_encrypt. assumption.
  Qed.

  (* the length trailer is 4 bytes; by is_pack everything before it is ciphertext *)
  Lemma pack_layout (blobs : list bytes) (hdr : bytes) :
    length (assemble_pack blobs hdr) = (length (concat blobs) + length hdr + 4)%nat.
  Proof. unfold assemble_pack, le32. rewrite !app_length. cbn [length]. lia. Qed.
End Sites.
