(* C04 — property theorems; the Example after a main one shows its hypotheses satisfiable in the
   Toy.v instance, which also supplies the witnesses of the two existential refutations.
   Every other theorem about the model quantifies over ALL primitives (key type, AEAD enc/dec, the
   set `issued` of encryptions made by the key holder, zstd codec, KDF, hash, JSON codec of the
   master key) that satisfy the stated idealisations (ideal_aead and zstd_ok of Proofs.v, and what single
   theorems add).  Cryptographic strength, nonce randomness, scrypt and SHA-256 themselves are
   outside. *)
From Verif.Base Require Import Tactics Lists.
From Verif.C04 Require Import Model Extracted Proofs Proofs2 Proofs3 Toy.
Local Open Scope N_scope.

(* constants regenerated from the source agree with the model *)
Theorem framing_constants_match_source :
  x_nonce_len = nonce_len /\ x_overhead = overhead /\ x_marker_zstd = m_zstd
  /\ x_marker_brace = m_brace /\ x_marker_bracket = m_bracket
  /\ (nonce_len + tag_len = overhead)%nat.
Proof. repeat split; reflexivity. Qed.
Print Assumptions framing_constants_match_source.

(* Repository files: decrypt_file (encrypt_file data) = data for all plaintexts, keys, nonces and
   compression settings (uncompressed files must start with '{' or '[', which every serialised
   repository file does); the stored length is payload + 32. *)
Theorem file_roundtrip :
  forall (key : Type) enc dec issued zenc zdec,
    @ideal_aead key enc dec issued -> zstd_ok zenc zdec ->
  forall zstd k n data,
    length n = nonce_len -> issued k n (file_payload zenc zstd data) ->
    (zstd = None -> json_start data = true) ->
    decrypt_file key dec zdec k (encrypt_file key enc zenc zstd k n data) = Ok data
    /\ length (encrypt_file key enc zenc zstd k n data)
       = (length (file_payload zenc zstd data) + overhead)%nat.
Proof.
  intros. split; [eapply decrypt_encrypt_file|eapply encrypt_data_length]; eassumption.
Qed.
Print Assumptions file_roundtrip.

Example file_roundtrip_ex :
  ideal_aead toy_enc (toy_dec ex_log) (toy_issued ex_log) /\ zstd_ok (toy_zenc []) (toy_zdec [])
  /\ toy_issued ex_log 7 ex_n1 (file_payload (toy_zenc []) (Some 3%Z) ex_d1)
  /\ decrypt_file tkey (toy_dec ex_log) (toy_zdec []) 7
       (encrypt_file tkey toy_enc (toy_zenc []) (Some 3%Z) 7 ex_n1 ex_d1) = Ok ex_d1.
Proof.
  split; [apply toy_ideal, ex_log_fresh|]. split; [apply toy_zstd_ok|].
  split; [left; reflexivity|vm_compute; reflexivity].
Qed.

(* Blobs: decode (encode data) = data for every non-empty blob below 4 GiB (every blob when
   compression is off); recorded lengths are right. *)
Theorem blob_roundtrip :
  forall (key : Type) enc dec issued zenc zdec,
    @ideal_aead key enc dec issued -> zstd_ok zenc zdec ->
  forall zstd k n data c len ul,
    length n = nonce_len ->
    encode_blob key enc zenc zstd k n data = Ok (c, len, ul) ->
    issued k n (blob_payload zenc zstd data) ->
    (zstd = None \/ data <> []) ->
    decode_blob key dec zdec k c ul = Ok data /\ len = N.of_nat (length data)
    /\ length c = (length (blob_payload zenc zstd data) + overhead)%nat
    /\ (ul = match zstd with Some _ => Some len | None => None end).
Proof.
  intros key enc dec issued zenc zdec IA ZOK zstd k n data c len ul Hn He Hi Hne.
  apply encode_blob_ok_inv in He as (-> & -> & ->). rewrite (blob_ulen_nonempty _ _ Hne).
  rewrite (decode_blob_encrypt_data enc dec issued zdec IA) by assumption.
  repeat split; [|eapply encrypt_data_length; eassumption].
  destruct zstd; cbn [blob_payload]; [rewrite ZOK, N.eqb_refl|]; reflexivity.
Qed.
Print Assumptions blob_roundtrip.

Example blob_roundtrip_ex :
  let log := [(7, ex_n1, blob_payload (toy_zenc []) (Some 3%Z) [5; 6])] in
  log_fresh log /\ toy_issued log 7 ex_n1 (blob_payload (toy_zenc []) (Some 3%Z) [5; 6])
  /\ exists c, encode_blob tkey toy_enc (toy_zenc []) (Some 3%Z) 7 ex_n1 [5; 6] = Ok (c, 2, Some 2)
               /\ decode_blob tkey (toy_dec log) (toy_zdec []) 7 c (Some 2) = Ok [5; 6].
Proof.
  cbv zeta. split.
  - intros k n m m' [H1|[]] [H2|[]]. congruence.
  - split; [left; reflexivity|]. eexists. split; vm_compute; reflexivity.
Qed.

(* The NonZeroU32::new(0) corner: a compressed empty blob is recorded as uncompressed and reads
   back as its zstd frame.  Unreachable from the archiver (no empty chunks, no empty trees). *)
Theorem blob_empty_compressed_corner :
  forall (key : Type) enc dec issued zenc zdec,
    @ideal_aead key enc dec issued ->
  forall l k n, length n = nonce_len -> issued k n (zenc l []) ->
    exists c, encode_blob key enc zenc (Some l) k n [] = Ok (c, 0, None)
              /\ decode_blob key dec zdec k c None = Ok (zenc l []).
Proof.
  intros key enc dec issued zenc zdec IA l k n Hn Hi. eexists. split; [reflexivity|].
  cbn [blob_payload]. rewrite (decode_blob_encrypt_data enc dec issued zdec IA) by assumption. reflexivity.
Qed.
Print Assumptions blob_empty_compressed_corner.

(* Tampering.  `encrypt_data k n m` is a stored ciphertext and t any other byte string.
   (1) If t decrypts at all, t is — byte for byte — ANOTHER issued ciphertext with a different
       nonce (whole-message substitution, see substitution_refuted).
   (2) Every truncation, every extension and every modification that leaves the nonce field
       intact is rejected by Key::decrypt_data, by decrypt_file and by the blob decoder. *)
Theorem framing_tamper_rejected :
  forall (key : Type) enc dec issued zdec,
    @ideal_aead key enc dec issued ->
  forall k n m t,
    length n = nonce_len -> issued k n m -> t <> encrypt_data key enc k n m ->
    (forall m', decrypt_data key dec k t = Ok m' ->
       exists n', n' <> n /\ length n' = nonce_len /\ issued k n' m' /\ t = encrypt_data key enc k n' m')
    /\ ((exists j, (j < length (encrypt_data key enc k n m))%nat /\ t = firstn j (encrypt_data key enc k n m))
        \/ (exists x, t = encrypt_data key enc k n m ++ x)
        \/ firstn nonce_len t = firstn nonce_len (encrypt_data key enc k n m) ->
        is_err (decrypt_data key dec k t) /\ is_err (decrypt_file key dec zdec k t)
        /\ forall ul, is_err (decode_blob key dec zdec k t ul)).
Proof.
  intros key enc dec issued zdec IA k n m t Hn Hi Hne. split.
  - intros m' H. eapply tampered_ok_inv; eassumption.
  - intro H. assert (E : is_err (decrypt_data key dec k t)) by (eapply tampered_rejected; eassumption).
    split; [exact E|]. apply decoders_fail, E.
Qed.
Print Assumptions framing_tamper_rejected.

(* a change inside the nonce field with body and tag untouched: rejected when issued ciphertexts
   with different nonces differ beyond the nonce field (the tag depends on the nonce) *)
Theorem nonce_field_modification_rejected :
  forall (key : Type) enc dec issued,
    @ideal_aead key enc dec issued ->
    (forall k n n' m m', issued k n m -> issued k n' m' -> ct enc k n m = ct enc k n' m' -> n = n') ->
  forall k n m t,
    length n = nonce_len -> issued k n m -> t <> encrypt_data key enc k n m ->
    skipn nonce_len t = skipn nonce_len (encrypt_data key enc k n m) ->
    is_err (decrypt_data key dec k t).
Proof.
  intros key enc dec issued IA Hinj k n m t Hn Hi Hne Hs. apply is_err_not_ok. intros m' H.
  destruct (tampered_ok_inv enc dec issued IA _ _ _ _ Hi Hne _ H) as (n' & Hd & Hn' & Hi' & ->).
  rewrite !encrypt_data_eq, !skipn_app_exact in Hs by assumption.
  apply Hd. symmetry. eapply Hinj; eauto.
Qed.
Print Assumptions nonce_field_modification_rejected.

Theorem short_input_rejected :
  forall (key : Type) enc dec issued, @ideal_aead key enc dec issued ->
  forall k t, (length t < overhead)%nat -> is_err (decrypt_data key dec k t).
Proof. intros. eapply decrypt_short; eassumption. Qed.
Print Assumptions short_input_rejected.

Example framing_tamper_ex :
  toy_issued ex_log 7 ex_n3 ex_d1
  /\ decrypt_data tkey (toy_dec ex_log) 7 (encrypt_data tkey toy_enc 7 ex_n3 ex_d1) = Ok ex_d1
  /\ decrypt_data tkey (toy_dec ex_log) 7 (firstn 20 (encrypt_data tkey toy_enc 7 ex_n3 ex_d1)) = Err EMac
  /\ decrypt_data tkey (toy_dec ex_log) 7 (firstn 10 (encrypt_data tkey toy_enc 7 ex_n3 ex_d1)) = Err ETooShort
  /\ decrypt_data tkey (toy_dec ex_log) 7 (encrypt_data tkey toy_enc 7 ex_n3 ex_d1 ++ [0]) = Err EMac.
Proof. split; [right; right; left; reflexivity|]. repeat split; vm_compute; reflexivity. Qed.

(* Key management.  For EVERY history of add_key / delete_key (with any handle): a password
   opens the repository iff one of the CURRENT key files was made with it, and then yields the
   master key; the master key itself always opens; any other key fails with a MAC error. *)
Theorem open_iff_some_password :
  forall (key password : Type) enc dec issued zdec
         (kdf : password -> bytes -> key) mk_ser mk_de,
    @ideal_aead key enc dec issued ->
    (forall k k' n m m', issued k n m -> issued k' n m' -> ct enc k n m = ct enc k' n m' -> k = k') ->
    (forall p p' s, kdf p s = kdf p' s -> p = p') ->
    (forall k, mk_de (mk_ser k) = Some k) ->
  forall master cfg_nonce cfg ops pass,
    length cfg_nonce = nonce_len -> issued master cfg_nonce cfg -> json_start cfg = true ->
    Forall (op_issued issued kdf mk_ser master) ops ->
    let st := krun key enc password kdf mk_ser master
                   {| ks_files := []; ks_config := encrypt_data key enc master cfg_nonce cfg |} ops in
    let current := map snd (fold_left (pstep password) ops []) in
    (In pass current -> open_repo key dec zdec password kdf mk_de st (CPassword key password pass) = Ok (master, cfg))
    /\ (~ In pass current -> open_repo key dec zdec password kdf mk_de st (CPassword key password pass) = Err ECred)
    /\ open_repo key dec zdec password kdf mk_de st (CMaster key password master) = Ok (master, cfg)
    /\ (forall k', k' <> master -> open_repo key dec zdec password kdf mk_de st (CMaster key password k') = Err EMac).
Proof.
  intros key password enc dec issued zdec kdf mk_ser mk_de IA KSEP KDF MK
         master cfg_nonce cfg ops pass Hn Hi Hj Ho st current.
  eapply open_repo_spec; try eassumption.
  apply krun_inv; [assumption|]. split; [reflexivity|constructor].
Qed.
Print Assumptions open_iff_some_password.

Example open_iff_some_password_ex :
  let ops := [KAdd tpass 1 5 [9] ex_n1; KAdd tpass 2 6 [8] ex_n2; KDel tpass 1 None] in
  let st := krun tkey toy_enc tpass toy_kdf toy_mk_ser 7
                 {| ks_files := []; ks_config := encrypt_data tkey toy_enc 7 ex_n3 ex_d1 |} ops in
  Forall (op_issued (toy_issued ex_log) toy_kdf toy_mk_ser 7) ops
  /\ map snd (fold_left (pstep tpass) ops []) = [6]
  /\ open_repo tkey (toy_dec ex_log) (toy_zdec []) tpass toy_kdf toy_mk_de st (CPassword tkey tpass 6) = Ok (7, ex_d1)
  /\ open_repo tkey (toy_dec ex_log) (toy_zdec []) tpass toy_kdf toy_mk_de st (CPassword tkey tpass 5) = Err ECred
  /\ open_repo tkey (toy_dec ex_log) (toy_zdec []) tpass toy_kdf toy_mk_de st (CMaster tkey tpass 8) = Err EMac.
Proof.
  cbv zeta. split.
  - constructor; [split; [reflexivity|right; right; right; left; reflexivity]|].
    constructor; [split; [reflexivity|do 4 right; left; reflexivity]|].
    constructor; [exact I|constructor].
  - repeat split; vm_compute; reflexivity.
Qed.

(* The ideal-KDF hypothesis of open_iff_some_password speaks about the password the user supplies.
   It is a statement about scrypt alone only if the code feeds scrypt exactly the password bytes
   (`passwd.as_ref()`), both when a key file is made and when it is opened, and hands the password
   on unchanged from Repository::open / add_key_to_repo — regenerated from keyfile.rs,
   repository.rs and commands/key.rs.  (A normalisation of the password before the KDF makes
   distinct passwords open the same key file.) *)
Theorem kdf_fed_with_password_bytes :
  x_kdf_input_open = KdfPasswordBytes /\ x_kdf_input_generate = KdfPasswordBytes
  /\ x_password_passed_unchanged = true.
Proof. repeat split; reflexivity. Qed.
Print Assumptions kdf_fed_with_password_bytes.

(* Every class of call site found in the source hands to the backend a ciphertext envelope, a
   pack made of ciphertext envelopes + encrypted header + 4-byte length, or a key file; the
   unencrypted branch of save_file is reachable for key files only. *)
Theorem every_write_is_ciphertext :
  forall (key password : Type) enc zenc (kdf : password -> bytes -> key) mk_ser kf_ser,
  forall k c b,
    In c write_sites ->
    written enc zenc kdf mk_ser kf_ser k c b -> storable (key := key) enc kf_ser k b.
Proof. intros. eapply written_storable; eassumption. Qed.
Print Assumptions every_write_is_ciphertext.

Theorem plain_branch_only_for_key_files : forall t, In t unencrypted_types -> t = FKey.
Proof. intros t [<-|[]]. reflexivity. Qed.
Print Assumptions plain_branch_only_for_key_files.

Theorem all_site_classes_present :
  forall c, In c [SEncFile; SEncRaw; SPack; SKeyFile; SPlainRepoFile; SPassThrough; SCopyStored; SDelegate] ->
            In c write_sites.
Proof.
  intros c H. cbn [In] in H.
  repeat (destruct H as [<-|H]; [repeat first [apply in_eq | apply in_cons]|]). contradiction.
Qed.
Print Assumptions all_site_classes_present.

(* Substitution.  The tree as first examined did not compare the id with the hash of the stored
   bytes (model function `read_encrypted_full`): after exchanging two files of one type, reading
   the first id returned the second file's content without error.  substitution_refuted /
   substitution_detected_refuted below say so, and remain true of that unchecked read, which is
   still what a DecryptBackend with verify_id off does.  The repair (commit `fix: verify the id of
   repository files when they are read`) makes Repository::open_raw switch the comparison on; the
   fact regenerated from the source (read_path_verifies_id) selects the checked read, of which
   substitution_detected holds. *)
Theorem substitution_refuted :
  forall (key : Type) enc dec issued zenc zdec (hash : bytes -> fid),
    @ideal_aead key enc dec issued -> zstd_ok zenc zdec ->
  forall zstd k n1 n2 d1 d2,
    length n1 = nonce_len -> length n2 = nonce_len ->
    issued k n1 (file_payload zenc zstd d1) -> issued k n2 (file_payload zenc zstd d2) ->
    (zstd = None -> json_start d1 = true /\ json_start d2 = true) ->
    let c1 := encrypt_file key enc zenc zstd k n1 d1 in
    let c2 := encrypt_file key enc zenc zstd k n2 d2 in
    hash c1 <> hash c2 ->
    let s := [(hash c2, c2); (hash c1, c1)] in
    let s' := swap_files s (hash c1) (hash c2) in
    read_encrypted_full key dec zdec k s (hash c1) = Ok d1
    /\ read_encrypted_full key dec zdec k s' (hash c1) = Ok d2
    /\ read_encrypted_full key dec zdec k s' (hash c2) = Ok d1.
Proof.
  intros key enc dec issued zenc zdec hash IA ZOK zstd k n1 n2 d1 d2 Hn1 Hn2 Hi1 Hi2 Hj c1 c2 Hh s s'.
  destruct (lookup_two _ _ c1 c2 Hh) as [L1 L2]. unfold s'.
  destruct (swap_undetected dec zdec k s _ _ _ _ Hh L1 L2) as [-> ->].
  unfold read_encrypted_full, s. rewrite L1. unfold c1, c2.
  rewrite !(decrypt_encrypt_file enc dec issued zenc zdec IA ZOK)
    by (try assumption; intro E; apply Hj, E).
  auto.
Qed.
Print Assumptions substitution_refuted.

Theorem substitution_detected_refuted :
  exists s' i1 d1 d2, d1 <> d2 /\
    read_encrypted_full tkey (toy_dec ex_log) (toy_zdec []) 7
      [(toy_hash (encrypt_file tkey toy_enc (toy_zenc []) (Some 3%Z) 7 ex_n2 ex_d2),
        encrypt_file tkey toy_enc (toy_zenc []) (Some 3%Z) 7 ex_n2 ex_d2);
       (i1, encrypt_file tkey toy_enc (toy_zenc []) (Some 3%Z) 7 ex_n1 ex_d1)] i1 = Ok d1
    /\ read_encrypted_full tkey (toy_dec ex_log) (toy_zdec []) 7 s' i1 = Ok d2.
Proof.
  pose proof (substitution_refuted tkey _ _ _ _ _ toy_hash (toy_ideal _ ex_log_fresh) toy_zstd_ok
                (Some 3%Z) 7 ex_n1 ex_n2 ex_d1 ex_d2 eq_refl eq_refl) as H. cbv zeta in H.
  destruct H as (R & R' & _);
    [left; reflexivity|right; left; reflexivity|discriminate|exact ex_ids_differ|].
  do 2 eexists. exists ex_d1, ex_d2. split; [discriminate|]. split; [exact R|exact R'].
Qed.
Print Assumptions substitution_detected_refuted.

(* With `hash(stored bytes) == id` verified by the read (the repair): whatever a read of the id
   of d0 returns is the decoding of d0 itself (given no second preimage of that id), and the
   exchange above is reported as an error. *)
Theorem id_check_detects_substitution :
  forall (key : Type) dec zdec (hash : bytes -> fid) k s' d0 x,
    (forall d, hash d = hash d0 -> d = d0) ->
    read_encrypted_full_checked key dec zdec hash k s' (hash d0) = Ok x ->
    decrypt_file key dec zdec k d0 = Ok x.
Proof.
  intros key dec zdec hash k s' d0 x Hc R.
  apply (read_repo_file_ok_inv dec zdec hash true false) in R as (d & _ & E & R).
  rewrite <- (Hc d (E eq_refl)). exact R.
Qed.
Print Assumptions id_check_detects_substitution.

Theorem id_check_rejects_swap :
  forall (key : Type) dec zdec (hash : bytes -> fid) k c1 c2,
    hash c1 <> hash c2 ->
    let s' := swap_files [(hash c2, c2); (hash c1, c1)] (hash c1) (hash c2) in
    read_encrypted_full_checked key dec zdec hash k s' (hash c1) = Err EIdMismatch
    /\ read_encrypted_full_checked key dec zdec hash k s' (hash c2) = Err EIdMismatch.
Proof.
  intros key dec zdec hash k c1 c2 Hh. destruct (lookup_two _ _ c1 c2 Hh) as [L1 L2].
  exact (swap_detected dec zdec hash k _ _ _ _ _ Hh L1 L2 eq_refl eq_refl).
Qed.
Print Assumptions id_check_rejects_swap.

Theorem read_path_verifies_id : x_read_verifies_id = true.
Proof. reflexivity. Qed.
Print Assumptions read_path_verifies_id.

(* For a file written by hash_write_full: whatever the backend holds afterwards — any
   modification, truncation, extension of the file, substitution by ANY other byte string
   including other genuine files — reading its id with the read of the repaired tree
   (verify_id on, not the config file) yields an error or exactly the data that was written. *)
Theorem substitution_detected :
  forall (key : Type) enc dec issued zenc zdec (hash : bytes -> fid),
    @ideal_aead key enc dec issued -> zstd_ok zenc zdec ->
  forall zstd k n data (s' : store) x,
    length n = nonce_len -> issued k n (file_payload zenc zstd data) ->
    (zstd = None -> json_start data = true) ->
    let c := encrypt_file key enc zenc zstd k n data in
    (forall d, hash d = hash c -> d = c) ->
    read_repo_file key dec zdec hash x_read_verifies_id false k s' (hash c) = Ok x -> x = data.
Proof.
  intros key enc dec issued zenc zdec hash IA ZOK zstd k n data s' x Hn Hi Hj c Hc R.
  apply (id_check_detects_substitution key dec zdec hash k s' c x Hc) in R.
  unfold c in R. rewrite (decrypt_encrypt_file enc dec issued zenc zdec IA ZOK) in R by assumption.
  congruence.
Qed.
Print Assumptions substitution_detected.

Example substitution_detected_ex :
  let c1 := encrypt_file tkey toy_enc (toy_zenc []) (Some 3%Z) 7 ex_n1 ex_d1 in
  let c2 := encrypt_file tkey toy_enc (toy_zenc []) (Some 3%Z) 7 ex_n2 ex_d2 in
  let s' := swap_files [(toy_hash c2, c2); (toy_hash c1, c1)] (toy_hash c1) (toy_hash c2) in
  read_repo_file tkey (toy_dec ex_log) (toy_zdec []) toy_hash x_read_verifies_id false 7
                 [(toy_hash c2, c2); (toy_hash c1, c1)] (toy_hash c1) = Ok ex_d1
  /\ read_repo_file tkey (toy_dec ex_log) (toy_zdec []) toy_hash x_read_verifies_id false 7 s' (toy_hash c1)
     = Err EIdMismatch.
Proof.
  intros c1 c2 s'. split.
  - unfold read_repo_file, read_encrypted_full_checked. cbn [x_read_verifies_id andb negb].
    rewrite (proj1 (lookup_two (toy_hash c1) (toy_hash c2) c1 c2 ex_ids_differ)), N.eqb_refl.
    vm_compute. reflexivity.
  - exact (proj1 (id_check_rejects_swap tkey _ _ toy_hash 7 c1 c2 ex_ids_differ)).
Qed.

(* Whatever bytes the key files hold (salt and data chosen by an attacker, bits flipped, truncated,
   copied from another repository with other passwords): if find_key_in_backend returns a key at
   all, it is the master key — provided password-derived keys were only ever used to encrypt the
   serialised master key (KeyFile::generate is their only user). *)
Theorem find_key_yields_only_master_key :
  forall (key password : Type) enc dec issued (kdf : password -> bytes -> key) mk_ser mk_de,
    @ideal_aead key enc dec issued -> (forall k, mk_de (mk_ser k) = Some k) ->
  forall master, (forall p s n m, issued (kdf p s) n m -> m = mk_ser master) ->
  forall kfs pass k i, find_key key dec password kdf mk_de kfs pass = Ok (k, i) -> k = master.
Proof. intros. eapply find_key_only_master; eassumption. Qed.
Print Assumptions find_key_yields_only_master_key.

Example find_key_yields_only_master_key_ex :
  forall p s n m, toy_issued ex_log (toy_kdf p s) n m -> m = toy_mk_ser 7.
Proof.
  intros p s n m H. unfold toy_issued, ex_log in H. cbn [In] in H. unfold toy_kdf in *.
  repeat (destruct H as [H|H]; [injection H as E1 E2 E3; try (exfalso; lia); subst; reflexivity|]).
  contradiction.
Qed.

(* a genuine key file whose data field was truncated, extended, or modified outside the nonce
   field does not open even with the right password *)
Theorem tampered_keyfile_never_opens :
  forall (key password : Type) enc dec issued (kdf : password -> bytes -> key) (mk_ser : key -> bytes) mk_de,
    @ideal_aead key enc dec issued ->
  forall master p s n t,
    length n = nonce_len -> issued (kdf p s) n (mk_ser master) ->
    t <> encrypt_data key enc (kdf p s) n (mk_ser master) ->
    ((exists j, (j < length (encrypt_data key enc (kdf p s) n (mk_ser master)))%nat
                /\ t = firstn j (encrypt_data key enc (kdf p s) n (mk_ser master)))
     \/ (exists x, t = encrypt_data key enc (kdf p s) n (mk_ser master) ++ x)
     \/ firstn nonce_len t = firstn nonce_len (encrypt_data key enc (kdf p s) n (mk_ser master))) ->
    forall k, key_from_password key dec password kdf mk_de {| kf_salt := s; kf_data := t |} p <> Ok k.
Proof. intros. eapply Proofs3.tampered_keyfile_never_opens; eassumption. Qed.
Print Assumptions tampered_keyfile_never_opens.

(* the config file is exempt from the id check (it is stored under a fixed name by most
   backends) but still authenticated: a successful read means the stored bytes are an issued
   ciphertext under the key used *)
Theorem config_read_unchecked_but_authentic :
  forall (key : Type) enc dec issued zdec (hash : bytes -> fid),
    @ideal_aead key enc dec issued ->
  forall v k s i x,
    read_repo_file key dec zdec hash v true k s i = Ok x ->
    exists d n m, lookup s i = Some d /\ length n = nonce_len /\ issued k n m
                  /\ d = encrypt_data key enc k n m /\ decode_file_plain zdec m = Ok x.
Proof.
  intros key enc dec issued zdec hash IA v k s i x R.
  apply read_repo_file_ok_inv in R as (d & L & _ & R). unfold decrypt_file in R.
  destruct (decrypt_data key dec k d) as [m|e] eqn:D; [|discriminate].
  destruct (decrypt_data_ok_inv enc dec issued IA _ _ _ D) as (n & Hn & Hi & E).
  exists d, n, m. auto.
Qed.
Print Assumptions config_read_unchecked_but_authentic.

(* why file_roundtrip needs `json_start` when compression is off *)
Theorem plain_mode_non_json_does_not_read_back :
  forall (key : Type) enc dec issued zenc zdec,
    @ideal_aead key enc dec issued ->
  forall k n b r,
    length n = nonce_len -> issued k n (b :: r) ->
    (b =? m_brace) || (b =? m_bracket) = false ->
    decrypt_file key dec zdec k (encrypt_file key enc zenc None k n (b :: r))
    = if b =? m_zstd then match zdec r with Some x => Ok x | None => Err EZstd end
      else Err EUnsupported.
Proof.
  intros key enc dec issued zenc zdec IA k n b r Hn Hi Hb.
  unfold encrypt_file. rewrite (decrypt_file_decodes_payload enc dec issued zdec IA) by assumption.
  cbn [file_payload decode_file_plain]. rewrite Hb. reflexivity.
Qed.
Print Assumptions plain_mode_non_json_does_not_read_back.

(* the freshness clause of ideal_aead follows, for the log of a run, from the (key, nonce) pairs
   drawn being pairwise distinct — the observable the correspondence checks *)
Theorem distinct_nonces_give_freshness :
  forall (key : Type) (log : list (key * bytes * bytes)),
    NoDup (map (fun e => (fst (fst e), snd (fst e))) log) ->
    forall k n m m', issued_of_log log k n m -> issued_of_log log k n m' -> m = m'.
Proof. intros key log. apply distinct_nonces_fresh. Qed.
Print Assumptions distinct_nonces_give_freshness.

(* regenerated from index.rs / decrypt.rs and the inventory of index consumers: every consumer
   streams ALL listed index files (stream_all::<IndexFile>), stream_all hands the complete listing
   to stream_list, stream_list reads every id with get_file *)
Theorem loader_reads_every_listed_file : x_loader_reads_every_listed_file = true.
Proof. reflexivity. Qed.
Print Assumptions loader_reads_every_listed_file.

(* For the loader found in the source: if ANY stored file of the type does not read by id
   (tampered in any way the by-id read detects), loading the type fails as a whole … *)
Theorem loader_detects_any_unreadable_file :
  forall (key : Type) dec zdec (hash : bytes -> fid) k (s : store) i d,
    lookup s i = Some d ->
    is_err (read_repo_file key dec zdec hash x_read_verifies_id false k s i) ->
    is_err (load_type key dec zdec hash x_loader_reads_every_listed_file x_read_verifies_id k s).
Proof.
  intros key dec zdec hash k s i d L E. unfold load_type.
  eapply load_all_fails; [|exact E]. eapply lookup_in_listing, L.
Qed.
Print Assumptions loader_detects_any_unreadable_file.

(* … in particular a file truncated to ZERO bytes (every length below 32 is refused by
   Key::decrypt_data, short_input_rejected) … *)
Theorem empty_file_fails_the_load :
  forall (key : Type) dec zdec (hash : bytes -> fid) k (s : store) i,
    lookup s i = Some [] ->
    is_err (load_type key dec zdec hash x_loader_reads_every_listed_file x_read_verifies_id k s).
Proof.
  intros. eapply loader_detects_any_unreadable_file; [eassumption|].
  eapply read_repo_file_fails; [eassumption|]. eexists; reflexivity.
Qed.
Print Assumptions empty_file_fails_the_load.

(* … and a successful load returns, file by file, what the by-id read returns for every listed id
   (with substitution_detected: the data that was written) *)
Theorem loader_sound :
  forall (key : Type) dec zdec (hash : bytes -> fid) k (s : store) xs,
    load_type key dec zdec hash x_loader_reads_every_listed_file x_read_verifies_id k s = Ok xs ->
    map fst xs = map fst (listing s)
    /\ forall i x, In (i, x) xs -> read_repo_file key dec zdec hash x_read_verifies_id false k s i = Ok x.
Proof. intros key dec zdec hash k s xs. unfold load_type. apply load_all_spec. Qed.
Print Assumptions loader_sound.

(* a loader that skips listed files of size 0 ("leftovers of interrupted uploads") does NOT have
   this property: the truncated file is silently left out *)
Theorem filtering_loader_misses_truncated_file_refuted :
  exists (s : store) i xs,
    lookup s i = Some []
    /\ load_type tkey (toy_dec ex_log) (toy_zdec []) toy_hash false true 7 s = Ok xs
    /\ ~ In i (map fst xs)
    /\ is_err (load_type tkey (toy_dec ex_log) (toy_zdec []) toy_hash true true 7 s).
Proof.
  set (c1 := encrypt_file tkey toy_enc (toy_zenc []) (Some 3%Z) 7 ex_n1 ex_d1).
  set (s := [(toy_hash c1, c1); (5, [])]). exists s, 5, [(toy_hash c1, ex_d1)].
  assert (L : lookup s 5 = Some []) by (vm_compute; reflexivity).
  split; [exact L|]. split; [|split].
  - (* in steps that leave the id toy_hash c1 unevaluated: the filtered listing is [toy_hash c1],
       the file stored under it is c1, and c1 decrypts *)
    change (load_all (read_repo_file tkey (toy_dec ex_log) (toy_zdec []) toy_hash true false 7 s)
                     [toy_hash c1] = Ok [(toy_hash c1, ex_d1)]).
    cbn [load_all]. unfold read_repo_file, read_encrypted_full_checked, s. cbn [andb negb lookup].
    rewrite !N.eqb_refl. replace (decrypt_file _ _ _ _ c1) with (Ok ex_d1) by (vm_compute; reflexivity).
    reflexivity.
  - intros [H|[]]. apply N.eqb_eq in H. vm_compute in H. discriminate.
  - eapply empty_file_fails_the_load, L.
Qed.
Print Assumptions filtering_loader_misses_truncated_file_refuted.
