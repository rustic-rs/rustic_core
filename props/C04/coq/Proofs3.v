(* C04 — tampered / forged key files, the log of a run as the set of issued encryptions, the
   loaders that read every listed file, and what a result of the by-id read says about the
   stored file, whichever of the read paths was taken. *)
From Verif.Base Require Import Tactics.
From Verif.C04 Require Import Model Proofs.
Local Open Scope N_scope.

Section KeyFiles.
  Context {key password : Type}.
  Variable enc : key -> bytes -> bytes -> bytes * bytes.
  Variable dec : key -> bytes -> bytes -> option bytes.
  Variable issued : key -> bytes -> bytes -> Prop.
  Variable kdf : password -> bytes -> key.
  Variable mk_ser : key -> bytes.
  Variable mk_de : bytes -> option key.
  Hypothesis IA : ideal_aead enc dec issued.
  Variable master : key.

  Notation key_from_password := (key_from_password key dec password kdf mk_de).
  Notation find_key := (find_key key dec password kdf mk_de).

  (* a key file whose data field is any modification of a genuine one that keeps the nonce field
     (or any truncation / extension) is skipped or aborts the search: it never opens *)
  Lemma tampered_keyfile_never_opens p s n t :
    length n = nonce_len -> issued (kdf p s) n (mk_ser master) ->
    t <> encrypt_data key enc (kdf p s) n (mk_ser master) ->
    ((exists j, (j < length (encrypt_data key enc (kdf p s) n (mk_ser master)))%nat
                /\ t = firstn j (encrypt_data key enc (kdf p s) n (mk_ser master)))
     \/ (exists x, t = encrypt_data key enc (kdf p s) n (mk_ser master) ++ x)
     \/ firstn nonce_len t = firstn nonce_len (encrypt_data key enc (kdf p s) n (mk_ser master))) ->
    forall k, key_from_password {| kf_salt := s; kf_data := t |} p <> Ok k.
  Proof.
    intros Hn Hi Hne Hcls k R. unfold Model.key_from_password in R. cbn [kf_salt kf_data] in R.
    destruct (tampered_rejected enc dec issued IA _ _ _ _ Hn Hi Hne Hcls) as [e E].
    rewrite E in R. discriminate.
  Qed.

  (* The only messages ever encrypted under password-derived keys are serialised copies of the
     master key (KeyFile::generate is the only user of kdf keys). *)
  Hypothesis ONLY_MASTER : forall p s n m, issued (kdf p s) n m -> m = mk_ser master.
  Hypothesis MK : forall k, mk_de (mk_ser k) = Some k.

  Lemma key_from_password_only_master kf pass k : key_from_password kf pass = Ok k -> k = master.
  Proof.
    unfold Model.key_from_password.
    destruct (decrypt_data key dec (kdf pass (kf_salt kf)) (kf_data kf)) as [d|e] eqn:D; [|discriminate].
    destruct (decrypt_data_ok_inv enc dec issued IA _ _ _ D) as (n & _ & Hi & _).
    rewrite (ONLY_MASTER _ _ _ _ Hi), MK. intro H. injection H as <-. reflexivity.
  Qed.

  Lemma find_key_only_master kfs pass k i : find_key kfs pass = Ok (k, i) -> k = master.
  Proof.
    induction kfs as [|[j kf] r IH]; cbn [Model.find_key]; [discriminate|].
    destruct (key_from_password kf pass) as [k'|e] eqn:R.
    - intro H. injection H as <- _. eapply key_from_password_only_master. eassumption.
    - destruct e; try discriminate. exact IH.
  Qed.
End KeyFiles.

(* the log of a run read as the set of issued encryptions; distinct_nonces_fresh gives the
   freshness clause of ideal_aead for it *)
Section Fresh.
  Context {key : Type}.
  Definition issued_of_log (log : list (key * bytes * bytes)) (k : key) (n m : bytes) : Prop :=
    In (k, n, m) log.
End Fresh.

Lemma load_all_spec (read : fid -> res bytes) ids xs :
  load_all read ids = Ok xs -> map fst xs = ids /\ forall i x, In (i, x) xs -> read i = Ok x.
Proof.
  revert xs. induction ids as [|i r IH]; cbn [load_all]; intros xs H.
  - injection H as <-. split; [reflexivity|intros ? ? []].
  - destruct (read i) as [x|e] eqn:R; [|discriminate].
    destruct (load_all read r) as [ys|e] eqn:L; [|discriminate].
    injection H as <-. destruct (IH _ eq_refl) as [M F]. split; [cbn; congruence|].
    intros j y [E|Hin]; [injection E as <- <-; assumption|apply F; assumption].
Qed.

Lemma load_all_fails (read : fid -> res bytes) ids i :
  In i ids -> is_err (read i) -> is_err (load_all read ids).
Proof.
  intros Hin [e E]. apply is_err_not_ok. intros xs H.
  apply load_all_spec in H as [<- F]. apply in_map_iff in Hin as ([j x] & <- & Hin).
  cbn [fst] in E. rewrite (F _ _ Hin) in E. discriminate.
Qed.

Lemma lookup_in_listing (s : store) i d : lookup s i = Some d -> In i (map fst (listing s)).
Proof.
  induction s as [|[j b] r IH]; cbn [lookup listing map fst]; [discriminate|].
  destruct (j =? i) eqn:E; [apply N.eqb_eq in E; left; assumption|right; apply IH; assumption].
Qed.

Lemma config_read_is_unchecked {key} dec zdec hash v k (s : store) i :
  read_repo_file key dec zdec hash v true k s i = read_encrypted_full key dec zdec k s i.
Proof. unfold read_repo_file. rewrite andb_false_r. reflexivity. Qed.

(* The three read paths at once: read_encrypted_full is read_repo_file with v = false,
   read_encrypted_full_checked with v = true, c = false, both by computation. *)
Lemma read_repo_file_ok_inv {key} dec zdec hash v c k (s : store) i x :
  read_repo_file key dec zdec hash v c k s i = Ok x ->
  exists d, lookup s i = Some d /\ (v && negb c = true -> hash d = i) /\ decrypt_file key dec zdec k d = Ok x.
Proof.
  unfold read_repo_file, read_encrypted_full_checked, Model.read_encrypted_full.
  destruct (lookup s i) as [d|], (v && negb c); try discriminate.
  - destruct (hash d =? i) eqn:E; [|discriminate]. apply N.eqb_eq in E. now exists d.
  - now exists d.
Qed.

Lemma read_repo_file_fails {key} dec zdec hash v c k (s : store) i d :
  lookup s i = Some d -> is_err (decrypt_file key dec zdec k d) ->
  is_err (read_repo_file key dec zdec hash v c k s i).
Proof.
  intros L [e E]. apply is_err_not_ok. intros x R.
  apply read_repo_file_ok_inv in R as (d' & L' & _ & R). congruence.
Qed.
