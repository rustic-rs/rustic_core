(* C17 — what the property theorems need beyond the lookups: the bound on the totals, release
   against checked build, both sections of the index files, the reading by blob type. *)
From Verif.Base Require Import Tactics.
From Verif.C17 Require Import Base17 Extracted Model Spec ProofsSearch ProofsCollect Proofs.
Local Open Scope N_scope.

Lemma sum_sizes_by_bound : forall sz B qs, (forall p, In p qs -> sz p <= B) ->
  sum_sizes_by sz qs <= N.of_nat (length qs) * B.
Proof.
  intros sz B. induction qs as [|q qs IH]; intro H; cbn [sum_sizes_by fold_right length]; [reflexivity|].
  fold (sum_sizes_by sz qs). specialize (IH (fun p Hp => H p (or_intror Hp))).
  specialize (H q (or_introl eq_refl)). lia.
Qed.

Lemma sum_sizes_by_ext : forall f g qs, (forall p, In p qs -> f p = g p) ->
  sum_sizes_by f qs = sum_sizes_by g qs.
Proof.
  intros f g. induction qs as [|q qs IH]; intro H; cbn [sum_sizes_by fold_right]; [reflexivity|].
  fold (sum_sizes_by f qs) (sum_sizes_by g qs).
  rewrite (H q) by (left; reflexivity). rewrite IH by (intros p Hp; apply H; right; exact Hp). reflexivity.
Qed.

(* at most 2^32 packs per type, each of a size below 2^32: the total stays far below 2^64 *)
Lemma total_in_bound : forall src t, no_overflow_in src = true -> sizes_are_u32 src = true ->
  total_in src t <= U32 * (U32 - 1).
Proof.
  intros src t Hn Hu. unfold no_overflow_in, count_fits in Hn. rewrite !andb_true_iff in Hn.
  destruct Hn as ((Hf & HT) & HD). unfold total_in, sum_sizes.
  etransitivity; [apply sum_sizes_by_bound with (B := U32 - 1)|apply N.mul_le_mono_r; destruct t; lia].
  intros p Hp. apply filter_In in Hp. destruct Hp as (Hp & _).
  unfold sizes_are_u32 in Hu. rewrite forallb_forall in Hf, Hu. specialize (Hf p Hp). specialize (Hu p Hp).
  unfold size_fits, size_spec in *. destruct (psize p); lia.
Qed.

Lemma index_for_ext : forall (sz sz' : ipack -> N) sort_e sort_i m src, (forall p, In p src -> sz p = sz' p) ->
  index_for sz sort_e sort_i m src = index_for sz' sort_e sort_i m src.
Proof.
  intros sz sz' se si m src Hs. apply btmap_ext. intro t. rewrite !index_for_slot. f_equal.
  apply sum_sizes_by_ext. intros p Hp. apply filter_In in Hp. apply Hs, Hp.
Qed.

Definition marked (files : list ifile) : list ipack := flat_map packs_to_delete files.

Lemma listed_in_app : forall a b t id, listed_in (a ++ b) t id = listed_in a t id || listed_in b t id.
Proof.
  intros. unfold listed_in, packs_of_type. rewrite filter_app, existsb_app. reflexivity.
Qed.

Lemma existsb_filter : forall A (f g : A -> bool) l,
  existsb f (filter g l) = existsb (fun x => g x && f x) l.
Proof.
  induction l as [|a l IH]; cbn [filter existsb]; [reflexivity|].
  destruct (g a); cbn [existsb andb]; rewrite IH; reflexivity.
Qed.

Lemma listed_homogeneous : forall files t id, all_homogeneous files = true ->
  listed files t id = listed_by_blob_type files t id.
Proof.
  intros files t id H. unfold listed, listed_in, listed_by_blob_type, packs_of_type, all_homogeneous in *.
  rewrite existsb_filter. apply existsb_ext_local. intros p Hp.
  rewrite forallb_forall in H. specialize (H p Hp). unfold homogeneous in H. rewrite forallb_forall in H.
  unfold lists_id. destruct (bt_eqb (pack_type p) t) eqn:Et; cbn [andb].
  - apply bt_eqb_eq in Et. subst t. apply existsb_ext_local. intros b Hb. rewrite (H b Hb). reflexivity.
  - symmetry. apply Bool.not_true_iff_false. intro Hc. apply existsb_exists in Hc.
    destruct Hc as (b & Hb & Hc). apply andb_prop in Hc. destruct Hc as (Hc & _).
    specialize (H b Hb). apply bt_eqb_eq in H, Hc. rewrite H in Hc. subst t.
    rewrite bt_eqb_refl in Et. discriminate.
Qed.
