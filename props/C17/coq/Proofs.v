(* C17 — main lemmas.  `index_for` is the index of a list of source packs, as a function of them;
   every build and loader of the model computes it or panics (`index_of_gen_eq`), and it answers,
   with ANY correct sort, exactly what the declarative specification says of those packs. *)
From Verif.Base Require Import Tactics.
From Verif.C17 Require Import Base17 Extracted Model Spec ProofsSearch ProofsCollect.
Local Open Scope N_scope.

(* a correct (possibly unstable) sort by a key *)
Definition sort_ok {A} (key : A -> N) (s : list A -> list A) : Prop :=
  forall l, Permutation l (s l) /\ Sorted (fun a b => key a <= key b) (s l).

Lemma leb_sort_ok : forall A (key : A -> N) (leb : A -> A -> bool) (s : list A -> list A),
  (forall a b, leb a b = true -> key a <= key b) ->
  (forall l, Permutation l (s l)) -> (forall l, Sorted (fun a b => is_true (leb a b)) (s l)) ->
  sort_ok key s.
Proof.
  intros A key leb s Hk Hp Hs l. split; [apply Hp|].
  induction (Hs l) as [|a l' _ IH Hh]; constructor; [assumption|]. destruct Hh; constructor; auto.
Qed.

Lemma sort_ok_strongly : forall A (key : A -> N) s l, sort_ok key s ->
  StronglySorted (fun a b => key a <= key b) (s l).
Proof. intros A key s l H. apply Sorted_StronglySorted; [intros x y z; lia|apply H]. Qed.

Lemma sorted_keys_mono : forall A (key : A -> N) l,
  StronglySorted (fun a b => key a <= key b) l -> mono (map key l).
Proof.
  induction 1 as [|a l Hs IH Hf]; intros i j Hij Hj; cbn [map length nth] in *; [lia|].
  destruct i, j; try lia; [|apply IH; lia].
  rewrite Forall_forall in Hf. rewrite map_length in Hj.
  rewrite nth_indep with (d' := key a) by (rewrite map_length; lia).
  rewrite map_nth. apply Hf, nth_In. lia.
Qed.

Lemma search_sorted {A} {key : A -> N} {s} : sort_ok key s ->
  forall l t, is_some (bsearch (map key (s l)) t) = true <-> In t (map key l).
Proof.
  intros Hs l t.
  rewrite bsearch_is_some_iff by (apply sorted_keys_mono, sort_ok_strongly, Hs).
  split; apply Permutation_in; [symmetry|]; apply Permutation_map, Hs.
Qed.

Lemma search_ids {s} : sort_ok (fun x => x) s ->
  forall l t, is_some (bsearch (s l) t) = true <-> In t l.
Proof. intros Hs l t. rewrite <- (map_id (s l)), (search_sorted Hs), map_id. reflexivity. Qed.

Definition sorted_entries_with (sort_e : list sentry -> list sentry) (sort_i : list N -> list N)
           (e : entries) : entries :=
  match e with ENone => ENone | EIds l => EIds (sort_i l) | EFull l => EFull (sort_e l) end.
(* whether mode m keeps the ids of type t *)
Definition retains (m : imode) (t : blob_type) : bool :=
  match m, t with OnlyTrees, Data => false | _, _ => true end.

Definition index_for (sz : ipack -> N) sort_e sort_i (m : imode) (src : list ipack) : index :=
  into_index_with sort_e sort_i (collected sz m src).

Lemma index_for_slot : forall sz sort_e sort_i m src t,
  bget (index_for sz sort_e sort_i m src) t =
  {| i_packs := map pid (packs_of_type t src);
     i_entries := sorted_entries_with sort_e sort_i (mode_entries m t (packs_of_type t src));
     i_total := sum_sizes_by sz (packs_of_type t src) |}.
Proof.
  intros. unfold index_for, into_index_with. rewrite bget_bmap.
  destruct t; cbn [bget collected m_tree m_data slot c_packs c_entries c_total]; rewrite map_map; reflexivity.
Qed.

Lemma index_of_gen_eq {psz : ipack -> option N} {sz : ipack -> N} {fits : ipack -> bool} :
  (forall p, psz p = if fits p then Some (sz p) else None) ->
  forall ld sort_e sort_i m files,
  index_of_gen psz ld sort_e sort_i m files =
  if build_ok fits (flat_map ld files) then Some (index_for sz sort_e sort_i m (flat_map ld files))
  else None.
Proof.
  intros psz_char ld se si m files. unfold index_of_gen, collect_gen.
  rewrite collect_is_extend, (extend_new psz_char).
  destruct (build_ok _ _); reflexivity.
Qed.

Section Lookups.
  Context {sz : ipack -> N} {sort_e : list sentry -> list sentry} {sort_i : list N -> list N}.
  Context {m : imode} {src : list ipack} {ix : index}.
  Hypothesis sort_e_ok : sort_ok e_id sort_e.
  Hypothesis sort_i_ok : sort_ok (fun x => x) sort_i.
  Hypothesis Hix : ix = index_for sz sort_e sort_i m src.

  Lemma has_char : forall t id, has ix t id = retains m t && listed_in src t id.
  Proof.
    intros t id. unfold has, listed_in. rewrite Hix, index_for_slot. cbn [i_entries].
    apply Bool.eq_iff_eq_true.
    destruct t, m; cbn [mode_entries sorted_entries_with retains andb];
      rewrite ?(search_sorted sort_e_ok), ?(search_ids sort_i_ok), ?in_entries_ids;
      reflexivity.
  Qed.

  (* On a slot with full entries: when the search succeeds, the entry it lands on stems from a
     blob with that id in a source pack of that type, and its pack index is that pack's position
     in the slot's pack list, so neither vec[index] nor packs[pack_idx] is out of bounds. *)
  Lemma get_id_full : forall t id,
    mode_entries m t (packs_of_type t src) = EFull (entries_of 0 (packs_of_type t src)) ->
    is_some (get_id ix t id) = has ix t id /\
    forall t' pk lc, get_id ix t id = Some (t', pk, lc) -> t' = t /\ In (pk, lc) (listings_in src t id).
  Proof.
    intros t id HE. unfold get_id, has, listings_in. rewrite Hix, index_for_slot, HE.
    cbn [i_packs i_entries sorted_entries_with].
    set (qs := packs_of_type t src). set (L := sort_e (entries_of 0 qs)).
    destruct (bsearch (map e_id L) id) as [i|] eqn:Eb; [|split; [reflexivity|discriminate]].
    apply bsearch_sound in Eb. rewrite nth_error_map in Eb.
    destruct (nth_error L i) as [e|] eqn:En; [injection Eb as Hid|discriminate].
    assert (Hin : In e (entries_of 0 qs))
      by (eapply Permutation_in; [symmetry; apply sort_e_ok|eapply nth_error_In; exact En]).
    apply in_entries_of in Hin. destruct Hin as (j & p & b & Hj & Hb & ->).
    cbn [mk_entry e_pack e_loc e_id Nat.add] in *. rewrite nth_error_map, Hj. cbn [option_map].
    split; [reflexivity|]. intros t' pk lc G. inv G. split; [reflexivity|].
    apply in_flat_map. exists p. split; [eapply nth_error_In; exact Hj|].
    apply in_map_iff. exists b. split; [reflexivity|]. apply filter_In. split; [assumption|lia].
  Qed.

  Lemma get_id_char : forall t id,
    is_some (get_id ix t id) =
      match m, t with Full, _ => has ix t id | _, Tree => has ix t id | _, Data => false end /\
    forall t' pk lc, get_id ix t id = Some (t', pk, lc) -> t' = t /\ In (pk, lc) (listings_in src t id).
  Proof.
    intros t id. pose proof (get_id_full t id) as F. destruct t, m; try exact (F eq_refl);
      unfold get_id; rewrite Hix, index_for_slot; (split; [reflexivity|intros ? ? ? [=]]).
  Qed.

  Lemma total_size_char : forall t, total_size ix t = sum_sizes_by sz (packs_of_type t src).
  Proof. intro t. unfold total_size. rewrite Hix, index_for_slot. reflexivity. Qed.
End Lookups.

Lemma if_Some : forall A (b : bool) (x y : A), (if b then Some x else None) = Some y -> b = true /\ y = x.
Proof. intros A [] x y [=]. auto. Qed.

Lemma if_Some_ex : forall A (b : bool) (x : A), (exists y, (if b then Some x else None) = Some y) <-> b = true.
Proof. intros A [] x; split; [reflexivity|eauto|intros (y & [=])|discriminate]. Qed.

Section Instances.
  Context {sort_e : list sentry -> list sentry} {sort_i : list N -> list N} {files : list ifile} {ix : index}.

  Lemma checked_build : forall m, index_of_with sort_e sort_i m files =
    if no_overflow files then Some (index_for size_spec sort_e sort_i m (unmarked files)) else None.
  Proof. intro m. unfold index_of_with. rewrite (index_of_gen_eq pack_size_char), loaded_is_unmarked. reflexivity. Qed.

  Lemma checked_index : forall m, index_of_with sort_e sort_i m files = Some ix ->
    ix = index_for size_spec sort_e sort_i m (unmarked files).
  Proof. intros m H. rewrite checked_build in H. apply if_Some in H. apply H. Qed.

  Lemma release_build : forall m, index_of_release_with sort_e sort_i m files =
    if counts_fit files then Some (index_for size_release sort_e sort_i m (unmarked files)) else None.
  Proof.
    intro m. unfold index_of_release_with.
    rewrite (index_of_gen_eq (fits := fun _ => true) pack_size_release_char), loaded_is_unmarked.
    unfold build_ok. replace (forallb _ _) with true; [reflexivity|]. symmetry. apply forallb_forall. reflexivity.
  Qed.

  Lemma prune_build : prune_index_of_with sort_e sort_i files =
    if no_overflow_in (all_packs files)
    then Some (index_for size_spec sort_e sort_i PRUNE_INDEX_TYPE (all_packs files)) else None.
  Proof. unfold prune_index_of_with. rewrite (index_of_gen_eq pack_size_char), prune_loaded_is_all. reflexivity. Qed.

  Lemma prune_index : prune_index_of_with sort_e sort_i files = Some ix ->
    ix = index_for size_spec sort_e sort_i PRUNE_INDEX_TYPE (all_packs files).
  Proof. intro H. rewrite prune_build in H. apply if_Some in H. apply H. Qed.
End Instances.
