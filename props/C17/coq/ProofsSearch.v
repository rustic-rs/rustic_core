(* C17 — the binary search: on keys sorted ascending it finds an equal key iff one exists. *)
From Verif.Base Require Import Tactics.
From Verif.C17 Require Import Base17 Extracted Model.
Local Open Scope N_scope.

Definition mono (ks : list N) : Prop :=
  forall i j, (i <= j)%nat -> (j < length ks)%nat -> nth i ks 0 <= nth j ks 0.

(* all the loop needs to know about the halving step (lia knows division through the zify hook
   of Base/Tactics.v) *)
Lemma half_bounds : forall size, (2 <= size -> 1 <= size / 2 <= size - size / 2)%nat.
Proof. intros size H. lia. Qed.

Lemma bs_loop_range : forall ks t fuel base size, (1 <= size)%nat ->
  (base <= bs_loop fuel ks t base size < base + size)%nat.
Proof.
  intros ks t. induction fuel as [|f IH]; intros base size H1; cbn [bs_loop]; [lia|].
  destruct (size <=? 1)%nat eqn:E; [lia|].
  (* half is made an opaque variable: lia would look through a `set` and redo the division at
     every call *)
  pose proof (half_bounds size ltac:(lia)) as Hh. remember (size / 2)%nat as half eqn:Eh; clear Eh.
  destruct (t <? nth (base + half) ks 0);
    [specialize (IH base (size - half)%nat)|specialize (IH (base + half)%nat (size - half)%nat)]; lia.
Qed.

(* on sorted keys the loop lands on a key equal to t whenever its window [base, base + size)
   holds one: a probe greater than t leaves all such keys in the lower part; after a probe <= t
   that lies above such a key, the probe itself equals t *)
Lemma bs_loop_inv : forall ks t, mono ks ->
  forall fuel base size, (1 <= size <= S fuel)%nat -> (base + size <= length ks)%nat ->
  forall j, (base <= j < base + size)%nat -> nth j ks 0 = t ->
    nth (bs_loop fuel ks t base size) ks 0 = t.
Proof.
  intros ks t Hm. induction fuel as [|f IH]; intros base size Hsz Hb j Hj Ht; cbn [bs_loop].
  - replace base with j by lia. exact Ht.
  - destruct (size <=? 1)%nat eqn:E; [replace base with j by lia; exact Ht|].
    pose proof (half_bounds size ltac:(lia)) as Hh. remember (size / 2)%nat as half eqn:Eh; clear Eh.
    destruct (t <? nth (base + half) ks 0) eqn:C.
    + apply (IH base (size - half)%nat) with (j := j); [lia|lia| |exact Ht].
      specialize (Hm (base + half)%nat j). lia.
    + destruct (Nat.lt_ge_cases j (base + half)) as [Hl|Hg].
      * apply (IH (base + half)%nat (size - half)%nat) with (j := (base + half)%nat); [lia|lia|lia|].
        specialize (Hm j (base + half)%nat). lia.
      * apply (IH (base + half)%nat (size - half)%nat) with (j := j); [lia|lia|lia|exact Ht].
Qed.

Lemma bsearch_sound : forall ks t i, bsearch ks t = Some i -> nth_error ks i = Some t.
Proof.
  intros ks t i H. unfold bsearch in H.
  destruct ks as [|k ks'] eqn:Eks; [discriminate|]. rewrite <- Eks in *.
  destruct (nth _ ks 0 =? t) eqn:E; [|discriminate]. injection H as <-.
  pose proof (bs_loop_range ks t (length ks) 0 (length ks)).
  rewrite (nth_error_nth' ks 0) by (subst ks; cbn [length] in *; lia). f_equal. lia.
Qed.

Lemma bsearch_is_some_iff : forall ks t, mono ks -> (is_some (bsearch ks t) = true <-> In t ks).
Proof.
  intros ks t Hm. split.
  - destruct (bsearch ks t) as [i|] eqn:E; [|discriminate]. intros _.
    exact (nth_error_In _ _ (bsearch_sound _ _ _ E)).
  - intro Hin. destruct (In_nth _ _ 0 Hin) as (j & Hj & Hjt).
    unfold bsearch. destruct ks as [|k ks'] eqn:Eks; [inv Hin|]. rewrite <- Eks in *.
    rewrite (bs_loop_inv ks t Hm (length ks) 0%nat (length ks)) with (j := j) by (assumption || lia).
    rewrite N.eqb_refl. reflexivity.
Qed.
