(* C17 — the pack size in both builds, and what the collector holds after extending it with a
   list of packs. *)
From Verif.Base Require Import Tactics Lists.
From Verif.C17 Require Import Base17 Extracted Model Spec.
Local Open Scope N_scope.

(* Both builds compute an image of the unbounded size: the checked one under `chk` (None once
   2^32 is reached), the wrapping one under `mod 2^32`; each addition commutes with the image. *)
Definition chk (a : N) : option N := if a <? U32 then Some a else None.

Lemma fold_blobs_image : forall X (img : N -> X) (step : X -> iblob -> X),
  (forall a b, step (img a) b = img (a + (len (bloc b) + entry_len b))) ->
  forall bs a, fold_left step bs (img a) = img (a + blobs_size bs).
Proof.
  intros X img step H. induction bs as [|b bs IH]; intro a; cbn [fold_left blobs_size fold_right].
  - rewrite N.add_0_r. reflexivity.
  - fold (blobs_size bs). rewrite H, IH, <- N.add_assoc. reflexivity.
Qed.

Lemma u32_add_some : forall a b r, u32_add a b = Some r <-> r = a + b /\ a + b < U32.
Proof.
  unfold u32_add. intros a b r. cbv zeta.
  destruct (a + b <? U32) eqn:E; split; [intros [= <-]; lia|intros [-> _]; reflexivity|discriminate|lia].
Qed.

Lemma pack_size_step_chk : forall a b, pack_size_step (chk a) b = chk (a + (len (bloc b) + entry_len b)).
Proof.
  intros a b. unfold pack_size_step, chk, u32_add. cbv zeta. rewrite N.add_assoc.
  destruct (a <? U32) eqn:E, (a + len (bloc b) <? U32) eqn:E1, (a + len (bloc b) + entry_len b <? U32) eqn:E2;
    reflexivity || lia.
Qed.

Lemma pack_size_char : forall p, pack_size p = if size_fits p then Some (size_spec p) else None.
Proof.
  intro p. unfold pack_size, size_fits, size_spec, pack_size_computed. destruct (psize p); [reflexivity|].
  exact (fold_blobs_image _ chk _ pack_size_step_chk (blobs p) (COMP_OVERHEAD + LENGTH_LEN)).
Qed.

Lemma wadd_mod : forall a b, u32_wadd (a mod U32) b = (a + b) mod U32.
Proof. intros a b. unfold u32_wadd. rewrite N.add_mod_idemp_l by (unfold U32; lia). reflexivity. Qed.

Lemma pack_size_wrapping_char : forall p, pack_size_wrapping p = size_release p.
Proof.
  intro p. unfold pack_size_wrapping, size_release, size_spec, pack_size_wrapping_computed.
  destruct (psize p); [reflexivity|].
  apply (fold_blobs_image _ (fun a => a mod U32)). intros a b. rewrite !wadd_mod, N.add_assoc. reflexivity.
Qed.

Lemma pack_size_release_char : forall p, pack_size_release p = Some (size_release p).
Proof. intro p. unfold pack_size_release. rewrite pack_size_wrapping_char. reflexivity. Qed.

Lemma size_release_fits : forall p, size_fits p = true -> size_release p = size_spec p.
Proof.
  unfold size_fits, size_release, size_spec. intros p H. destruct (psize p); [reflexivity|].
  apply N.mod_small. lia.
Qed.

Lemma release_sizes_fit : forall src, forallb size_fits src = true ->
  forall p, In p src -> size_release p = size_spec p.
Proof. intros src H p Hp. rewrite forallb_forall in H. apply size_release_fits, H, Hp. Qed.

Lemma bt_eqb_eq : forall a b, bt_eqb a b = true <-> a = b.
Proof. intros [] []; simpl; split; congruence. Qed.
Lemma bt_eqb_refl : forall a, bt_eqb a a = true.
Proof. intros []; reflexivity. Qed.
Lemma packs_of_type_cons : forall t p ps, packs_of_type t (p :: ps) =
  if bt_eqb (pack_type p) t then p :: packs_of_type t ps else packs_of_type t ps.
Proof. reflexivity. Qed.
Lemma packs_of_type_snoc : forall t ps p, packs_of_type t (ps ++ [p]) =
  packs_of_type t ps ++ (if bt_eqb (pack_type p) t then [p] else []).
Proof. intros. unfold packs_of_type. rewrite filter_app. cbn [filter]. destruct (bt_eqb _ _); reflexivity. Qed.
Lemma bget_bset : forall A (m : btmap A) t t' v,
  bget (bset m t v) t' = if bt_eqb t t' then v else bget m t'.
Proof. intros A m [] [] v; reflexivity. Qed.
Lemma bget_bmap : forall A B (f : blob_type -> A -> B) m t, bget (bmap f m) t = f t (bget m t).
Proof. intros A B f m []; reflexivity. Qed.
Lemma btmap_ext : forall A (a b : btmap A), (forall t, bget a t = bget b t) -> a = b.
Proof. intros A [] [] H. pose proof (H Tree). pose proof (H Data). cbn in *. congruence. Qed.

Lemma sum_sizes_by_app : forall sz qs rs,
  sum_sizes_by sz (qs ++ rs) = sum_sizes_by sz qs + sum_sizes_by sz rs.
Proof.
  intros sz qs rs. unfold sum_sizes_by. induction qs as [|q qs IH]; cbn [app fold_right]; [reflexivity|].
  rewrite IH. apply N.add_assoc.
Qed.

Fixpoint entries_of (k : nat) (qs : list ipack) : list sentry :=
  match qs with
  | [] => []
  | p :: r => map (mk_entry k) (blobs p) ++ entries_of (S k) r
  end.

Lemma in_entries_of : forall qs k e, In e (entries_of k qs) ->
  exists i p b, nth_error qs i = Some p /\ In b (blobs p) /\ e = mk_entry (k + i) b.
Proof.
  induction qs as [|q qs IH]; intros k e H; cbn [entries_of] in H; [destruct H|].
  apply in_app_or in H. destruct H as [H|H].
  - apply in_map_iff in H. destruct H as (b & <- & Hb). exists 0%nat, q, b. rewrite Nat.add_0_r. auto.
  - destruct (IH _ _ H) as (i & p & b & Hn & Hb & ->). exists (S i), p, b. rewrite Nat.add_succ_r. auto.
Qed.

Lemma in_entries_ids : forall id qs k, In id (map e_id (entries_of k qs)) <-> existsb (lists_id id) qs = true.
Proof.
  intro id. induction qs as [|q qs IH]; intro k; cbn [entries_of map existsb]; [split; [intros []|discriminate]|].
  rewrite map_app, map_map, in_app_iff, orb_true_iff, IH. apply or_iff_compat_r.
  unfold lists_id. rewrite in_map_iff, existsb_exists.
  split; intros (b & H & H'); exists b; cbn [mk_entry e_id] in *; split; assumption || lia.
Qed.

Lemma entries_of_app : forall qs rs k,
  entries_of k (qs ++ rs) = entries_of k qs ++ entries_of (length qs + k) rs.
Proof.
  induction qs as [|q qs IH]; intros rs k; cbn [app entries_of length Nat.add]; [reflexivity|].
  rewrite IH, <- app_assoc, Nat.add_succ_r. reflexivity.
Qed.

Definition mode_entries (m : imode) (t : blob_type) (qs : list ipack) : entries :=
  match t, m with
  | Tree, _ => EFull (entries_of 0 qs)
  | Data, Full => EFull (entries_of 0 qs)
  | Data, DataIds => EIds (map e_id (entries_of 0 qs))
  | Data, OnlyTrees => ENone
  end.

Lemma mode_entries_snoc : forall m t qs p, mode_entries m t (qs ++ [p]) =
  match mode_entries m t qs with
  | ENone => ENone
  | EIds l => EIds (l ++ map bid (blobs p))
  | EFull l => EFull (l ++ map (mk_entry (length qs)) (blobs p))
  end.
Proof.
  intros m t qs p. unfold mode_entries. rewrite entries_of_app. cbn [entries_of].
  rewrite app_nil_r, Nat.add_0_r, map_app, map_map. destruct t, m; reflexivity.
Qed.

(* the slot of type t of a collector in mode m that has been fed the packs src, whose sizes are sz *)
Definition slot (sz : ipack -> N) (m : imode) (t : blob_type) (src : list ipack) : tcoll :=
  {| c_packs := map (fun p => (pid p, sz p)) (packs_of_type t src);
     c_entries := mode_entries m t (packs_of_type t src);
     c_total := sum_sizes_by sz (packs_of_type t src) |}.
Definition collected (sz : ipack -> N) (m : imode) (src : list ipack) : btmap tcoll :=
  {| m_tree := slot sz m Tree src; m_data := slot sz m Data src |}.
(* the packs on which a build does not panic: every size fits, at most 2^32 packs per type *)
Definition build_ok (fits : ipack -> bool) (src : list ipack) : bool :=
  forallb fits src && count_fits src Tree && count_fits src Data.

Section Build.
  Context {psz : ipack -> option N} {sz : ipack -> N} {fits : ipack -> bool}.
  Hypothesis psz_char : forall p, psz p = if fits p then Some (sz p) else None.

  Lemma extend_app : forall ps qs c, extend_with psz c (ps ++ qs) =
    match extend_with psz c ps with Some c1 => extend_with psz c1 qs | None => None end.
  Proof.
    unfold extend_with. intros. rewrite fold_left_app.
    destruct (fold_left (extend_step_with psz) ps (Some c)); [reflexivity|].
    apply fold_left_none. reflexivity.
  Qed.

  (* the counter of a slot is the number of packs of its type so far, and it only grows: a count
     that no longer fits never fits again *)
  Lemma build_ok_snoc : forall src p, build_ok fits (src ++ [p]) =
    build_ok fits src && (fits p && (N.of_nat (length (packs_of_type (pack_type p) src)) <? U32)).
  Proof.
    intros src p. unfold build_ok, count_fits. rewrite forallb_app, !packs_of_type_snoc, !app_length.
    cbn [forallb]. destruct (forallb fits src); [|reflexivity].
    destruct (fits p); [|symmetry; apply andb_false_r].
    destruct (pack_type p); cbn [bt_eqb length andb]; lia.
  Qed.

  Lemma extend_one_collected : forall m src p, extend_one_with psz (collected sz m src) p =
    if fits p && (N.of_nat (length (packs_of_type (pack_type p) src)) <? U32)
    then Some (collected sz m (src ++ [p])) else None.
  Proof.
    intros m src p. unfold extend_one_with, collected, slot. rewrite psz_char, !packs_of_type_snoc.
    destruct (fits p); [|reflexivity].
    destruct (pack_type p); cbn [bt_eqb bget bset m_tree m_data c_packs c_entries c_total andb];
      rewrite map_length; (destruct (_ <? U32); [|reflexivity]);
      rewrite app_nil_r, map_app, mode_entries_snoc, sum_sizes_by_app;
      cbn [map sum_sizes_by fold_right]; rewrite N.add_0_r; reflexivity.
  Qed.

  (* The loop appends at the end of every list, so the induction runs from the right and the
     collector it starts from stays `collector_new m`. *)
  Lemma extend_new : forall m src,
    extend_with psz (collector_new m) src = if build_ok fits src then Some (collected sz m src) else None.
  Proof.
    intro m. induction src as [|p src IH] using rev_ind; [destruct m; reflexivity|].
    rewrite extend_app, IH, build_ok_snoc. destruct (build_ok fits src); [|reflexivity].
    apply extend_one_collected.
  Qed.

  Lemma collect_is_extend : forall ld files c,
    fold_left (load_step_with psz ld) files (Some c) = extend_with psz c (flat_map ld files).
  Proof.
    intro ld. induction files as [|f fs IH]; intro c; cbn [fold_left flat_map]; [reflexivity|].
    rewrite extend_app. cbn [load_step_with]. destruct (extend_with psz c (ld f)); [apply IH|].
    apply fold_left_none. reflexivity.
  Qed.
End Build.

Lemma extend_psz_mono : forall psz1 psz2, (forall p s, psz1 p = Some s -> psz2 p = Some s) ->
  forall ps c c', extend_with psz1 c ps = Some c' -> extend_with psz2 c ps = Some c'.
Proof.
  intros psz1 psz2 Hm. unfold extend_with. induction ps as [|p ps IH]; intros c c' H; cbn [fold_left] in *.
  - assumption.
  - cbn [extend_step_with] in *. destruct (extend_one_with psz1 c p) as [c1|] eqn:E1.
    + assert (E2 : extend_one_with psz2 c p = Some c1).
      { unfold extend_one_with in *. destruct (psz1 p) as [s|] eqn:Es; [|discriminate].
        rewrite (Hm p s Es). exact E1. }
      rewrite E2. apply IH. assumption.
    + rewrite fold_left_none in H by reflexivity. discriminate.
Qed.

(* which sections the loaders feed in, by the flags regenerated from the source (Extracted.v):
   GlobalIndex::new_from_collector only `packs`, prune both *)
Lemma loaded_is_unmarked : forall files, flat_map loaded_packs files = unmarked files.
Proof. intro files. apply flat_map_ext. intro f. apply app_nil_r. Qed.

Lemma prune_loaded_is_all : forall files, flat_map prune_loaded_packs files = all_packs files.
Proof. intro files. apply flat_map_ext. intro f. reflexivity. Qed.
