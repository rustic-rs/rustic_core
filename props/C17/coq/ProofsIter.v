(* C17 — into_iter gives the source packs back: per type, the same pack ids in the same order,
   and in each pack slot a permutation of the blobs that were loaded for it (re-labelled with the
   pack type; nothing where the mode keeps no locations). *)
From Verif.Base Require Import Tactics Lists.
From Verif.C17 Require Import Base17 Extracted Model Spec ProofsSearch ProofsCollect Proofs.
Local Open Scope N_scope.

Lemma StronglySorted_filter : forall A (R : A -> A -> Prop) (f : A -> bool) l,
  StronglySorted R l -> StronglySorted R (filter f l).
Proof.
  induction 1 as [|a l Hs IH Hf]; cbn [filter]; [constructor|].
  destruct (f a); [|assumption]. constructor; [assumption|].
  rewrite Forall_forall in *. intros x Hx. apply filter_In in Hx. apply Hf. tauto.
Qed.

Definition at_pack (k : nat) (e : sentry) : bool := (e_pack e =? k)%nat.
(* through N.of_nat: by conversion the order of `sort_ok (fun e => N.of_nat (e_pack e))` *)
Definition le_pack (a b : sentry) : Prop := N.of_nat (e_pack a) <= N.of_nat (e_pack b).

Lemma span_pack_sorted : forall L k, StronglySorted le_pack L ->
  (forall e, In e L -> (k <= e_pack e)%nat) ->
  span_pack k L = (filter (at_pack k) L, filter (fun e => negb (at_pack k e)) L).
Proof.
  induction L as [|e r IH]; intros k Hs Hk; cbn [span_pack filter]; [reflexivity|].
  inversion Hs as [|? ? Hs' Hf]; subst. rewrite Forall_forall in Hf.
  change (e_pack e =? k)%nat with (at_pack k e).
  destruct (at_pack k e) eqn:E; cbn [negb]; unfold at_pack in E.
  - rewrite IH; [reflexivity|assumption|]. intros x Hx. apply Hk. right. assumption.
  - (* e lies beyond slot k, and so does everything after it *)
    specialize (Hk e (or_introl eq_refl)).
    rewrite (filter_const _ false), (filter_const _ true); [reflexivity| |];
      intros x Hx; specialize (Hf x Hx); unfold le_pack in Hf; unfold at_pack; lia.
Qed.

Lemma filter_app_apart : forall A (f : A -> bool) l1 l2,
  (forall x, In x l1 -> f x = true) -> (forall x, In x l2 -> f x = false) ->
  filter f (l1 ++ l2) = l1 /\ filter (fun x => negb (f x)) (l1 ++ l2) = l2.
Proof.
  intros A f l1 l2 H1 H2. rewrite !filter_app.
  rewrite (filter_const f true l1 H1), (filter_const f false l2 H2).
  rewrite (filter_const _ false l1), (filter_const _ true l2).
  - split; [apply app_nil_r|reflexivity].
  - intros x Hx. rewrite (H2 x Hx). reflexivity.
  - intros x Hx. rewrite (H1 x Hx). reflexivity.
Qed.

Lemma entries_of_cons_slots : forall k p r,
  filter (at_pack k) (entries_of k (p :: r)) = map (mk_entry k) (blobs p) /\
  filter (fun e => negb (at_pack k e)) (entries_of k (p :: r)) = entries_of (S k) r.
Proof.
  intros k p r. apply filter_app_apart; intros x Hx.
  - apply in_map_iff in Hx. destruct Hx as (b & <- & _). apply Nat.eqb_refl.
  - apply in_entries_of in Hx. destruct Hx as (i & q & b & _ & _ & ->).
    unfold at_pack. cbn [mk_entry e_pack]. lia.
Qed.

Definition gives_back (f : ipack -> list iblob) (p q : ipack) : Prop :=
  pid q = pid p /\ psize q = None /\ Permutation (blobs q) (f p).

Lemma iter_packs_sorted : forall t qs k L, StronglySorted le_pack L ->
  (forall p, In p qs -> pack_type p = t) ->
  Permutation L (entries_of k qs) ->
  Forall2 (gives_back retyped) qs (iter_packs t (map pid qs) k L).
Proof.
  induction qs as [|p r IH]; intros k L Hs Ht HP; cbn [map iter_packs]; [constructor|].
  rewrite span_pack_sorted; [|assumption|].
  - destruct (entries_of_cons_slots k p r) as (Ek & Er). constructor.
    + split; [reflexivity|]. split; [reflexivity|]. cbn [blobs].
      apply (Permutation_filter (at_pack k)) in HP. rewrite Ek in HP.
      apply Permutation_map with (f := entry_blob t) in HP. rewrite map_map in HP.
      unfold retyped. rewrite (Ht p (or_introl eq_refl)). exact HP.
    + apply IH.
      * apply StronglySorted_filter. assumption.
      * intros q Hq. apply Ht. right. assumption.
      * rewrite <- Er. apply Permutation_filter, HP.
  - intros e He. apply (Permutation_in _ HP), in_entries_of in He.
    destruct He as (i & q & b & _ & _ & ->). cbn [mk_entry e_pack]. lia.
Qed.

Lemma iter_packs_nil : forall t qs k,
  Forall2 (gives_back (fun _ => [])) qs (iter_packs t (map pid qs) k []).
Proof.
  induction qs as [|p r IH]; intro k; cbn [map iter_packs span_pack]; constructor; [|apply IH].
  repeat split; constructor.
Qed.

Definition keeps_full (m : imode) (t : blob_type) : bool :=
  match m, t with Full, _ => true | _, Tree => true | _, Data => false end.

Lemma into_iter_char {sz sort_p sort_e sort_i m src ix} :
  sort_ok (fun e => N.of_nat (e_pack e)) sort_p -> sort_ok e_id sort_e ->
  ix = index_for sz sort_e sort_i m src ->
  forall t, Forall2 (gives_back (fun p => if keeps_full m t then retyped p else []))
                    (packs_of_type t src) (iter_type sort_p ix t).
Proof.
  intros Hp He -> t. unfold iter_type. rewrite index_for_slot. cbn [i_packs i_entries].
  set (qs := packs_of_type t src).
  assert (Full_case : Forall2 (gives_back retyped) qs
                                (iter_packs t (map pid qs) 0 (sort_p (sort_e (entries_of 0 qs))))).
  { apply iter_packs_sorted.
    - apply (sort_ok_strongly _ _ _ _ Hp).
    - intros p Hq. apply filter_In in Hq. apply bt_eqb_eq, Hq.
    - symmetry. eapply perm_trans; [apply He|apply Hp]. }
  destruct t, m; cbn [keeps_full mode_entries sorted_entries_with]; try exact Full_case; apply iter_packs_nil.
Qed.
