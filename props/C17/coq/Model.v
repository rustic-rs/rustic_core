(* C17 — executable model of the in-memory index (definitions only).
   Anchors:
     crates/core/src/repofile/indexfile.rs   IndexPack::blob_type, IndexPack::pack_size
     crates/core/src/repofile/packfile.rs    PackHeaderRef::pack_size, HeaderEntry::length
     crates/core/src/index/binarysorted.rs   IndexCollector::{new, extend, into_index},
                                             ReadIndex for Index {get_id, has, total_size},
                                             IntoIterator for Index / PackIndexes::next
     crates/core/src/index.rs                GlobalIndex::new_from_collector
   Constants and the two small decision facts come from Extracted.v (regenerated from
   the source on every run). *)
From Verif.Base Require Import Tactics.
From Verif.C17 Require Import Base17 Extracted.
Local Open Scope N_scope.

(* ---------------------------------------------------------------- u32 arithmetic *)
Definition U32 : N := 4294967296.
(* checked add of the debug build: None = "attempt to add with overflow" *)
Definition u32_add (a b : N) : option N := let r := a + b in if r <? U32 then Some r else None.

(* ---------------------------------------------------------------- IndexPack *)
(* IndexPack::blob_type: type of the first blob; a pack without blobs counts as Data *)
Definition pack_type (p : ipack) : blob_type :=
  match blobs p with [] => EMPTY_PACK_TYPE | b :: _ => btpe b end.

(* HeaderEntry::from_blob(blob).length() *)
Definition entry_len (b : iblob) : N :=
  match ulen (bloc b) with None => ENTRY_LEN | Some _ => ENTRY_LEN_COMPRESSED end.

(* PackHeaderRef::pack_size: fold(COMP_OVERHEAD + LENGTH_LEN, |acc, blob| acc + length + entry_len) in u32 *)
Definition pack_size_step (acc : option N) (b : iblob) : option N :=
  match acc with
  | None => None
  | Some a => match u32_add a (len (bloc b)) with
              | None => None
              | Some a1 => u32_add a1 (entry_len b)
              end
  end.
Definition pack_size_computed (bs : list iblob) : option N :=
  fold_left pack_size_step bs (u32_add COMP_OVERHEAD LENGTH_LEN).
(* IndexPack::pack_size: self.size.unwrap_or_else(computed) *)
Definition pack_size (p : ipack) : option N :=
  match psize p with Some s => Some s | None => pack_size_computed (blobs p) end.

(* ---------------------------------------------------------------- collector *)
Inductive entries := ENone | EIds (l : list N) | EFull (l : list sentry).
(* TypeIndexCollector { packs: Vec<(PackId, u32)>, entries, total_size: u64 } *)
Record tcoll := { c_packs : list (N * N); c_entries : entries; c_total : N }.
(* BlobTypeMap<T> *)
Record btmap (A : Type) := { m_tree : A; m_data : A }.
Arguments m_tree {A}. Arguments m_data {A}.
Definition bget {A} (m : btmap A) (t : blob_type) : A :=
  match t with Tree => m_tree m | Data => m_data m end.
Definition bset {A} (m : btmap A) (t : blob_type) (v : A) : btmap A :=
  match t with Tree => {| m_tree := v; m_data := m_data m |}
             | Data => {| m_tree := m_tree m; m_data := v |} end.
Definition bmap {A B} (f : blob_type -> A -> B) (m : btmap A) : btmap B :=
  {| m_tree := f Tree (m_tree m); m_data := f Data (m_data m) |}.


(* IndexCollector::new *)
Definition collector_new (m : imode) : btmap tcoll :=
  {| m_tree := {| c_packs := []; c_entries := EFull []; c_total := 0 |};
     m_data := {| c_packs := []; c_entries := match m with
                                               | OnlyTrees => ENone
                                               | DataIds => EIds []
                                               | Full => EFull []
                                               end; c_total := 0 |} |}.

Definition mk_entry (idx : nat) (b : iblob) : sentry :=
  {| e_id := bid b; e_pack := idx; e_loc := bloc b |}.

(* one iteration of the loop of `impl Extend<IndexPack> for IndexCollector`;
   None = panic (pack-size overflow in the checked build, or "pack count doesn't fit into u32") *)
Definition extend_one_with (psz : ipack -> option N) (c : btmap tcoll) (p : ipack) : option (btmap tcoll) :=
  let bt := pack_type p in
  match psz p with
  | None => None
  | Some size =>
    let tc := bget c bt in
    let idx := length (c_packs tc) in
    if N.of_nat idx <? U32 then
      let ents := match c_entries tc with
                  | ENone => ENone
                  | EIds l => EIds (l ++ map bid (blobs p))
                  | EFull l => EFull (l ++ map (mk_entry idx) (blobs p))
                  end in
      Some (bset c bt {| c_packs := c_packs tc ++ [(pid p, size)];
                         c_entries := ents;
                         c_total := c_total tc + size |})
    else None
  end.
Definition extend_step_with (psz : ipack -> option N) (oc : option (btmap tcoll)) (p : ipack) : option (btmap tcoll) :=
  match oc with None => None | Some c => extend_one_with psz c p end.
Definition extend_with (psz : ipack -> option N) (c : btmap tcoll) (ps : list ipack) : option (btmap tcoll) :=
  fold_left (extend_step_with psz) ps (Some c).
(* the checked (debug) build *)
Definition extend_one := extend_one_with pack_size.
Definition extend_step := extend_step_with pack_size.
Definition extend := extend_with pack_size.

(* the release build: u32 additions wrap, nothing panics in pack_size *)
Definition u32_wadd (a b : N) : N := (a + b) mod U32.
Definition pack_size_wrapping_computed (bs : list iblob) : N :=
  fold_left (fun a b => u32_wadd (u32_wadd a (len (bloc b))) (entry_len b)) bs (u32_wadd COMP_OVERHEAD LENGTH_LEN).
Definition pack_size_wrapping (p : ipack) : N :=
  match psize p with Some s => s | None => pack_size_wrapping_computed (blobs p) end.
Definition pack_size_release (p : ipack) : option N := Some (pack_size_wrapping p).

(* ---------------------------------------------------------------- index *)
(* TypeIndex { packs: Vec<PackId>, entries, total_size } *)
Record tindex := { i_packs : list N; i_entries : entries; i_total : N }.
Definition index := btmap tindex.

(* IndexCollector::into_index with the two sorts as parameters
   (par_sort_unstable_by_key(|e| e.id) for entries, par_sort_unstable for ids) *)
Definition into_index_with (sort_e : list sentry -> list sentry) (sort_i : list N -> list N)
           (c : btmap tcoll) : index :=
  bmap (fun _ tc =>
          {| i_packs := map fst (c_packs tc);
             i_entries := match c_entries tc with
                          | ENone => ENone
                          | EIds l => EIds (sort_i l)
                          | EFull l => EFull (sort_e l)
                          end;
             i_total := c_total tc |}) c.

(* slice::binary_search_by of the pinned toolchain (size-halving loop, no early exit),
   on the list of keys.  `fuel` = length is enough (ProofsSearch.bs_loop_inv).  Only the
   Ok(index) result is used by the callers (`.ok()`, `.is_ok()`), Err(_) is None here. *)
Fixpoint bs_loop (fuel : nat) (ks : list N) (t : N) (base size : nat) : nat :=
  match fuel with
  | O => base
  | S f =>
    if (size <=? 1)%nat then base
    else
      let half := (size / 2)%nat in
      let mid := (base + half)%nat in
      (* cmp = f(self[mid]); base = if cmp == Greater { base } else { mid } *)
      let base' := if t <? nth mid ks 0 then base else mid in
      bs_loop f ks t base' (size - half)%nat
  end.
Definition bsearch (ks : list N) (t : N) : option nat :=
  match ks with
  | [] => None
  | _ => let base := bs_loop (length ks) ks t 0%nat (length ks) in
         if nth base ks 0 =? t then Some base else None
  end.

Definition is_some {A} (o : option A) : bool := match o with Some _ => true | None => false end.

(* ReadIndex::has *)
Definition has (ix : index) (t : blob_type) (id : N) : bool :=
  match i_entries (bget ix t) with
  | EFull l => is_some (bsearch (map e_id l) id)
  | EIds l => is_some (bsearch l id)
  | ENone => false
  end.

(* ReadIndex::get_id: IndexEntry { blob_type, pack, location }.  The two inner `None`s are the
   out-of-bounds panics of vec[index] / packs[pack_idx]; Props.get_id_some_iff_has shows they
   cannot occur. *)
Definition get_id (ix : index) (t : blob_type) (id : N) : option (blob_type * N * loc) :=
  match i_entries (bget ix t) with
  | EFull l =>
    match bsearch (map e_id l) id with
    | Some i => match nth_error l i with
                | Some e => match nth_error (i_packs (bget ix t)) (e_pack e) with
                            | Some pk => Some (t, pk, e_loc e)
                            | None => None
                            end
                | None => None
                end
    | None => None
    end
  | _ => None
  end.

(* ReadIndex::total_size *)
Definition total_size (ix : index) (t : blob_type) : N := i_total (bget ix t).

(* ---------------------------------------------------------------- into_iter *)
(* inner `while *idx < entries.len() && entries[*idx].pack_idx == *pack_idx` of PackIndexes::next *)
Fixpoint span_pack (pi : nat) (es : list sentry) : list sentry * list sentry :=
  match es with
  | e :: r => if (e_pack e =? pi)%nat
              then let (a, b) := span_pack pi r in (e :: a, b)
              else ([], es)
  | [] => ([], [])
  end.
Definition entry_blob (t : blob_type) (e : sentry) : iblob :=
  {| bid := e_id e; btpe := t; bloc := e_loc e |}.
(* PackIndexes::next for one blob type, pack slots pi, pi+1, ... *)
Fixpoint iter_packs (t : blob_type) (pks : list N) (pi : nat) (es : list sentry) : list ipack :=
  match pks with
  | [] => []
  | p :: ps => let (mine, rest) := span_pack pi es in
               {| pid := p; blobs := map (entry_blob t) mine; psize := None |}
                 :: iter_packs t ps (S pi) rest
  end.
(* IntoIterator for Index: re-sort FullEntries by pack_idx (par_sort_unstable_by), then all
   tree packs, then all data packs; without FullEntries the packs come back without blobs *)
Definition iter_type (sort_p : list sentry -> list sentry) (ix : index) (t : blob_type) : list ipack :=
  let ti := bget ix t in
  iter_packs t (i_packs ti) 0%nat
             (match i_entries ti with EFull l => sort_p l | _ => [] end).
Definition into_iter_with (sort_p : list sentry -> list sentry) (ix : index) : list ipack :=
  iter_type sort_p ix Tree ++ iter_type sort_p ix Data.

(* ---------------------------------------------------------------- loading *)
(* generic loader: `for index in stream_all { collector.extend(<sections of index>) }`, then
   into_index; psz = pack-size function of the build, ld = the sections fed to the collector *)
Definition load_step_with (psz : ipack -> option N) (ld : ifile -> list ipack)
           (oc : option (btmap tcoll)) (f : ifile) : option (btmap tcoll) :=
  match oc with None => None | Some c => extend_with psz c (ld f) end.
Definition collect_gen (psz : ipack -> option N) (ld : ifile -> list ipack)
           (m : imode) (files : list ifile) : option (btmap tcoll) :=
  fold_left (load_step_with psz ld) files (Some (collector_new m)).
Definition index_of_gen (psz : ipack -> option N) (ld : ifile -> list ipack)
           (sort_e : list sentry -> list sentry) (sort_i : list N -> list N)
           (m : imode) (files : list ifile) : option index :=
  match collect_gen psz ld m files with Some c => Some (into_index_with sort_e sort_i c) | None => None end.

(* GlobalIndex::new_from_collector: `collector.extend(index.packs)` *)
Definition loaded_packs (f : ifile) : list ipack :=
  (if LOADER_USES_PACKS then packs f else []) ++ (if LOADER_USES_MARKED then packs_to_delete f else []).
Definition load_step := load_step_with pack_size loaded_packs.
Definition collect := collect_gen pack_size loaded_packs.
Definition index_of_with := index_of_gen pack_size loaded_packs.
(* the same loader in a release build *)
Definition index_of_release_with := index_of_gen pack_size_release loaded_packs.

(* PrunePlan::from_prune_options builds its own index: IndexCollector::new(PRUNE_INDEX_TYPE), per
   file `extend(index.packs.clone())` then `extend(index.packs_to_delete.clone())`, into_index,
   GlobalIndex::new_from_index.  Two extend calls in a row = one extend with the concatenation
   (ProofsCollect.extend_app). *)
Definition prune_loaded_packs (f : ifile) : list ipack :=
  (if PRUNE_USES_PACKS then packs f else []) ++ (if PRUNE_USES_MARKED then packs_to_delete f else []).
Definition prune_index_of_with := fun se si => index_of_gen pack_size prune_loaded_packs se si PRUNE_INDEX_TYPE.

(* check_packs (commands/check.rs) builds the index `check` walks the trees with:
   IndexCollector::new(CHECK_INDEX_TYPE), per file `extend(index.packs.clone())` *)
Definition check_loaded_packs (f : ifile) : list ipack :=
  (if CHECK_USES_PACKS then packs f else []) ++ (if CHECK_USES_MARKED then packs_to_delete f else []).
Definition check_index_of_with := fun se si => index_of_gen pack_size check_loaded_packs se si CHECK_INDEX_TYPE.

(* ---------------------------------------------------------------- GlobalIndex level *)
(* ReadIndex::{has_tree, has_data, get_tree, get_data}; GlobalIndex delegates to the Index *)
Definition has_tree (ix : index) (id : N) : bool := has ix Tree id.
Definition has_data (ix : index) (id : N) : bool := has ix Data id.
Definition get_tree (ix : index) (id : N) := get_id ix Tree id.
Definition get_data (ix : index) (id : N) := get_id ix Data id.

(* IndexEntry::read_data: be.read_encrypted_partial(FileType::Pack, &self.pack,
   self.blob_type.is_cacheable(), self.location), which is
   decode(read_partial(Pack, pack, cacheable, location.offset, location.length), location.uncompressed_length).
   The backend read and the decryption/decompression are parameters (no crypto here). *)
Record read_req := { r_pack : N; r_cacheable : bool; r_off : N; r_len : N; r_ulen : option N }.
Definition is_cacheable (t : blob_type) : bool :=
  match t with Tree => TREE_IS_CACHEABLE | Data => DATA_IS_CACHEABLE end.
Definition read_request (ie : blob_type * N * loc) : read_req :=
  let '(t, pk, lc) := ie in
  {| r_pack := pk; r_cacheable := is_cacheable t; r_off := off lc; r_len := len lc; r_ulen := ulen lc |}.
(* ReadIndex::blob_from_backend: None = Err("Blob not found in index") *)
Definition blob_read_request (ix : index) (t : blob_type) (id : N) : option read_req :=
  match get_id ix t id with Some ie => Some (read_request ie) | None => None end.
Definition blob_from_backend {R : Type} (read_partial : N -> bool -> N -> N -> R) (decode : R -> option N -> R)
           (ix : index) (t : blob_type) (id : N) : option R :=
  match blob_read_request ix t id with
  | Some rq => Some (decode (read_partial (r_pack rq) (r_cacheable rq) (r_off rq) (r_len rq)) (r_ulen rq))
  | None => None
  end.
