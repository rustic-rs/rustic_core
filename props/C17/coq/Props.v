(* C17 — property theorems.
   `index_of_with sort_e sort_i m files` is the model of
       let mut c = IndexCollector::new(m); for f in files { c.extend(f.packs) }; c.into_index()
   (GlobalIndex::new_from_collector), `None` = the checked build panics (a pack size or a pack
   counter does not fit u32).
   Every theorem is quantified over ALL lists of index files and over EVERY correct sort
   (`sort_ok`: returns a sorted permutation) — the real code sorts with an unstable parallel sort.
   `listed`/`listings`/`total_spec` (Spec.v) read only the `packs` sections of the files. *)
From Verif.Base Require Import Tactics.
From Verif.C17 Require Import Base17 Extracted Sorts Model Spec ProofsSearch ProofsCollect Proofs Exec ProofsIter ProofsDeep.
Local Open Scope N_scope.

(* In Full mode a lookup by (type, id) succeeds exactly when some index file lists, in `packs`, a
   pack of that type containing a blob with that id (the other modes: mode_agreement). *)
Theorem has_iff_listed : forall sort_e sort_i,
  sort_ok e_id sort_e -> sort_ok (fun x => x) sort_i ->
  forall files ix, index_of_with sort_e sort_i Full files = Some ix ->
  forall t id, has ix t id = true <-> listed files t id = true.
Proof.
  intros se si He Hi files ix H t id. rewrite (has_char He Hi (checked_index Full H)). reflexivity.
Qed.
Print Assumptions has_iff_listed.

(* What get_id returns is one of the listings: same type, and (pack, offset, length,
   uncompressed length) are those of a blob with that id in an unmarked pack of that type. *)
Theorem get_id_is_a_listing : forall sort_e sort_i,
  sort_ok e_id sort_e ->
  forall m files ix, index_of_with sort_e sort_i m files = Some ix ->
  forall t id t' pk lc, get_id ix t id = Some (t', pk, lc) ->
    t' = t /\ In (pk, lc) (listings files t id).
Proof. intros se si He m files ix H t id. exact (proj2 (get_id_char He (checked_index m H) t id)). Qed.
Print Assumptions get_id_is_a_listing.

(* get_id succeeds exactly when has does wherever full entries are kept (so the two indexing
   operations vec[index], packs[pack_idx] inside get_id never go out of bounds); where only ids
   or nothing is kept it is None. *)
Theorem get_id_some_iff_has : forall sort_e sort_i,
  sort_ok e_id sort_e ->
  forall m files ix, index_of_with sort_e sort_i m files = Some ix ->
  forall t id, is_some (get_id ix t id) =
               match m, t with Full, _ => has ix t id | _, Tree => has ix t id | _, Data => false end.
Proof. intros se si He m files ix H t id. exact (proj1 (get_id_char He (checked_index m H) t id)). Qed.
Print Assumptions get_id_some_iff_has.

(* Size totals equal the sum of the listed pack sizes (explicit size, else header-derived size),
   per type, in every mode. *)
Theorem total_size_sum : forall sort_e sort_i m files ix, index_of_with sort_e sort_i m files = Some ix ->
  forall t, total_size ix t = total_spec files t.
Proof. intros se si m files ix H. exact (total_size_char (checked_index m H)). Qed.
Print Assumptions total_size_sum.

(* The reduced modes answer presence identically for what they retain: trees in every mode,
   data ids in DataIds; OnlyTrees retains nothing for data. *)
Theorem mode_agreement : forall sort_e sort_i,
  sort_ok e_id sort_e -> sort_ok (fun x => x) sort_i ->
  forall m files ix, index_of_with sort_e sort_i m files = Some ix ->
  forall t id, has ix t id = retains m t && listed files t id.
Proof. intros se si He Hi m files ix H. exact (has_char He Hi (checked_index m H)). Qed.
Print Assumptions mode_agreement.

(* The index exists (the checked build does not panic) EXACTLY when every header-derived pack size
   fits u32 and each type has at most 2^32 packs. *)
Theorem index_defined_iff_sizes_fit : forall sort_e sort_i m files,
  (exists ix, index_of_with sort_e sort_i m files = Some ix) <-> no_overflow files = true.
Proof. intros se si m files. setoid_rewrite checked_build. apply if_Some_ex. Qed.
Print Assumptions index_defined_iff_sizes_fit.

(* No panic on inputs whose computed pack sizes fit u32 and that have at most 2^32 packs per type. *)
Theorem index_defined_when_sizes_fit : forall sort_e sort_i m files,
  no_overflow files = true -> exists ix, index_of_with sort_e sort_i m files = Some ix.
Proof. intros se si m files H. apply index_defined_iff_sizes_fit, H. Qed.
Print Assumptions index_defined_when_sizes_fit.

(* The sorts the model is executed with are correct sorts: the theorems apply to Exec.index_of. *)
Theorem executable_sorts_ok :
  sort_ok e_id msort_entries_by_id /\ sort_ok (fun x => x) msort_ids /\
  sort_ok (fun e => N.of_nat (e_pack e)) msort_entries_by_pack.
Proof.
  split; [|split].
  - apply leb_sort_ok with (leb := EntryIdOrder.leb);
      [unfold EntryIdOrder.leb; lia|apply EntryIdSort.Permuted_sort|apply EntryIdSort.Sorted_sort].
  - apply leb_sort_ok with (leb := IdOrder.leb);
      [unfold IdOrder.leb; lia|apply IdSort.Permuted_sort|apply IdSort.Sorted_sort].
  - apply leb_sort_ok with (leb := EntryPackOrder.leb);
      [unfold EntryPackOrder.leb; lia|apply EntryPackSort.Permuted_sort|apply EntryPackSort.Sorted_sort].
Qed.
Print Assumptions executable_sorts_ok.

(* In terms of the blob's own listed type: the same statement holds for index files whose packs
   are homogeneous (every blob has the type of the first one) ... *)
Theorem has_iff_listed_by_blob_type : forall sort_e sort_i,
  sort_ok e_id sort_e -> sort_ok (fun x => x) sort_i ->
  forall files ix, index_of_with sort_e sort_i Full files = Some ix ->
  all_homogeneous files = true ->
  forall t id, has ix t id = listed_by_blob_type files t id.
Proof.
  intros se si He Hi files ix H Hh t id.
  rewrite (has_char He Hi (checked_index Full H)), <- (listed_homogeneous _ _ _ Hh). reflexivity.
Qed.
Print Assumptions has_iff_listed_by_blob_type.

(* a restic-v1-style pack holding a data blob (id 1) first and a tree blob (id 2) second *)
Definition mixed_files : list ifile :=
  [ {| packs := [ {| pid := 7;
                     blobs := [ {| bid := 1; btpe := Data; bloc := {| off := 0; len := 40; ulen := None |} |};
                                {| bid := 2; btpe := Tree; bloc := {| off := 40; len := 50; ulen := None |} |} ];
                     psize := None |} ];
       packs_to_delete := [] |} ].
(* ... and fails for a pack that mixes types (restic-v1 style): a tree blob listed after a data
   blob is not found as a tree, and is found as data.  Full-strength statement without the
   homogeneity premise:
     forall files ix, index_of Full files = Some ix -> forall t id, has ix t id = listed_by_blob_type files t id
   is refuted by this witness.  rustic_core never writes such packs and `check` reports them. *)
Theorem has_iff_listed_mixed_pack_refuted :
  exists files ix id, index_of Full files = Some ix /\ all_homogeneous files = false /\
    listed_by_blob_type files Tree id = true /\ has ix Tree id = false /\ get_id ix Tree id = None /\
    has ix Data id = true.
Proof. exists mixed_files. eexists. exists 2. repeat (split; [vm_compute; reflexivity|]). vm_compute; reflexivity. Qed.
Print Assumptions has_iff_listed_mixed_pack_refuted.

(* Iterating the index gives the loaded packs back: per type (trees first), the same pack ids in
   loading order, no explicit size, and in every pack slot a permutation of the blobs loaded for
   it, labelled with the pack type — or no blobs where the mode keeps no locations.  For every
   correct sort by pack index. *)
Theorem into_iter_roundtrip : forall sort_p sort_e sort_i,
  sort_ok (fun e => N.of_nat (e_pack e)) sort_p -> sort_ok e_id sort_e ->
  forall m files ix, index_of_with sort_e sort_i m files = Some ix ->
  into_iter_with sort_p ix = iter_type sort_p ix Tree ++ iter_type sort_p ix Data /\
  forall t, Forall2 (fun p q => pid q = pid p /\ psize q = None /\
                                Permutation (blobs q) (if keeps_full m t then retyped p else []))
                    (packs_of_type t (unmarked files)) (iter_type sort_p ix t).
Proof.
  intros sp se si Hp He m files ix H. split; [reflexivity|].
  exact (into_iter_char Hp He (checked_index m H)).
Qed.
Print Assumptions into_iter_roundtrip.

(* The u64 accumulator `total_size += u64::from(size)` cannot overflow: with explicit sizes being
   u32 values, the (unbounded) total of every existing index is below 2^64 — and so is every
   partial sum, the summands being non-negative. *)
Theorem total_size_no_overflow : forall sort_e sort_i m files ix,
  index_of_with sort_e sort_i m files = Some ix ->
  sizes_are_u32 (unmarked files) = true ->
  forall t, total_size ix t < 18446744073709551616.
Proof.
  intros se si m files ix H Hu t. rewrite checked_build in H. apply if_Some in H. destruct H as (Hn & H).
  rewrite (total_size_char H). apply N.le_lt_trans with (1 := total_in_bound _ t Hn Hu). reflexivity.
Qed.
Print Assumptions total_size_no_overflow.

(* Release build (u32 additions wrap).  The wrapped pack size is the true header-derived size
   modulo 2^32, and equals the checked one whenever the checked build does not panic. *)
Theorem pack_size_wrapping_is_mod : forall p,
  pack_size_wrapping p = match psize p with Some s => s | None => size_spec p mod 4294967296 end.
Proof. exact pack_size_wrapping_char. Qed.
Print Assumptions pack_size_wrapping_is_mod.

Theorem pack_size_builds_equal : forall p s, pack_size p = Some s -> pack_size_wrapping p = s.
Proof.
  intros p s H. rewrite pack_size_char in H. destruct (size_fits p) eqn:F; inv H.
  rewrite pack_size_wrapping_char. apply size_release_fits, F.
Qed.
Print Assumptions pack_size_builds_equal.

(* Whenever the checked build yields an index, the release build yields the same index. *)
Theorem release_equals_checked : forall sort_e sort_i m files ix,
  index_of_with sort_e sort_i m files = Some ix ->
  index_of_release_with sort_e sort_i m files = Some ix.
Proof.
  intros se si m files ix H. rewrite checked_build in H. apply if_Some in H. destruct H as (Hn & ->).
  unfold no_overflow, no_overflow_in in Hn. rewrite !andb_true_iff in Hn. destruct Hn as ((Hf & HT) & HD).
  rewrite release_build. unfold counts_fit. rewrite HT, HD. cbn [andb]. f_equal.
  apply index_for_ext, release_sizes_fit, Hf.
Qed.
Print Assumptions release_equals_checked.

(* Otherwise the release build still answers lookups exactly as the index files say (it only
   panics on the pack counter), but reports totals with the wrapped sizes. *)
Theorem release_build_characterisation : forall sort_e sort_i,
  sort_ok e_id sort_e -> sort_ok (fun x => x) sort_i ->
  forall m files,
    ((exists ix, index_of_release_with sort_e sort_i m files = Some ix) <-> counts_fit files = true) /\
    forall ix, index_of_release_with sort_e sort_i m files = Some ix ->
      (forall t id, has ix t id = retains m t && listed files t id) /\
      (forall t id t' pk lc, get_id ix t id = Some (t', pk, lc) -> t' = t /\ In (pk, lc) (listings files t id)) /\
      (forall t, total_size ix t = total_release files t) /\
      (forallb size_fits (unmarked files) = true -> forall t, total_size ix t = total_spec files t).
Proof.
  intros se si He Hi m files. setoid_rewrite release_build. split; [apply if_Some_ex|].
  intros ix H. apply if_Some in H. destruct H as (_ & R).
  split; [exact (has_char He Hi R)|]. split; [exact (fun t id => proj2 (get_id_char He R t id))|].
  split; [exact (total_size_char R)|]. intros Hf.
  rewrite (index_for_ext _ _ _ _ _ _ (release_sizes_fit _ Hf)) in R. exact (total_size_char R).
Qed.
Print Assumptions release_build_characterisation.

(* Full-strength total_size_sum does not hold in the release build: *)
Definition overflow_files : list ifile :=
  [ {| packs := [ {| pid := 1; blobs := [ {| bid := 1; btpe := Data; bloc := {| off := 0; len := 4294967223; ulen := None |} |} ];
                     psize := None |} ]; packs_to_delete := [] |} ].
Theorem release_total_size_sum_refuted :
  exists ix, index_of Full overflow_files = None /\ index_of_release Full overflow_files = Some ix /\
    total_spec overflow_files Data = 4294967296 /\ total_size ix Data = 0 /\ has ix Data 1 = true.
Proof. eexists. repeat (split; [vm_compute; reflexivity|]). vm_compute; reflexivity. Qed.
Print Assumptions release_total_size_sum_refuted.

(* The index `prune` builds for itself (PrunePlan::from_prune_options: IndexType and sections
   regenerated from commands/prune.rs) retains trees only and is fed BOTH sections of every index
   file: a tree lookup succeeds exactly when the tree is listed anywhere — in `packs` or in
   `packs_to_delete` —, get_id returns one of those listings, data lookups never succeed, and
   the totals (which size prune's PackSizer) count the packs of both sections. *)
Theorem prune_index_has_iff_listed_anywhere : forall sort_e sort_i,
  sort_ok e_id sort_e -> sort_ok (fun x => x) sort_i ->
  forall files ix, prune_index_of_with sort_e sort_i files = Some ix ->
  forall id,
    has ix Tree id = listed_anywhere files Tree id /\
    has ix Data id = false /\
    get_id ix Data id = None /\
    is_some (get_id ix Tree id) = has ix Tree id /\
    (forall t' pk lc, get_id ix Tree id = Some (t', pk, lc) ->
       t' = Tree /\ In (pk, lc) (listings_in (all_packs files) Tree id)) /\
    (forall t, total_size ix t = total_in (all_packs files) t).
Proof.
  intros se si He Hi files ix H id. pose proof (prune_index H) as P.
  destruct (get_id_char He P Tree id) as (HT & HL). destruct (get_id_char He P Data id) as (HD & _).
  split; [exact (has_char He Hi P Tree id)|]. split; [exact (has_char He Hi P Data id)|].
  split; [destruct (get_id ix Data id); [discriminate HD|reflexivity]|].
  split; [exact HT|]. split; [exact HL|exact (total_size_char P)].
Qed.
Print Assumptions prune_index_has_iff_listed_anywhere.

Theorem listed_anywhere_is_listed_or_marked : forall files t id,
  listed_anywhere files t id = listed files t id || listed_in (marked files) t id.
Proof.
  intros files t id. unfold listed_anywhere, listed, all_packs, unmarked, marked.
  induction files as [|f fs IH]; cbn [flat_map]; [reflexivity|].
  rewrite !listed_in_app, IH.
  destruct (listed_in (packs f) t id), (listed_in (packs_to_delete f) t id),
           (listed_in (flat_map packs fs) t id); reflexivity.
Qed.
Print Assumptions listed_anywhere_is_listed_or_marked.

(* The index `check` builds for itself (check_packs: IndexType and sections regenerated from
   commands/check.rs) IS the Full index of GlobalIndex::new: every theorem above applies to it. *)
Theorem check_index_is_full_global_index : forall sort_e sort_i files,
  check_index_of_with sort_e sort_i files = index_of_with sort_e sort_i Full files.
Proof. exact (fun _ _ _ => eq_refl). Qed.
Print Assumptions check_index_is_full_global_index.

(* GlobalIndex level: blob_from_backend reads exactly one listed location — the partial read goes
   to the listed pack, with cacheable = (type is tree), at the listed offset and length, and the
   listed uncompressed length is what the decoder gets; `None` (the "not found in index" error)
   exactly when get_id finds nothing.  Backend read and decryption are arbitrary functions. *)
Theorem blob_read_uses_listed_location : forall sort_e sort_i, sort_ok e_id sort_e ->
  forall m files ix, index_of_with sort_e sort_i m files = Some ix ->
  forall (R : Type) (rp : N -> bool -> N -> N -> R) (dec : R -> option N -> R) t id,
    match blob_from_backend rp dec ix t id with
    | Some r => exists pk lc, In (pk, lc) (listings files t id) /\
                              r = dec (rp pk (is_cacheable t) (off lc) (len lc)) (ulen lc)
    | None => get_id ix t id = None
    end.
Proof.
  intros se si He m files ix H R rp dec t id. unfold blob_from_backend, blob_read_request.
  destruct (get_id ix t id) as [[[t' pk] lc]|] eqn:E; [|reflexivity].
  destruct (get_id_is_a_listing se si He m files ix H t id t' pk lc E) as (-> & Hin).
  exists pk, lc. split; [assumption|reflexivity].
Qed.
Print Assumptions blob_read_uses_listed_location.

(* the typed convenience wrappers are the typed lookups *)
Theorem typed_wrappers : forall sort_e sort_i,
  sort_ok e_id sort_e -> sort_ok (fun x => x) sort_i ->
  forall m files ix, index_of_with sort_e sort_i m files = Some ix ->
  forall id, has_tree ix id = listed files Tree id /\
             has_data ix id = retains m Data && listed files Data id /\
             get_tree ix id = get_id ix Tree id /\ get_data ix id = get_id ix Data id.
Proof.
  intros se si He Hi m files ix H id. pose proof (has_char He Hi (checked_index m H)) as Hh.
  split; [unfold has_tree; rewrite Hh; destruct m; reflexivity|].
  split; [exact (Hh Data id)|split; reflexivity].
Qed.
Print Assumptions typed_wrappers.

Definition L (o l : N) (u : option N) : loc := {| off := o; len := l; ulen := u |}.
Definition ex_files : list ifile :=
  [ {| packs := [ {| pid := 101; blobs := [ {| bid := 10; btpe := Tree; bloc := L 0 50 None |};
                                            {| bid := 11; btpe := Tree; bloc := L 50 60 (Some 200) |} ]; psize := None |};
                  {| pid := 102; blobs := [ {| bid := 10; btpe := Data; bloc := L 0 70 None |};      (* same id, other type *)
                                            {| bid := 20; btpe := Data; bloc := L 70 80 None |} ]; psize := None |};
                  {| pid := 103; blobs := []; psize := Some 36 |} ];                                   (* empty pack *)
       packs_to_delete := [ {| pid := 104; blobs := [ {| bid := 30; btpe := Data; bloc := L 0 90 None |} ]; psize := None |} ] |};
    {| packs := [ {| pid := 105; blobs := [ {| bid := 20; btpe := Data; bloc := L 5 80 None |} ]; psize := Some 1000 |} ];  (* duplicate *)
       packs_to_delete := [] |} ].

(* the premise `index_of ... = Some ix` of the theorems holds, lookups succeed and fail, the id
   that only a marked pack lists is absent, totals are the listed sizes.  (In these examples the
   index is evaluated first, so that the other conjuncts are evaluated on it, not decided by
   unification.) *)
Example ex_full : exists ix, index_of Full ex_files = Some ix /\
  has ix Tree 10 = true /\ has ix Data 10 = true /\ has ix Tree 20 = false /\ has ix Data 30 = false /\
  get_id ix Tree 11 = Some (Tree, 101, L 50 60 (Some 200)) /\
  In (get_id ix Data 20) [Some (Data, 102, L 70 80 None); Some (Data, 105, L 5 80 None)] /\
  listings ex_files Data 20 = [(102, L 70 80 None); (105, L 5 80 None)] /\
  total_size ix Tree = 36 + 50 + 37 + 60 + 41 /\ total_size ix Data = (36 + 70 + 37 + 80 + 37) + 36 + 1000.
Proof. eexists. split; [vm_compute; reflexivity|]. vm_compute. repeat split; auto. Qed.

Example ex_data_ids : exists ix, index_of DataIds ex_files = Some ix /\
  has ix Data 20 = true /\ get_id ix Data 20 = None /\ has ix Data 30 = false /\
  has ix Tree 10 = true /\ get_id ix Tree 10 = Some (Tree, 101, L 0 50 None).
Proof. eexists. split; [vm_compute; reflexivity|]. vm_compute. repeat split; auto. Qed.

Example ex_only_trees : exists ix, index_of OnlyTrees ex_files = Some ix /\
  has ix Data 20 = false /\ has ix Tree 11 = true /\ total_size ix Data = 1296.
Proof. eexists. split; [vm_compute; reflexivity|]. vm_compute. repeat split; auto. Qed.

(* the panic case exists too: a header-derived pack size that does not fit u32 *)
Example ex_overflow :
  index_of Full [ {| packs := [ {| pid := 1; blobs := [ {| bid := 1; btpe := Data; bloc := L 0 4294967295 None |} ];
                                   psize := None |} ]; packs_to_delete := [] |} ] = None.
Proof. vm_compute. reflexivity. Qed.

Example ex_into_iter : exists ix, index_of Full ex_files = Some ix /\
  map pid (into_iter ix) = [101; 102; 103; 105] /\
  map (fun p => length (blobs p)) (into_iter ix) = [2; 2; 0; 1]%nat.
Proof. eexists. split; [vm_compute; reflexivity|]. vm_compute. repeat split; auto. Qed.

(* prune's index sees the tree that only a marked pack lists; the loader of GlobalIndex does not *)
Definition ex_marked_tree : list ifile :=
  [ {| packs := [ {| pid := 201; blobs := [ {| bid := 40; btpe := Tree; bloc := L 0 50 None |} ]; psize := None |} ];
       packs_to_delete := [ {| pid := 202; blobs := [ {| bid := 41; btpe := Tree; bloc := L 7 60 (Some 99) |} ]; psize := Some 500 |} ] |} ].
Example ex_prune : exists ixp ixg, prune_index_of ex_marked_tree = Some ixp /\ index_of Full ex_marked_tree = Some ixg /\
  has ixp Tree 41 = true /\ has ixg Tree 41 = false /\ has ixp Tree 40 = true /\
  get_id ixp Tree 41 = Some (Tree, 202, L 7 60 (Some 99)) /\
  total_size ixp Tree = 123 + 500 /\ total_size ixg Tree = 123.
Proof. do 2 eexists. do 2 (split; [vm_compute; reflexivity|]). vm_compute. repeat split; auto. Qed.

(* the read blob_from_backend asks of the backend *)
Example ex_blob_read : exists ix, index_of Full ex_files = Some ix /\
  blob_read_request ix Tree 11 = Some {| r_pack := 101; r_cacheable := true; r_off := 50; r_len := 60; r_ulen := Some 200 |} /\
  blob_read_request ix Data 10 = Some {| r_pack := 102; r_cacheable := false; r_off := 0; r_len := 70; r_ulen := None |} /\
  blob_read_request ix Data 30 = None.
Proof. eexists. split; [vm_compute; reflexivity|]. vm_compute. repeat split; auto. Qed.

(* boundary of the u32 pack size: 36 + 4294967222 + 37 = 2^32 - 1 fits *)
Example ex_boundary : exists ix,
  index_of Full [ {| packs := [ {| pid := 1; blobs := [ {| bid := 1; btpe := Data; bloc := L 0 4294967222 None |} ]; psize := None |} ];
                     packs_to_delete := [] |} ] = Some ix /\ total_size ix Data = 4294967295.
Proof. eexists. split; [vm_compute; reflexivity|]. vm_compute. repeat split; auto. Qed.
