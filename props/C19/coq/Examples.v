(* C19 — examples next to the theorems of Props.v: the hypotheses are satisfiable and the
   conclusions are not vacuous. *)
From Verif.Base Require Import Tactics.
From Verif.C19 Require Import Types Extracted Model Spec Commands Proofs.

Definition ex_content (k : key) : bytes := [snd k; 7%N; 7%N].
Definition ex_be : fmap := [((Snapshot, 1%N), ex_content (Snapshot, 1%N)); ((Index, 2%N), ex_content (Index, 2%N))].
(* stale (3), truncated (1), foreign-but-honest (9) canonical files and a stray *)
Definition ex_cache : cache :=
  mkcache [((Snapshot, 3%N), ex_content (Snapshot, 3%N)); ((Snapshot, 1%N), [1%N; 7%N]);
           ((Snapshot, 9%N), ex_content (Snapshot, 9%N)); ((Index, 2%N), ex_content (Index, 2%N))]
          [((Snapshot, 4%N), 3%nat)].

Example ex_hypotheses : BeHonest ex_content ex_be /\ CacheFaulty ex_content ex_cache.
Proof.
  split.
  - intros k d [H|[H|[]]]; inv H; reflexivity.
  - intros k d. apply (find_Forall (fun p => snd p = ex_content (fst p) \/ length (snd p) <> length (ex_content (fst p)))).
    repeat apply Forall_cons; [left; reflexivity | right; simpl; lia | left; reflexivity | left; reflexivity | apply Forall_nil].
Qed.

(* the listing removes the stale, the truncated and the foreign file, keeps the index file *)
Example ex_listing :
  files (cch (snd (cb_list (mkst ex_cache ex_be) Snapshot []))) = [((Index, 2%N), ex_content (Index, 2%N))].
Proof. vm_compute. reflexivity. Qed.

(* list-then-read from that state: read of the truncated file, of the stale file, a write, a remove *)
Example ex_list_then_read :
  let ops := [OReadFull Snapshot 1%N; OReadFull Snapshot 3%N;
              OWrite Snapshot 5%N false true (ex_content (Snapshot, 5%N)); OReadPartial Snapshot 5%N false 1 2;
              ORemove Snapshot 1%N false; OReadFull Snapshot 1%N] in
  Forall (op_honest ex_content) ops /\
  forallb (fun o => own_op o && ft_eqb (op_type o) Snapshot) ops = true /\
  fst (run_c (OList Snapshot [] :: ops) (mkst ex_cache ex_be)) =
    [RList [(1%N, 3%nat)]; RData (Some [1%N; 7%N; 7%N]); RData None; RUnit true; RData (Some [7%N; 7%N]);
     RUnit true; RData None].
Proof.
  cbv zeta. split; [repeat constructor|]. split; vm_compute; reflexivity.
Qed.

Example ex_truncated_served_without_listing :
  fst (cb_read_full (mkst ex_cache ex_be) Snapshot 1%N) = RData (Some [1%N; 7%N]).
Proof. vm_compute. reflexivity. Qed.

(* an interleaved, disciplined history: another handle removes a snapshot, a file is
   truncated in the cache, the cached handle lists and reads *)
Example ex_disciplined :
  let ops := [OReadFull Snapshot 1%N; EBeRemove Snapshot 1%N; EPlant Index 2%N [2%N];
              OList Snapshot []; OReadFull Snapshot 1%N; OList Index []; OReadFull Index 2%N] in
  disciplined all_coh ops = true /\ Forall (op_honest ex_content) ops /\
  fst (run_c ops (mkst (mkcache [] []) ex_be)) = fst (run_u ops ex_be).
Proof.
  cbv zeta. split; [vm_compute; reflexivity|]. split; [|vm_compute; reflexivity].
  repeat match goal with |- Forall _ _ => constructor end; try exact I.
  right. simpl. lia.
Qed.

(* forget (get_all_snapshots = update_from_backend, then delete), while another process adds
   a snapshot and a truncated index file appears in the cache; then a backup (latest snapshot as
   parent, index read, new index and snapshot written), then prune's reading of the snapshots;
   from the faulty cache ex_cache *)
Definition ex_history : list hitem :=
  [ HStep (CAccess SnapUpdateFromBackend Snapshot [] [1%N]);
    HStep (CRemove Snapshot 1%N false);
    HEnv (EBeWrite Snapshot 6%N (ex_content (Snapshot, 6%N)));
    HEnv (EPlant Index 2%N [2%N]);
    HStep (CAccess SnapLatest Snapshot [] [6%N]);
    HStep (CAccess IndexOnlyFullTrees Index [] [2%N]);
    HStep (CWrite Index 8%N false (ex_content (Index, 8%N)));
    HStep (CWrite Snapshot 7%N false (ex_content (Snapshot, 7%N)));
    HStep (CAccess StreamAll Snapshot [] [7%N]) ].

Example ex_commands :
  forallb good_item ex_history = true /\
  Forall (op_honest ex_content) (history_ops ex_history) /\
  fst (run_c (history_ops ex_history) (mkst ex_cache ex_be)) = fst (run_u (history_ops ex_history) ex_be) /\
  (* not vacuous: the truncated snapshot 1 would have been served without the listing *)
  In (RData (Some (ex_content (Snapshot, 1%N)))) (fst (run_c (history_ops ex_history) (mkst ex_cache ex_be))).
Proof.
  split; [vm_compute; reflexivity|]. split.
  - vm_compute. repeat match goal with |- Forall _ _ => constructor end; try exact I; try reflexivity.
    right. simpl. lia.
  - split; [vm_compute; reflexivity|]. vm_compute. tauto.
Qed.

(* the un-listed reader: the stale snapshot 3 of ex_cache read by its full id *)
Example ex_explicit_id :
  unlisted_access (CAccess SnapFromStrId Snapshot [] [3%N]) = true /\
  fst (run_c (cstep_ops (CAccess SnapFromStrId Snapshot [] [3%N])) (mkst ex_cache ex_be)) = [RData (Some (ex_content (Snapshot, 3%N)))] /\
  fst (run_u (cstep_ops (CAccess SnapFromStrId Snapshot [] [3%N])) ex_be) = [RData None].
Proof. vm_compute. auto. Qed.

(* check with a stale (4), a truncated (5) and a good (6) tree pack in the cache *)
Definition ex_be_packs : fmap :=
  ex_be ++ [((Pack, 5%N), ex_content (Pack, 5%N)); ((Pack, 6%N), ex_content (Pack, 6%N))].
Definition ex_cache_packs : cache :=
  mkcache (files ex_cache ++ [((Pack, 4%N), ex_content (Pack, 4%N)); ((Pack, 5%N), [5%N]); ((Pack, 6%N), ex_content (Pack, 6%N))]) [].
Example ex_check :
  let pre := [HStep (CListSize Snapshot []); HStep (CListSize Index []); HStep (CAccess StreamAll Index [] [2%N])] in
  let l := [(5%N, 3%nat); (6%N, 3%nat)] in
  let post := [OReadPartial Pack 5%N true 1 2; OReadPartial Pack 6%N true 0 3; OReadPartial Pack 4%N true 0 1; OReadFull Pack 5%N] in
  forallb good_item pre = true /\ PacksListed l (snd (run_u (history_ops pre) ex_be_packs)) /\
  forallb pack_read post = true /\
  fst (run_c (history_ops pre ++ OCleanPacks l [] :: post) (mkst ex_cache_packs ex_be_packs)) =
  fst (run_u (history_ops pre ++ OCleanPacks l [] :: post) ex_be_packs) /\
  files (cch (snd (run_c (history_ops pre ++ [OCleanPacks l []]) (mkst ex_cache_packs ex_be_packs)))) =
    [((Index, 2%N), ex_content (Index, 2%N)); ((Pack, 6%N), ex_content (Pack, 6%N))].
Proof.
  cbv zeta. split; [vm_compute; reflexivity|]. split.
  - intros i n H. simpl in H. destruct H as [H|[H|[]]]; inv H; vm_compute; eauto.
  - split; [vm_compute; reflexivity|]. split; vm_compute; reflexivity.
Qed.

(* the steps of ex_history are steps of forget, backup and prune *)
Example ex_cmd_items : Forall cmd_item ex_history.
Proof.
  unfold ex_history.
  repeat (constructor;
          [first [ reflexivity
                 | exists CmdForgetAll; split; vm_compute; reflexivity
                 | exists CmdBackup; split; vm_compute; reflexivity
                 | exists CmdPrune; split; vm_compute; reflexivity ] |]).
  constructor.
Qed.

(* tree-pack reads without clean-up: pack 5 truncated, pack 6 good, pack 4 stale (not read) *)
Example ex_indexed_pack_reads :
  let ops := [OReadPartial Pack 5%N true 1 2; OReadPartial Pack 5%N true 0 1; OReadPartial Pack 6%N true 2 1; OReadPartial Pack 6%N false 0 9] in
  BeHonest ex_content ex_be_packs /\ PackPrefix ex_content ex_cache_packs /\ Forall (indexed_pack_read ex_be_packs) ops /\
  fst (run_c ops (mkst ex_cache_packs ex_be_packs)) = [RData (Some [7%N; 7%N]); RData (Some [5%N]); RData (Some [7%N]); RData None].
Proof.
  cbv zeta. split.
  - intros k d H. unfold ex_be_packs, ex_be in H. simpl in H. repeat (destruct H as [H|H]; [inv H; reflexivity|]). contradiction.
  - split.
    + intros i d F.
      refine (find_Forall (fun p => fst (fst p) = Pack -> is_prefix (snd p) (ex_content (fst p))) _ _ _ _ F eq_refl).
      repeat apply Forall_cons; try apply Forall_nil; intro E; try discriminate E;
        [exists [] | exists [7%N; 7%N] | exists []]; reflexivity.
    + split; [|vm_compute; reflexivity].
      repeat constructor; simpl; try lia; discriminate.
Qed.

(* check with trust_cache: a foreign, longer file under the id of tree pack 5 is still evicted
   by the size-based clean-up before the trees are read *)
Example ex_check_trust_cache :
  let c := mkcache [((Pack, 5%N), [9%N; 9%N; 9%N; 9%N; 9%N])] [] in
  let l := [(5%N, 3%nat); (6%N, 3%nat)] in
  let ops := check_cleanup true l [] ++ [OReadPartial Pack 5%N true 0 3] in
  CacheFaulty ex_content c /\
  fst (run_c ops (mkst c ex_be_packs)) = fst (run_u ops ex_be_packs) /\
  fst (run_c [OReadPartial Pack 5%N true 0 3] (mkst c ex_be_packs)) <> fst (run_u [OReadPartial Pack 5%N true 0 3] ex_be_packs).
Proof.
  cbv zeta. split.
  - intros k d F. right. simpl in F. destruct (key_eqbP k (Pack, 5%N)) as [->|]; [inv F; simpl; lia | discriminate].
  - split; vm_compute; [reflexivity | discriminate].
Qed.
