(* C19 — association-list maps; Cache::remove as an eviction; honest backends under writes
   and removals. *)
From Verif.Base Require Import Tactics.
From Verif.C19 Require Import Types Extracted Model Spec.

Lemma ft_eqbP a b : reflect (a = b) (ft_eqb a b).
Proof. destruct a, b; constructor; congruence. Qed.
Lemma ft_eqb_refl a : ft_eqb a a = true.
Proof. destruct a; reflexivity. Qed.

Lemma key_eqbP a b : reflect (a = b) (key_eqb a b).
Proof.
  destruct a as [t i], b as [t' i']. unfold key_eqb. cbn [fst snd].
  destruct (ft_eqbP t t') as [->|]; [destruct (N.eqb_spec i i') as [->|]|]; constructor; congruence.
Qed.
Lemma key_eqb_refl a : key_eqb a a = true.
Proof. destruct (key_eqbP a a); congruence. Qed.
Lemma key_eqb_sym a b : key_eqb a b = key_eqb b a.
Proof. destruct (key_eqbP a b), (key_eqbP b a); congruence. Qed.

Lemma find_del k k' m : find k (del k' m) = if key_eqb k k' then None else find k m.
Proof.
  induction m as [|[k2 v] m IH]; simpl; [destruct (key_eqb k k'); reflexivity|].
  destruct (key_eqbP k' k2) as [<-|N]; simpl; rewrite IH.
  - destruct (key_eqb k k'); reflexivity.
  - destruct (key_eqbP k k2) as [->|]; [|reflexivity]. destruct (key_eqbP k2 k'); congruence.
Qed.
Lemma find_set k k' v m : find k (set k' v m) = if key_eqb k k' then Some v else find k m.
Proof. unfold set. simpl. rewrite find_del. destruct (key_eqb k k'); reflexivity. Qed.
Lemma find_set_eq k v m : find k (set k v m) = Some v.
Proof. rewrite find_set, key_eqb_refl. reflexivity. Qed.
Lemma find_del_some k k' m d : find k (del k' m) = Some d -> find k m = Some d.
Proof. rewrite find_del. destruct (key_eqb k k'); [discriminate | auto]. Qed.
Lemma del_absent k m : find k m = None -> del k m = m.
Proof.
  induction m as [|[k2 v] m IH]; simpl; [reflexivity|].
  destruct (key_eqb k k2); [discriminate|]. intro F. simpl. rewrite IH by exact F. reflexivity.
Qed.

Lemma In_del p k m : In p (del k m) -> In p m.
Proof. unfold del. intro H. apply filter_In in H. tauto. Qed.
Lemma In_set k d k0 v m : In (k, d) (set k0 v m) -> (k = k0 /\ d = v) \/ In (k, d) m.
Proof. unfold set. simpl. intros [H|H]; [inv H; auto | right; eapply In_del; eauto]. Qed.
Lemma find_In k m d : find k m = Some d -> In (k, d) m.
Proof.
  induction m as [|[k' v] m IH]; simpl; [discriminate|].
  destruct (key_eqbP k k') as [->|]; [intro H; inv H|]; auto.
Qed.
Lemma In_find k d m : In (k, d) m -> exists d', find k m = Some d'.
Proof.
  induction m as [|[k' v] m IH]; simpl; [tauto|].
  intros [H|H]; [inv H; rewrite key_eqb_refl | destruct (key_eqb k k')]; eauto.
Qed.
(* a property of every entry, for maps given as explicit lists *)
Lemma find_Forall (P : key * bytes -> Prop) m k d : Forall P m -> find k m = Some d -> P (k, d).
Proof. intros H F. exact (proj1 (Forall_forall P m) H _ (find_In _ _ _ F)). Qed.

(* Cache::remove with its error dropped, as CachedBackend::remove and (when a failing removal
   does not stop it) remove_not_in_list use it: afterwards the file is not there *)
Definition evict (c : cache) (t : ftype) (i : id) : cache := mkcache (del (t, i) (files c)) (strays c).

Lemma c_remove_evict c t i : match c_remove c t i with Some c' => c' | None => c end = evict c t i.
Proof.
  unfold c_remove, evict. destruct (find (t, i) (files c)) eqn:F; [reflexivity|].
  rewrite del_absent by exact F. destruct c; reflexivity.
Qed.
Lemma c_remove_none c t i : c_remove c t i = None <-> find (t, i) (files c) = None.
Proof. unfold c_remove. destruct (find (t, i) (files c)); split; (discriminate || reflexivity). Qed.
Lemma find_evict t' i c t j :
  find (t', i) (files (evict c t j)) = if ft_eqb t' t && N.eqb i j then None else find (t', i) (files c).
Proof. apply find_del. Qed.
Lemma evict_le c t i : cache_le (evict c t i) c.
Proof. intros k d. apply find_del_some. Qed.

Lemma cache_le_refl c : cache_le c c.
Proof. intros k d H. exact H. Qed.
Lemma cache_le_trans a b c : cache_le a b -> cache_le b c -> cache_le a c.
Proof. intros H1 H2 k d H. auto. Qed.
Lemma CacheFaulty_le content c c' : CacheFaulty content c -> cache_le c' c -> CacheFaulty content c'.
Proof. intros H L k d F. apply H. apply L. exact F. Qed.
Lemma CoherentT_le t c c' be : CoherentT t c be -> cache_le c' c -> CoherentT t c' be.
Proof. intros H L i d F. apply H. apply L. exact F. Qed.

Section Honest.
Variable content : key -> bytes.

Lemma BeHonest_find be k d : BeHonest content be -> find k be = Some d -> d = content k.
Proof. intros H F. apply (H k d). apply find_In. exact F. Qed.
Lemma BeHonest_set be k : BeHonest content be -> BeHonest content (set k (content k) be).
Proof. intros H k' d I. apply In_set in I. destruct I as [[-> ->]|I]; [reflexivity | eauto]. Qed.
Lemma BeHonest_del be k : BeHonest content be -> BeHonest content (del k be).
Proof. intros H k' d I. apply In_del in I. eauto. Qed.
Lemma BeHonest_set_same be k : BeHonest content be -> forall k', find k' (set k (content k) be) = Some (content k') \/ find k' (set k (content k) be) = find k' be.
Proof.
  intros H k'. rewrite find_set. destruct (key_eqbP k' k) as [->|]; auto.
Qed.

End Honest.
