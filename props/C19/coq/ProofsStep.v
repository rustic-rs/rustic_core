(* C19 — single-step simulation (cached handle vs. no cache) and histories. *)
From Verif.Base Require Import Tactics.
From Verif.C19 Require Import Types Extracted Model Spec Proofs ProofsList.

Lemma upd_same coh t b : upd coh t b t = b.
Proof. unfold upd. rewrite ft_eqb_refl. reflexivity. Qed.
Lemma upd_other coh t b t' : t' <> t -> upd coh t b t' = coh t'.
Proof. intro N. unfold upd. destruct (ft_eqbP t' t); [contradiction | reflexivity]. Qed.

Lemma slice_prefix off len a r : (off + len <= length a)%nat -> slice off len (a ++ r) = slice off len a.
Proof.
  intro H. unfold slice. rewrite skipn_app, firstn_app, skipn_length.
  replace (off - length a)%nat with 0%nat by lia.
  replace (len - (length a - off))%nat with 0%nat by lia. apply app_nil_r.
Qed.

Lemma be_remove_spec be t i :
  be_remove be t i = (if find (t, i) be then true else false, del (t, i) be).
Proof.
  unfold be_remove. destruct (find (t, i) be) eqn:F; [|rewrite del_absent by exact F]; reflexivity.
Qed.
Lemma cb_remove_spec s t i c :
  cb_remove s t i c = (RUnit (if find (t, i) (bke s) then true else false),
                       mkst (if guard_remove t c then evict (cch s) t i else cch s) (del (t, i) (bke s))).
Proof. unfold cb_remove. rewrite be_remove_spec, c_remove_evict. reflexivity. Qed.

Inductive filled (s : st) (t : ftype) (i : id) : st -> Prop :=
| filled_same : filled s t i s
| filled_fill d : find (t, i) (bke s) = Some d -> filled s t i (mkst (c_write (cch s) t i d) (bke s)).

Lemma read_full_filled s t i : filled s t i (snd (cb_read_full s t i)).
Proof.
  unfold cb_read_full, be_read_full. destruct (guard_read_full t false); [|left].
  destruct (c_read_full (cch s) t i); [left | |];
    (destruct (find (t, i) (bke s)) eqn:F; [right; exact F | left]).
Qed.
Lemma read_partial_filled s t i cf off len : filled s t i (snd (cb_read_partial s t i cf off len)).
Proof.
  unfold cb_read_partial, be_read_full. destruct (guard_read_partial t cf); [|left].
  destruct (c_read_partial (cch s) t i off len); [left | |];
    (destruct (find (t, i) (bke s)) as [d|] eqn:F; [destruct (off + len <=? length d)%nat; right; exact F | left]).
Qed.

Lemma read_full_same c be t i :
  (guard_read_full t false = true -> forall d, find (t, i) (files c) = Some d -> find (t, i) be = Some d) ->
  fst (cb_read_full (mkst c be) t i) = RData (be_read_full be t i).
Proof.
  intro H. unfold cb_read_full, c_read_full, be_read_full. cbn [cch bke].
  destruct (guard_read_full t false); [|reflexivity].
  destruct (find (t, i) (files c)) as [d|].
  - rewrite (H eq_refl _ eq_refl). reflexivity.
  - destruct (find (t, i) be); reflexivity.
Qed.

(* the cached file may be only a prefix of the backend's: a read inside it is served from the
   cache, a read past its end is an error of the cache and falls through to the backend *)
Lemma read_partial_same c be t i cf off len :
  (0 < len)%nat ->
  (guard_read_partial t cf = true ->
   forall dc, find (t, i) (files c) = Some dc -> exists r, find (t, i) be = Some (dc ++ r)) ->
  fst (cb_read_partial (mkst c be) t i cf off len) = RData (be_read_partial be t i off len).
Proof.
  intros Hl H. unfold cb_read_partial, c_read_partial, be_read_partial, be_read_full. cbn [cch bke].
  destruct (guard_read_partial t cf); [|reflexivity].
  destruct (find (t, i) (files c)) as [dc|].
  - destruct (H eq_refl _ eq_refl) as [r ->]. replace (len =? 0)%nat with false by (symmetry; apply Nat.eqb_neq; lia).
    cbn [orb]. destruct (off + len <=? length dc)%nat eqn:E.
    + apply Nat.leb_le in E. rewrite slice_prefix by exact E.
      replace (off + len <=? length (dc ++ r))%nat with true; [reflexivity|].
      symmetry. apply Nat.leb_le. rewrite app_length. lia.
    + destruct (off + len <=? length (dc ++ r))%nat; reflexivity.
  - destruct (find (t, i) be) as [d|]; [destruct (off + len <=? length d)%nat|]; reflexivity.
Qed.

Lemma read_partial_uncached c be t i cf off len :
  guard_read_partial t cf = false ->
  fst (cb_read_partial (mkst c be) t i cf off len) = RData (be_read_partial be t i off len).
Proof. intro G. unfold cb_read_partial. rewrite G. reflexivity. Qed.

Lemma read_partial_repairs c be t i cf dc d off len :
  guard_read_partial t cf = true -> find (t, i) (files c) = Some dc -> find (t, i) be = Some d ->
  (0 < len)%nat -> (length dc < off + len)%nat ->
  snd (cb_read_partial (mkst c be) t i cf off len) = mkst (c_write c t i d) be.
Proof.
  intros G Fc Fb Hl L. unfold cb_read_partial, c_read_partial, be_read_full. cbn [cch bke]. rewrite G, Fc, Fb.
  replace (len =? 0)%nat with false by (symmetry; apply Nat.eqb_neq; lia).
  replace (off + len <=? length dc)%nat with false by (symmetry; apply Nat.leb_gt; exact L).
  cbn [orb]. destruct (off + len <=? length d)%nat; reflexivity.
Qed.

Lemma step_be o s : bke (snd (step_c o s)) = snd (step_u o (bke s)).
Proof.
  destruct o; cbn [step_c step_u]; rewrite ?cb_remove_spec, ?be_remove_spec; try reflexivity.
  - destruct (read_full_filled s t i); reflexivity.
  - destruct (read_partial_filled s t i c off len); reflexivity.
  - unfold cb_write. destruct okb; reflexivity.
Qed.

Lemma run_step_c o r s :
  run_c (o :: r) s = (fst (step_c o s) :: fst (run_c r (snd (step_c o s))), snd (run_c r (snd (step_c o s)))).
Proof. simpl. destruct (step_c o s) as [x s1]. simpl. destruct (run_c r s1). reflexivity. Qed.
Lemma run_step_u o r b :
  run_u (o :: r) b = (fst (step_u o b) :: fst (run_u r (snd (step_u o b))), snd (run_u r (snd (step_u o b)))).
Proof. simpl. destruct (step_u o b) as [x b1]. simpl. destruct (run_u r b1). reflexivity. Qed.

Lemma run_c_app a : forall b s,
  run_c (a ++ b) s = (fst (run_c a s) ++ fst (run_c b (snd (run_c a s))), snd (run_c b (snd (run_c a s)))).
Proof.
  induction a as [|o a IH]; intros b s.
  - simpl. destruct (run_c b s). reflexivity.
  - rewrite <- app_comm_cons. rewrite !run_step_c. rewrite IH. reflexivity.
Qed.
Lemma run_u_app a : forall b s,
  run_u (a ++ b) s = (fst (run_u a s) ++ fst (run_u b (snd (run_u a s))), snd (run_u b (snd (run_u a s)))).
Proof.
  induction a as [|o a IH]; intros b s.
  - simpl. destruct (run_u b s). reflexivity.
  - rewrite <- app_comm_cons. rewrite !run_step_u. rewrite IH. reflexivity.
Qed.

Section Step.
Variable content : key -> bytes.

Lemma step_res coh o c be :
  CoherentOn coh c be -> op_honest content o ->
  (needs_coh o = true -> coh (op_type o) = true) ->
  fst (step_c o (mkst c be)) = fst (step_u o be).
Proof.
  intros H Ho Hn. destruct o; cbn [step_c step_u]; rewrite ?cb_remove_spec, ?be_remove_spec; try reflexivity.
  - apply read_full_same. intros G. apply (H t (Hn G)).
  - apply read_partial_same; [exact Ho|]. intros G dc F. exists []. rewrite app_nil_r. exact (H t (Hn G) _ _ F).
  - unfold cb_write. destruct okb; reflexivity.
Qed.

Hypothesis Hee : early_exit = false.

Definition Inv (coh : ftype -> bool) (c : cache) (be : fmap) : Prop :=
  BeHonest content be /\ CacheFaulty content c /\ CoherentOn coh c be.

(* the invariant name by name: a step rewrites or drops the cache entry and the backend entry of
   one name, or only takes files out of the cache *)
Lemma Inv_entries coh c be :
  Inv coh c be <->
  BeHonest content be /\
  forall t i d, find (t, i) (files c) = Some d ->
    (d = content (t, i) \/ length d <> length (content (t, i))) /\ (coh t = true -> find (t, i) be = Some d).
Proof.
  split.
  - intros (HB & HC & H). split; [exact HB|]. intros t i d F. split; [exact (HC _ _ F) | intro E; exact (H t E i d F)].
  - intros [HB K]. split; [exact HB|]. split; [intros [t i] d F | intros t E i d F]; apply (K t i d F). exact E.
Qed.

Lemma Inv_le coh c c' be : Inv coh c be -> cache_le c' c -> Inv coh c' be.
Proof.
  intros I L. apply Inv_entries. apply Inv_entries in I. split; [apply I|]. intros t i d F. apply I, L, F.
Qed.

Lemma Inv_drop coh c be t : Inv coh c be -> Inv (upd coh t false) c be.
Proof.
  intro I. apply Inv_entries. apply Inv_entries in I. split; [apply I|]. intros t0 i d F.
  split; [apply (proj2 I _ _ _ F)|]. unfold upd. destruct (ft_eqb t0 t); [discriminate | apply (proj2 I _ _ _ F)].
Qed.

Lemma Inv_write coh c be t i d :
  Inv coh c be -> d = content (t, i) \/ length d <> length (content (t, i)) ->
  (coh t = true -> find (t, i) be = Some d) -> Inv coh (c_write c t i d) be.
Proof.
  intros I Hd Hc. apply Inv_entries. apply Inv_entries in I. destruct I as [HB K].
  split; [exact HB|]. intros t0 i0 d0. cbn [c_write files]. rewrite find_set.
  destruct (key_eqbP (t0, i0) (t, i)) as [E|]; [|apply K]. injection E as -> ->. intros [= <-]. auto.
Qed.

Lemma Inv_filled coh c be t i s' : Inv coh c be -> filled (mkst c be) t i s' -> Inv coh (cch s') (bke s').
Proof.
  intros I [|d F]; cbn [cch bke] in *; [exact I|].
  apply Inv_write; [exact I | left; exact (BeHonest_find _ _ _ _ (proj1 I) F) | intros _; exact F].
Qed.

Lemma Inv_plant coh c be t i d :
  Inv coh c be -> d = content (t, i) \/ length d <> length (content (t, i)) ->
  Inv (upd coh t false) (c_write c t i d) be.
Proof.
  intros I Hd. apply Inv_write; [exact (Inv_drop _ _ _ t I) | exact Hd | rewrite upd_same; discriminate].
Qed.

Lemma Inv_be_set coh c be t i : Inv coh c be -> Inv coh c (set (t, i) (content (t, i)) be).
Proof.
  intro I. apply Inv_entries. apply Inv_entries in I. destruct I as [HB K].
  split; [apply BeHonest_set, HB|]. intros t0 i0 d0 F. destruct (K _ _ _ F) as [A B]. split; [exact A|].
  intro E. specialize (B E). rewrite find_set. destruct (key_eqbP (t0, i0) (t, i)) as [Q|]; [|exact B].
  rewrite Q in B. rewrite (BeHonest_find _ _ _ _ HB B). reflexivity.
Qed.

Lemma Inv_be_del coh c be t i : Inv coh c be -> Inv (upd coh t false) c (del (t, i) be).
Proof.
  intro I. apply (Inv_drop _ _ _ t) in I. apply Inv_entries. apply Inv_entries in I. destruct I as [HB K].
  split; [apply BeHonest_del, HB|]. intros t0 i0 d0 F. destruct (K _ _ _ F) as [A B]. split; [exact A|].
  intro E. rewrite find_del. destruct (key_eqbP (t0, i0) (t, i)) as [Q|]; [|exact (B E)].
  injection Q as -> ->. rewrite upd_same in E. discriminate.
Qed.

Lemma Inv_remove coh c be t i : Inv coh c be -> Inv coh (evict c t i) (del (t, i) be).
Proof.
  intro I. apply Inv_entries. apply Inv_entries in I. destruct I as [HB K].
  split; [apply BeHonest_del, HB|]. intros t0 i0 d0. cbn [evict files]. rewrite !find_del.
  destruct (key_eqb (t0, i0) (t, i)); [discriminate | apply K].
Qed.

Lemma Inv_listed coh c be t l ord :
  Inv coh c be -> Listed t l be -> Inv (upd coh t true) (fst (remove_not_in_list c t l ord)) be.
Proof.
  intros I HL. pose proof (Inv_le _ _ _ _ I (rnl_le Hee c t l ord)) as I'. destruct I as (HB & HC & _).
  apply Inv_entries. apply Inv_entries in I'. split; [exact HB|]. intros t' i d F.
  split; [apply (proj2 I' _ _ _ F)|]. destruct (ft_eqbP t' t) as [->|N].
  - intros _. exact (rnl_coherent Hee content _ _ _ _ _ HB HC HL _ _ F).
  - rewrite upd_other by exact N. apply (proj2 I' _ _ _ F).
Qed.

Lemma step_inv coh o c be :
  Inv coh c be -> op_honest content o ->
  let s' := snd (step_c o (mkst c be)) in Inv (coh_after coh o) (cch s') (bke s').
Proof.
  intros I Ho.
  destruct o; cbn [step_c coh_after op_honest] in *; rewrite ?cb_remove_spec, ?be_remove_spec; cbn [snd cch bke].
  - exact (Inv_filled _ _ _ t i _ I (read_full_filled _ t i)).
  - exact (Inv_filled _ _ _ t i _ I (read_partial_filled _ t i _ _ _)).
  - (* write: the cache first, then the backend, which may refuse *)
    subst d. unfold cb_write. cbn [cch bke]. destruct okb, (guard_write_bytes t c0); cbn [snd cch bke].
    + (* the backend takes the honest content, and the cache is filled from it *)
      apply (Inv_filled coh c _ t i (mkst _ _) (Inv_be_set _ _ _ t i I)), filled_fill, find_set_eq.
    + exact (Inv_be_set _ _ _ t i I).
    + apply Inv_plant; auto.
    + exact (Inv_drop _ _ _ t I).
  - destruct (guard_remove t c0); [exact (Inv_remove _ _ _ t i I) | exact (Inv_be_del _ _ _ t i I)].
  - unfold cb_list. cbn [snd cch bke]. destruct (guard_list_with_size t false); [|exact I].
    apply Inv_listed; [exact I | apply (be_list_listed content), I].
  - (* coh_after credits OCleanPacks nothing, its list being arbitrary; for a list that agrees with
       the backend see ProofsCmd.cleanup_history *)
    exact (Inv_le _ _ _ _ I (rnl_le Hee _ _ _ _)).
  - subst d. exact (Inv_be_set _ _ _ t i I).
  - exact (Inv_be_del _ _ _ t i I).
  - apply Inv_plant; assumption.
  - exact I.
  - exact (Inv_le _ _ _ _ I (evict_le c t i)).
Qed.

Definition final_coh (coh : ftype -> bool) (ops : list op) : ftype -> bool := fold_left coh_after ops coh.

Lemma disciplined_app a : forall coh b,
  disciplined coh (a ++ b) = disciplined coh a && disciplined (final_coh coh a) b.
Proof.
  induction a as [|o a IH]; intros coh b; simpl; [reflexivity|].
  rewrite IH. unfold final_coh. simpl. rewrite andb_assoc. reflexivity.
Qed.

Lemma history ops : forall coh c be,
  BeHonest content be -> CacheFaulty content c -> CoherentOn coh c be ->
  Forall (op_honest content) ops -> disciplined coh ops = true ->
  fst (run_c ops (mkst c be)) = fst (run_u ops be) /\
  bke (snd (run_c ops (mkst c be))) = snd (run_u ops be) /\
  BeHonest content (snd (run_u ops be)) /\
  CacheFaulty content (cch (snd (run_c ops (mkst c be)))) /\
  CoherentOn (final_coh coh ops) (cch (snd (run_c ops (mkst c be)))) (snd (run_u ops be)).
Proof.
  induction ops as [|o r IH]; intros coh c be HB HC H Ho D.
  - simpl. auto.
  - rewrite run_step_c, run_step_u. cbn [fst snd].
    inversion Ho as [|? ? Ho1 Ho2]. subst.
    simpl in D. apply andb_true_iff in D. destruct D as [D1 D2].
    assert (Hn : needs_coh o = true -> coh (op_type o) = true) by (intro N; rewrite N in D1; exact D1).
    rewrite (step_res coh o c be H Ho1 Hn), <- (step_be o (mkst c be) : _ = snd (step_u o be)).
    destruct (step_inv coh o c be (conj HB (conj HC H)) Ho1) as [HB' [HC' H']].
    destruct (snd (step_c o (mkst c be))) as [c1 b1]. cbn [cch bke] in *.
    destruct (IH (coh_after coh o) c1 b1 HB' HC' H' Ho2 D2) as [I1 I]. rewrite I1. auto.
Qed.
End Step.
