(* C19 — property theorems.  Model.v mirrors backend/cache.rs (Cache + CachedBackend) over a
   backend that is an exact finite map; the facts of Extracted.v (`is_cacheable`, the guards of
   the five CachedBackend methods, `early_exit`, `lists_strays`, the reader and command tables)
   are regenerated from the source on every run.  `content` (the byte string a name stands
   for: ids are content hashes) is universally quantified; nothing is assumed about it. *)
From Verif.Base Require Import Tactics.
From Verif.C19 Require Import Types Extracted Model Spec Proofs Commands ProofsList ProofsStep ProofsTop ProofsStray ProofsCmd Examples.

(* Over an honest backend: if every cached file equals the backend file of the same name, then
   EVERY sequence of own, honest operations of the cached handle (own_op: reads, partial reads
   - of at least one byte: op_honest -, writes that the backend accepts, removals that carry the
   flag under which the file may have been cached, listings, check's pack clean-up) returns
   exactly what the same sequence returns without a cache, leaves the same backend contents,
   and the cache is coherent again afterwards.  (A write that the backend refuses is not among
   them: ProofsTop.failed_write_leaves_entry_lemma.) *)
Theorem coherent_reads_equal : forall content ops c be,
  BeHonest content be -> Coherent c be ->
  Forall (op_honest content) ops -> forallb own_op ops = true ->
  fst (run_c ops (mkst c be)) = fst (run_u ops be) /\
  bke (snd (run_c ops (mkst c be))) = snd (run_u ops be) /\
  Coherent (cch (snd (run_c ops (mkst c be)))) (snd (run_u ops be)).
Proof.
  intros content ops c be HB H Ho O.
  destruct (history content early_exit_false ops all_coh c be HB (Coherent_faulty _ _ _ HB H) (fun t _ => H t) Ho)
    as (R & B & _ & _ & K); [apply (own_disciplined own_op); auto|].
  split; [exact R|]. split; [exact B|]. intro t. apply K, final_coh_own; auto.
Qed.
Print Assumptions coherent_reads_equal.

(* After list_with_size t of a cacheable type, whatever the cache directory held before
   (stale, foreign, truncated, wrong-size files at canonical paths; 64-hex files anywhere
   else): the listing is the backend's, the backend is untouched, every remaining cached
   file of type t equals the backend file of that name and is listed with its size,
   nothing was added to the cache and other types are untouched. *)
Theorem listing_restores_coherence : forall content c be t ord,
  is_cacheable t = true -> BeHonest content be -> CacheFaulty content c ->
  let r := cb_list (mkst c be) t ord in
  fst r = RList (be_list be t) /\ bke (snd r) = be /\
  CoherentT t (cch (snd r)) be /\
  (forall i d, find (t, i) (files (cch (snd r))) = Some d -> In (i, length d) (be_list be t)) /\
  cache_le (cch (snd r)) c /\
  (forall t' i, t' <> t -> find (t', i) (files (cch (snd r))) = find (t', i) (files c)).
Proof.
  intros content c be t ord G HB HC. unfold cb_list. cbn [cch bke fst snd]. rewrite guard_list_is_cacheable, G.
  split; [reflexivity|]. split; [reflexivity|]. split.
  - apply (rnl_coherent early_exit_false content); auto. apply (be_list_listed content), HB.
  - split; [intros i d; apply (rnl_spec early_exit_false)|].
    split; [apply (rnl_le early_exit_false) | intros t' i; apply (rnl_other early_exit_false)].
Qed.
Print Assumptions listing_restores_coherence.

(* ... and the listing removes nothing else: a cached file that equals the repository file
   stays cached (the cache keeps working as a cache). *)
Theorem listing_keeps_good : forall content c be t ord i d,
  is_cacheable t = true -> BeHonest content be ->
  find (t, i) (files c) = Some d -> find (t, i) be = Some d ->
  find (t, i) (files (cch (snd (cb_list (mkst c be) t ord)))) = Some d.
Proof.
  intros content c be t ord i d G HB F Fb. unfold cb_list. cbn [cch bke fst snd]. rewrite guard_list_is_cacheable, G.
  apply (rnl_find early_exit_false). split; [exact F | exact (be_list_find content _ _ _ _ HB Fb)].
Qed.
Print Assumptions listing_keeps_good.

(* The pattern every command uses for snapshots and index files: list, then any number of
   operations of this handle on files of that type — transparent from ANY cache state of
   the fault list. *)
Theorem list_then_read_transparent : forall content c be t ord ops,
  is_cacheable t = true -> BeHonest content be -> CacheFaulty content c ->
  Forall (op_honest content) ops ->
  forallb (fun o => own_op o && ft_eqb (op_type o) t) ops = true ->
  fst (run_c (OList t ord :: ops) (mkst c be)) = fst (run_u (OList t ord :: ops) be) /\
  bke (snd (run_c (OList t ord :: ops) (mkst c be))) = snd (run_u (OList t ord :: ops) be).
Proof.
  intros content c be t ord ops G HB HC Ho O.
  destruct (history content early_exit_false (OList t ord :: ops) no_coh c be HB HC (CoherentOn_no_coh c be))
    as (R & B & _); [constructor; [exact I | exact Ho] | | auto].
  cbn [disciplined needs_coh andb coh_after]. rewrite guard_list_is_cacheable, G.
  apply (own_disciplined (fun o => own_op o && ft_eqb (op_type o) t)); [| |exact O];
    intros o E; apply andb_true_iff in E; destruct E as [E1 E2]; [exact E1|].
  destruct (ft_eqbP (op_type o) t) as [->|]; [apply upd_same | discriminate].
Qed.
Print Assumptions list_then_read_transparent.

(* The general form: ANY history that interleaves the cached handle with another handle
   adding / removing backend files and with files appearing in / disappearing from the
   cache directory is transparent, provided every read that can be served from the cache
   is preceded by a listing of its type with no removal / planting of that type in between
   (`disciplined`, an executable check evaluated by the correspondence on every case). *)
Theorem disciplined_history_transparent : forall content ops coh c be,
  BeHonest content be -> CacheFaulty content c -> CoherentOn coh c be ->
  Forall (op_honest content) ops -> disciplined coh ops = true ->
  fst (run_c ops (mkst c be)) = fst (run_u ops be) /\
  bke (snd (run_c ops (mkst c be))) = snd (run_u ops be).
Proof.
  intros content ops coh c be HB HC H Ho D.
  destruct (history content early_exit_false ops coh c be HB HC H Ho D) as (R & B & _). auto.
Qed.
Print Assumptions disciplined_history_transparent.

(* The backend contents never depend on the cache at all (no premise). *)
Theorem backend_independent_of_cache : forall o s, bke (snd (step_c o s)) = snd (step_u o (bke s)).
Proof. exact step_be. Qed.
Print Assumptions backend_independent_of_cache.

(* Cached tree packs: not cleaned by listings, never used for full reads; a truncated one is
   harmless (reads inside the remaining prefix are right, reads past it fall through and
   repair it); check's clean-up leaves only packs of the given list with the listed size. *)
Theorem tree_pack_cache :
  (forall s ord, cch (snd (cb_list s Pack ord)) = cch s) /\
  (forall s i, cb_read_full s Pack i = (RData (be_read_full (bke s) Pack i), s)) /\
  (forall c be i dc d off len,
     find (Pack, i) (files c) = Some dc -> find (Pack, i) be = Some d -> is_prefix dc d -> (0 < len)%nat ->
     let r := cb_read_partial (mkst c be) Pack i true off len in
     fst r = RData (be_read_partial be Pack i off len) /\
     ((length dc < off + len)%nat -> find (Pack, i) (files (cch (snd r))) = Some d)) /\
  (forall c l ord i d,
     find (Pack, i) (files (fst (remove_not_in_list c Pack l ord))) = Some d -> In (i, length d) l).
Proof.
  split; [reflexivity|]. split; [reflexivity|]. split.
  - intros c be i dc d off len Fc Fb [r ->] Hl. split.
    + apply read_partial_same; [exact Hl|]. intros _ dc' Fc'. exists r. rewrite Fc in Fc'. inv Fc'. exact Fb.
    + intro L. rewrite (read_partial_repairs c be Pack i true dc (dc ++ r) off len) by (assumption || reflexivity).
      apply find_set_eq.
  - intros c l ord i d. apply (rnl_spec early_exit_false).
Qed.
Print Assumptions tree_pack_cache.

(* ... and what is NOT guaranteed: a same-size corruption of a cached tree pack is served. *)
Theorem tree_pack_same_size_corruption_served :
  exists c be i off len,
    (exists dc d, find (Pack, i) (files c) = Some dc /\ find (Pack, i) be = Some d /\ length dc = length d) /\
    fst (cb_read_partial (mkst c be) Pack i true off len) <> RData (be_read_partial be Pack i off len).
Proof.
  exists (mkcache [((Pack, 1%N), [1%N; 9%N; 3%N])] []), [((Pack, 1%N), [1%N; 2%N; 3%N])], 1%N, 1%nat, 1%nat.
  split; [exists [1%N; 9%N; 3%N], [1%N; 2%N; 3%N]; auto|].
  vm_compute. discriminate.
Qed.
Print Assumptions tree_pack_same_size_corruption_served.

(* The discipline is needed: a read of a file another handle removed, without a listing in
   between, is served from the cache (the witness; the statement only says that some history
   from a coherent cache differs). *)
Theorem undisciplined_read_differs :
  exists ops c be, Coherent c be /\ fst (run_c ops (mkst c be)) <> fst (run_u ops be).
Proof.
  exists [EBeRemove Snapshot 5%N; OReadFull Snapshot 5%N],
         (mkcache [((Snapshot, 5%N), [7%N])] []), [((Snapshot, 5%N), [7%N])].
  split; [apply Coherent_same | vm_compute; discriminate].
Qed.
Print Assumptions undisciplined_read_differs.

(* Files with a 64-hex name that are not at <dirname>/<hex[0..2]>/<hex> are inert: two cache
   directories with the same canonical files give the same results, the same canonical files
   and the same backend for EVERY history (rests on the extracted fact that
   Cache::list_with_size reports canonical files only). *)
Theorem strays_inert : forall ops c c' be,
  files c = files c' ->
  fst (run_c ops (mkst c be)) = fst (run_c ops (mkst c' be)) /\
  files (cch (snd (run_c ops (mkst c be)))) = files (cch (snd (run_c ops (mkst c' be)))) /\
  bke (snd (run_c ops (mkst c be))) = bke (snd (run_c ops (mkst c' be))).
Proof.
  intros ops c c' be E.
  destruct (run_norm_eq ops (mkst c be) (mkst c' be)) as [R M]; [apply norm_st_eq; auto|].
  split; [exact R | apply norm_st_eq, M].
Qed.
Print Assumptions strays_inert.

(* The access pattern of the generic readers, regenerated from the source (decrypt.rs,
   backend.rs, snapshotfile.rs, index.rs, cat.rs): exactly these six read a file of the given
   type without listing the type first — a caller-supplied id list, or an explicitly given
   full id; every other reader (stream_all, find_starts_with, find_ids with a prefix, latest,
   from_str / from_strs with "latest" or a prefix, update_from_backend, GlobalIndex::new /
   only_full_trees, cat_file with a prefix) lists first. *)
Theorem unlisted_readers : forall r,
  (rdr_reads r = true /\ rdr_lists_first r = false) <->
  In r [StreamList; GetFile; SnapFromStrId; SnapFromStrsIdsOnly; SnapUpdateFromIdsFull; CatFileFull].
Proof.
  intro r. split.
  - intros [A B]. destruct r; simpl in *; try discriminate; tauto.
  - intro H. simpl in H. repeat (destruct H as [H|H]; [subst r; split; reflexivity|]). contradiction.
Qed.
Print Assumptions unlisted_readers.

(* Every history made of whole command steps — accesses through listing readers, direct
   listings, writes, removals, uncached partial reads — interleaved at step boundaries with
   anything another process does to the repository or to the cache directory, satisfies the
   executable discipline, from ANY ghost state.  (Rests on the extracted facts
   rdr_lists_first and list_reaches_cleanup: ReadBackend::list ends in
   CachedBackend::list_with_size.) *)
Theorem commands_are_disciplined : forall h coh,
  forallb good_item h = true -> disciplined coh (history_ops h) = true.
Proof. exact good_history_disciplined. Qed.
Print Assumptions commands_are_disciplined.

(* ... hence such histories are transparent from ANY cache state of the fault list (stale,
   foreign, truncated, wrong-size, misplaced files): same results, same backend. *)
Theorem commands_transparent : forall content h c be,
  BeHonest content be -> CacheFaulty content c ->
  Forall (op_honest content) (history_ops h) -> forallb good_item h = true ->
  fst (run_c (history_ops h) (mkst c be)) = fst (run_u (history_ops h) be) /\
  bke (snd (run_c (history_ops h) (mkst c be))) = snd (run_u (history_ops h) be).
Proof.
  intros content h c be HB HC Ho G.
  apply (disciplined_history_transparent content _ no_coh); auto using CoherentOn_no_coh, commands_are_disciplined.
Qed.
Print Assumptions commands_transparent.

(* The un-listed readers: a read of an explicitly given id of a cacheable type returns what
   the backend returns if and only if the cache has no file of that name or one that equals
   the backend's. *)
Theorem explicit_id_read_spec : forall c be t i,
  is_cacheable t = true ->
  (fst (cb_read_full (mkst c be) t i) = RData (be_read_full be t i) <->
   (forall d, find (t, i) (files c) = Some d -> find (t, i) be = Some d)).
Proof.
  intros c be t i G. split; [|intro H; apply read_full_same; intros _; exact H].
  unfold cb_read_full, c_read_full, be_read_full. cbn [cch bke]. rewrite guard_read_full_is_cacheable, G.
  intros E d F. rewrite F in E. inv E. reflexivity.
Qed.
Print Assumptions explicit_id_read_spec.

(* ... and the property fails there (KNOWN FINDING explicit-id-read-of-removed-file): a
   snapshot that another process removed is still returned by its full id through the
   cached handle; all premises of commands_transparent hold except good_item. *)
Theorem explicit_id_read_refuted :
  exists content h c be,
    BeHonest content be /\ CacheFaulty content c /\ Forall (op_honest content) (history_ops h) /\
    Forall (fun x => match x with HStep s => unlisted_access s = true | HEnv _ => False end) h /\
    fst (run_c (history_ops h) (mkst c be)) <> fst (run_u (history_ops h) be).
Proof.
  exists (fun _ => [7%N]), [HStep (CAccess SnapFromStrId Snapshot [] [5%N])],
         (mkcache [((Snapshot, 5%N), [7%N])] []), [].
  split; [intros k d []|]. split.
  - intros k d F. left. simpl in F. destruct (key_eqb k (Snapshot, 5%N)); [inv F; reflexivity | discriminate].
  - split; [repeat constructor|]. split; [repeat constructor|]. vm_compute. discriminate.
Qed.
Print Assumptions explicit_id_read_refuted.

(* check: after any good history (its listings and reads of snapshot and index files), the
   pack clean-up with the tree packs of the index (which check_packs has just compared with
   the pack listing: PacksListed) makes the cached tree packs coherent: the reads of tree
   packs (partial, cacheable) and of packs in full that follow are transparent — from any
   cache state, including stale, foreign, truncated and longer tree packs, and for EITHER value
   of CheckOptions::trust_cache: check_cleanup is the clean-up as guarded in the source (fact
   pack_cleanup_needs_untrusted regenerated from check_repository: the guard is the presence of
   a cache only; trust_cache only switches the content comparison off). *)
Theorem check_tree_packs_transparent : forall content trust_cache pre l ord post c be,
  BeHonest content be -> CacheFaulty content c ->
  forallb good_item pre = true ->
  Forall (op_honest content) (history_ops pre) -> Forall (op_honest content) post ->
  PacksListed l (snd (run_u (history_ops pre) be)) ->
  forallb pack_read post = true ->
  let ops := history_ops pre ++ check_cleanup trust_cache l ord ++ post in
  fst (run_c ops (mkst c be)) = fst (run_u ops be) /\
  bke (snd (run_c ops (mkst c be))) = snd (run_u ops be).
Proof.
  intros content tc pre l ord post c be HB HC G Ho1 Ho2 HL PR. rewrite check_cleanup_always.
  apply (cleanup_history content) with (coh := no_coh); auto using CoherentOn_no_coh, commands_are_disciplined.
  apply pack_reads_disciplined; [apply upd_same | exact PR].
Qed.
Print Assumptions check_tree_packs_transparent.

(* The commands of the property.  cmd_readers (regenerated from the command bodies: backup's
   get_parent + to_indexed_ids, get_all_snapshots / get_snapshots + delete_snapshots for forget,
   prune's index reading and find_used_blobs, check) lists first in every reader, except when
   snapshots are named by full ids only (explicit parents of backup, forget <full id>). *)
Theorem listing_commands : forall c,
  listing_cmd c = true <-> (c <> CmdBackupParentFullIds /\ c <> CmdForgetFullIds).
Proof.
  intro c. destruct c; vm_compute; split; intro H; try discriminate; try reflexivity;
    try (split; discriminate); destruct H as [A B]; congruence.
Qed.
Print Assumptions listing_commands.

(* ... hence every history of steps of backup / forget / prune / check (any variant but the
   two full-id ones), performed by the cached handle while another handle changes the
   repository and files appear in the cache directory between the steps, returns the same
   results and leaves the same repository contents as without cache. *)
Theorem command_histories_transparent : forall content h c be,
  BeHonest content be -> CacheFaulty content c ->
  Forall (op_honest content) (history_ops h) -> Forall cmd_item h ->
  fst (run_c (history_ops h) (mkst c be)) = fst (run_u (history_ops h) be) /\
  bke (snd (run_c (history_ops h) (mkst c be))) = snd (run_u (history_ops h) be).
Proof.
  intros content h c be HB HC Ho G. apply (commands_transparent content); try assumption.
  apply forallb_forall. intros x I. apply cmd_item_good. rewrite Forall_forall in G. auto.
Qed.
Print Assumptions command_histories_transparent.

(* Tree packs outside check (backup's parent trees, prune's and restore's tree walks): no
   listing ever cleans them, but a command only reads packs that its index names, i.e. packs
   the repository has.  For those, with cached packs that are the honest content or a
   truncation of it (stale and truncated files; a stale pack that the repository still has
   is the same pack), every sequence of partial reads is transparent — without any clean-up
   (the cached packs keep that shape: ProofsCmd.pack_reads_history). *)
Theorem indexed_pack_reads_transparent : forall content ops c be,
  BeHonest content be -> PackPrefix content c -> Forall (indexed_pack_read be) ops ->
  fst (run_c ops (mkst c be)) = fst (run_u ops be) /\
  bke (snd (run_c ops (mkst c be))) = be /\ snd (run_u ops be) = be.
Proof.
  intros content ops c be HB HP Ho. destruct (pack_reads_history content ops c be HB HP Ho) as (R & B & U & _). auto.
Qed.
Print Assumptions indexed_pack_reads_transparent.
