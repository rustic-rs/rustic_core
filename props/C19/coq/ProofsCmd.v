(* C19 — command level: histories built from generic-reader accesses are disciplined;
   check's pack clean-up; tree packs without a clean-up. *)
From Verif.Base Require Import Tactics.
From Verif.C19 Require Import Types Extracted Model Spec Commands Proofs ProofsList ProofsStep ProofsTop.

(* the fact regenerated from the source: ReadBackend::list (trait default) = list_with_size,
   forwarded unchanged by DecryptBackend and Arc<dyn WriteBackend>, not overridden by
   CachedBackend — an id-only listing runs the cache clean-up *)
Lemma list_reaches_cleanup_true : list_reaches_cleanup = true.
Proof. reflexivity. Qed.
Local Opaque list_reaches_cleanup.

(* the fact regenerated from check_repository: the pack clean-up is guarded by the presence of
   a cache only — trust_cache does not switch it off *)
Lemma check_cleanup_always : forall tc l ord, check_cleanup tc l ord = [OCleanPacks l ord].
Proof. intros tc l ord. reflexivity. Qed.

Lemma final_coh_app coh a b : final_coh coh (a ++ b) = final_coh (final_coh coh a) b.
Proof. unfold final_coh. apply fold_left_app. Qed.

Lemma reads_disciplined t ids : forall coh,
  (is_cacheable t = true -> coh t = true) -> disciplined coh (map (OReadFull t) ids) = true.
Proof.
  induction ids as [|i ids IH]; intros coh H; simpl; [reflexivity|].
  rewrite guard_read_full_is_cacheable. rewrite IH by exact H.
  destruct (is_cacheable t) eqn:E; [rewrite H by reflexivity|]; reflexivity.
Qed.

Lemma access_disciplined r t ord ids coh :
  unlisted_access (CAccess r t ord ids) = false -> disciplined coh (access_ops r t ord ids) = true.
Proof.
  unfold unlisted_access, access_ops. rewrite list_reaches_cleanup_true, andb_true_r. intro U.
  destruct (rdr_reads r).
  - destruct (rdr_lists_first r); simpl in *.
    + apply reads_disciplined. intro E. rewrite guard_list_is_cacheable, E. apply upd_same.
    + repeat rewrite andb_true_r in U. apply reads_disciplined. intro E. rewrite E in U. discriminate.
  - rewrite app_nil_r. destruct (rdr_lists_first r); reflexivity.
Qed.

Lemma item_disciplined x coh : good_item x = true -> disciplined coh (item_ops x) = true.
Proof.
  destruct x as [s|o]; simpl; intro G.
  - apply negb_true_iff in G. destruct s; simpl; try reflexivity.
    + apply access_disciplined. exact G.
    + simpl in G. rewrite G. reflexivity.
  - destruct o; simpl in *; try discriminate; reflexivity.
Qed.

Lemma good_history_disciplined h : forall coh,
  forallb good_item h = true -> disciplined coh (history_ops h) = true.
Proof.
  induction h as [|x h IH]; intros coh G; simpl in *; [reflexivity|].
  apply andb_true_iff in G. destruct G as [G1 G2].
  rewrite disciplined_app, item_disciplined by exact G1. simpl. apply IH. exact G2.
Qed.

Lemma cmd_item_good x : cmd_item x -> good_item x = true.
Proof.
  destruct x as [s|o]; simpl; [|auto]. intros [c [L S]]. apply negb_true_iff.
  destruct s; simpl in *; try reflexivity.
  - apply existsb_exists in S. destruct S as [[r' t'] [I E]]. simpl in E.
    apply andb_true_iff in E. destruct E as [E1 E2].
    apply internal_rdr_dec_bl in E1. destruct (ft_eqbP t' t); [subst r' t' | discriminate].
    unfold listing_cmd in L. rewrite forallb_forall in L. specialize (L _ I). simpl in L.
    apply negb_true_iff in L. exact L.
  - apply negb_true_iff in S. exact S.
Qed.

Lemma pack_reads_disciplined post coh :
  coh Pack = true -> forallb pack_read post = true -> disciplined coh post = true.
Proof.
  intro H. apply (own_disciplined pack_read).
  - intros o E. destruct o; try discriminate E; reflexivity.
  - intros o E. destruct o; try discriminate E; (destruct t; try discriminate E; exact H).
Qed.

Lemma cleanup_history content pre l ord post coh c be :
  BeHonest content be -> CacheFaulty content c -> CoherentOn coh c be ->
  Forall (op_honest content) pre -> Forall (op_honest content) post ->
  disciplined coh pre = true -> PacksListed l (snd (run_u pre be)) ->
  disciplined (upd (final_coh coh pre) Pack true) post = true ->
  let ops := pre ++ OCleanPacks l ord :: post in
  fst (run_c ops (mkst c be)) = fst (run_u ops be) /\
  bke (snd (run_c ops (mkst c be))) = snd (run_u ops be).
Proof.
  intros HB HC H Ho1 Ho2 D1 HL D2 ops. subst ops.
  destruct (history content early_exit_false pre coh c be HB HC H Ho1 D1) as (R1 & B1 & HB1 & HC1 & K1).
  rewrite run_c_app, run_u_app, run_step_c, run_step_u. cbn [step_c step_u fst snd].
  destruct (snd (run_c pre (mkst c be))) as [c1 b1]. cbn [cch bke] in *. subst b1.
  destruct (Inv_listed content early_exit_false _ _ _ Pack l ord (conj HB1 (conj HC1 K1)) HL) as (HB2 & HC2 & K2).
  destruct (history content early_exit_false post _ _ _ HB2 HC2 K2 Ho2 D2) as (R2 & B2 & _).
  rewrite R1, R2. split; [reflexivity | exact B2].
Qed.

Lemma pack_read_step content c be i cf off len :
  BeHonest content be -> PackPrefix content c -> find (Pack, i) be <> None -> (0 < len)%nat ->
  fst (cb_read_partial (mkst c be) Pack i cf off len) = RData (be_read_partial be Pack i off len) /\
  bke (snd (cb_read_partial (mkst c be) Pack i cf off len)) = be /\
  PackPrefix content (cch (snd (cb_read_partial (mkst c be) Pack i cf off len))).
Proof.
  intros HB HP Hb Hl. split.
  - apply read_partial_same; [exact Hl|]. intros _ dc Fc. destruct (HP _ _ Fc) as [r Er]. exists r.
    destruct (find (Pack, i) be) as [d|] eqn:Fb; [|congruence]. rewrite (BeHonest_find _ _ _ _ HB Fb), Er. reflexivity.
  - destruct (read_partial_filled (mkst c be) Pack i cf off len) as [|d F]; cbn [cch bke] in *; [auto|].
    split; [reflexivity|]. intros j x. cbn [c_write files]. rewrite find_set.
    destruct (key_eqbP (Pack, j) (Pack, i)) as [E|]; [|apply HP].
    intro Q. inv Q. inv E. rewrite (BeHonest_find _ _ _ _ HB F). exists []. symmetry. apply app_nil_r.
Qed.

Lemma pack_reads_history content ops : forall c be,
  BeHonest content be -> PackPrefix content c -> Forall (indexed_pack_read be) ops ->
  fst (run_c ops (mkst c be)) = fst (run_u ops be) /\
  bke (snd (run_c ops (mkst c be))) = be /\ snd (run_u ops be) = be /\
  PackPrefix content (cch (snd (run_c ops (mkst c be)))).
Proof.
  induction ops as [|o r IH]; intros c be HB HP Ho; [simpl; auto|].
  inversion Ho as [|? ? H1 H2]. subst.
  destruct o; simpl in H1; try contradiction. destruct t; try contradiction. destruct H1 as [Hl Hb].
  rewrite run_step_c, run_step_u. cbn [step_c step_u fst snd].
  destruct (pack_read_step content c be i c0 off len HB HP Hb Hl) as [R [B P]].
  destruct (cb_read_partial (mkst c be) Pack i c0 off len) as [x [c1 b1]]. cbn [fst snd cch bke] in *. subst b1 x.
  destruct (IH c1 be HB P H2) as [R2 [B2 [U2 P2]]]. rewrite R2. auto.
Qed.
