(* C19 — Cache::remove_not_in_list: which files a clean-up leaves in the cache.
   When a failing removal does not stop the loops, a cached file (t, i) with content d
   survives remove_not_in_list(t, l) iff the first entry of l for i carries the size of d,
   and files of other types are not touched: rnl_files says both in one equation, rnl_find and
   rnl_other are its two readings. *)
From Verif.Base Require Import Tactics Lists Sorting.
From Verif.C19 Require Import Types Extracted Model Spec Proofs.

(* the extracted constant stays a variable of the proofs; its value enters as the hypothesis Hee *)
Local Opaque early_exit.

Lemma lc_find_cons i j sz l : lc_find i ((j, sz) :: l) = if N.eqb j i then Some sz else lc_find i l.
Proof. unfold lc_find. simpl. destruct (N.eqb j i); reflexivity. Qed.

Lemma lc_find_del i j lc : lc_find i (lc_del j lc) = if N.eqb j i then None else lc_find i lc.
Proof.
  induction lc as [|[k n] lc IH]; [destruct (N.eqb j i); reflexivity|].
  rewrite lc_find_cons. unfold lc_del in *. simpl. destruct (N.eqb_spec k j) as [->|N]; simpl.
  - rewrite IH. destruct (N.eqb j i); reflexivity.
  - rewrite lc_find_cons, IH. destruct (N.eqb_spec k i) as [->|]; [|reflexivity].
    destruct (N.eqb_spec j i); congruence.
Qed.

Lemma lc_find_In i l n : lc_find i l = Some n -> In (i, n) l.
Proof.
  unfold lc_find. destruct (List.find (fun p => N.eqb (fst p) i) l) as [[j m]|] eqn:F; [|discriminate].
  apply find_some in F. destruct F as [I E]. apply N.eqb_eq in E. simpl in E. subst j.
  intro H. inv H. exact I.
Qed.
Lemma In_lc_find i l n : In (i, n) l -> exists n', lc_find i l = Some n'.
Proof.
  induction l as [|[j m] l IH]; [contradiction|]. rewrite lc_find_cons.
  intros [H|H]; [inv H; rewrite N.eqb_refl | destruct (N.eqb j i)]; eauto.
Qed.

Lemma memb_In i l : memb i l = true <-> In i l.
Proof. exact (existsb_Neqb_In i l). Qed.
Lemma memb_keys i lc : memb i (map fst lc) = if lc_find i lc then true else false.
Proof.
  induction lc as [|[k n] lc IH]; [reflexivity|]. rewrite lc_find_cons. cbn [map fst memb existsb].
  rewrite (N.eqb_sym i k). destruct (N.eqb k i); [reflexivity | exact IH].
Qed.

Lemma dedup_In x l : In x (dedup l) <-> In x l.
Proof.
  induction l as [|a l IH]; simpl; [tauto|].
  rewrite filter_In, IH. destruct (N.eq_dec a x) as [->|N].
  - tauto.
  - split; [tauto|]. intros [H|H]; [tauto|]. right. split; [exact H|].
    apply negb_true_iff. apply N.eqb_neq. congruence.
Qed.

Lemma order_by_In ord ids i : In i ids -> In i (order_by ord ids).
Proof.
  intro H. unfold order_by. apply dedup_In. apply in_or_app.
  destruct (memb i ord) eqn:M.
  - left. apply filter_In. split; [apply memb_In; exact M | apply memb_In; exact H].
  - right. apply filter_In. split; [exact H | rewrite M; reflexivity].
Qed.
Lemma order_by_In_inv ord ids i : In i (order_by ord ids) -> In i ids.
Proof.
  unfold order_by. rewrite dedup_In. intro H. apply in_app_or in H. destruct H as [H|H].
  - apply filter_In in H. apply memb_In. tauto.
  - apply filter_In in H. tauto.
Qed.
Lemma memb_order_by ord ids i : memb i (order_by ord ids) = memb i ids.
Proof.
  apply eq_iff_eq_true. rewrite !memb_In. split; [apply order_by_In_inv | apply order_by_In].
Qed.

Lemma sizes_of_In t i n m : In (i, n) (sizes_of t m) <-> exists d, In ((t, i), d) m /\ length d = n.
Proof.
  unfold sizes_of. rewrite in_flat_map. split.
  - intros [[[t' i'] v] [I H]]. simpl in H.
    destruct (ft_eqbP t' t) as [->|]; [|contradiction]. destruct H as [H|[]]. inv H. eauto.
  - intros [d [I <-]]. exists ((t, i), d). split; [exact I|]. simpl. rewrite ft_eqb_refl. left. reflexivity.
Qed.

(* ins_sorted and sort_ids are Sorting.insert and Sorting.isort at the comparison of ids: the same fix *)
Lemma ins_sorted_In x y l : In x (ins_sorted y l) <-> In x (y :: l).
Proof. exact (In_insert _ y l x). Qed.
Lemma sort_ids_In x l : In x (sort_ids l) <-> In x l.
Proof. exact (In_isort _ l x). Qed.

Lemma be_list_In be t i n : In (i, n) (be_list be t) <-> exists d, In ((t, i), d) be /\ length d = n.
Proof. unfold be_list. rewrite sort_ids_In. apply sizes_of_In. Qed.

(* Commands.PacksListed l be is Listed Pack l be, and is used as such by conversion *)
Definition Listed (t : ftype) (l : list (id * nat)) (be : fmap) : Prop :=
  forall i n, In (i, n) l -> exists d, find (t, i) be = Some d /\ length d = n.

Lemma be_list_listed content be t : BeHonest content be -> Listed t (be_list be t) be.
Proof.
  intros HB i n I. apply be_list_In in I. destruct I as [d [I L]]. destruct (In_find _ _ _ I) as [d' F].
  exists d'. split; [exact F|]. rewrite (BeHonest_find _ _ _ _ HB F), <- (HB _ _ I). exact L.
Qed.

Lemma be_list_find content be t i d :
  BeHonest content be -> find (t, i) be = Some d -> lc_find i (be_list be t) = Some (length d).
Proof.
  intros HB F. assert (I : In (i, length d) (be_list be t)) by (apply be_list_In; eauto using find_In).
  destruct (In_lc_find _ _ _ I) as [n L]. rewrite L.
  destruct (be_list_listed _ _ _ HB _ _ (lc_find_In _ _ _ L)) as [d' [F' <-]]. congruence.
Qed.

(* the canonical file is the first entry of its id in Cache::list_with_size *)
Lemma c_list_find c t i d : find (t, i) (files c) = Some d -> lc_find i (c_list c t) = Some (length d).
Proof.
  unfold c_list. generalize (if lists_strays then strays_of t (strays c) else []). intro s.
  induction (files c) as [|[[t' i'] v] m IH]; simpl; [discriminate|].
  unfold key_eqb. cbn [fst snd]. destruct (ft_eqbP t t') as [<-|]; simpl.
  - rewrite ft_eqb_refl. simpl. rewrite lc_find_cons, (N.eqb_sym i i').
    destruct (N.eqb i' i); [intro H; inv H; reflexivity | exact IH].
  - destruct (ft_eqbP t' t); [congruence | exact IH].
Qed.

Section NoEarlyExit.
Hypothesis Hee : early_exit = false.

Lemma phase1_cons c t i sz r lc :
  fst (phase1 c t ((i, sz) :: r) lc) =
  match lc_find i lc with
  | Some csz => fst (phase1 (if (csz =? sz)%nat then c else evict c t i) t r (lc_del i lc))
  | None => fst (phase1 c t r lc)
  end.
Proof.
  simpl. destruct (lc_find i lc) as [csz|]; [|reflexivity]. destruct (csz =? sz)%nat; [reflexivity|].
  rewrite <- c_remove_evict. destruct (c_remove c t i); [reflexivity|].
  rewrite Hee. destruct (phase1 c t r (lc_del i lc)) as [[c2 lc2] o2]. reflexivity.
Qed.

Lemma phase2_cons c t i r : fst (phase2 c t (i :: r)) = fst (phase2 (evict c t i) t r).
Proof.
  simpl. rewrite <- c_remove_evict. destruct (c_remove c t i); [reflexivity|].
  rewrite Hee. destruct (phase2 c t r). reflexivity.
Qed.

Lemma phase2_find t t' i ids : forall c,
  find (t', i) (files (fst (phase2 c t ids))) = if ft_eqb t' t && memb i ids then None else find (t', i) (files c).
Proof.
  induction ids as [|j ids IH]; intro c; [rewrite andb_false_r; reflexivity|].
  rewrite phase2_cons, IH, find_evict. change (memb i (j :: ids)) with (N.eqb i j || memb i ids).
  destruct (ft_eqb t' t), (N.eqb i j), (memb i ids); reflexivity.
Qed.

(* both loops at once, for one file name: phase1 looks an id up in the cache listing lc the first
   time the repository list l names it and deletes it there, phase2 evicts what is left of lc;
   so a listed id survives iff the first entry of l for it carries the listed size *)
Lemma loops_find t t' i ord l : forall c lc,
  find (t', i) (files (let '(c1, lc1) := fst (phase1 c t l lc) in fst (phase2 c1 t (order_by ord (map fst lc1))))) =
  match lc_find i lc with
  | Some csz =>
    if ft_eqb t' t && negb (match lc_find i l with Some sz => (csz =? sz)%nat | None => false end)
    then None else find (t', i) (files c)
  | None => find (t', i) (files c)
  end.
Proof.
  induction l as [|[j sz] l IH]; intros c lc.
  - cbn [phase1 fst lc_find List.find]. rewrite phase2_find, memb_order_by, memb_keys.
    destruct (lc_find i lc); [reflexivity | rewrite andb_false_r; reflexivity].
  - rewrite phase1_cons, lc_find_cons. destruct (lc_find j lc) as [cj|] eqn:Lj; rewrite IH.
    + rewrite lc_find_del. destruct (N.eqb_spec j i) as [->|N].
      * rewrite Lj. destruct (cj =? sz)%nat; [rewrite andb_false_r; reflexivity|].
        rewrite find_evict, N.eqb_refl. reflexivity.
      * destruct (cj =? sz)%nat; [reflexivity|].
        rewrite find_evict, (proj2 (N.eqb_neq i j)), andb_false_r by congruence. reflexivity.
    + destruct (N.eqb_spec j i) as [->|]; [rewrite Lj|]; reflexivity.
Qed.

Lemma rnl_files c t l ord t' i :
  find (t', i) (files (fst (remove_not_in_list c t l ord))) =
  match find (t', i) (files c) with
  | Some d =>
    if ft_eqb t' t && negb (match lc_find i l with Some sz => (length d =? sz)%nat | None => false end)
    then None else Some d
  | None => None
  end.
Proof.
  pose proof (loops_find t t' i ord l c (c_list c t)) as A. unfold remove_not_in_list.
  destruct (phase1 c t l (c_list c t)) as [[c1 lc1] ok1]. rewrite Hee. cbn [andb fst] in *.
  destruct (phase2 c1 t (order_by ord (map fst lc1))). cbn [fst] in *. rewrite A. destruct (ft_eqbP t' t) as [->|].
  - destruct (find (t, i) (files c)) as [d|] eqn:F; [rewrite (c_list_find _ _ _ _ F); reflexivity|].
    destruct (lc_find i (c_list c t)); [destruct (_ && _)|]; reflexivity.
  - destruct (lc_find i (c_list c t)), (find (t', i) (files c)); reflexivity.
Qed.

Lemma rnl_other c t l ord t' i :
  t' <> t -> find (t', i) (files (fst (remove_not_in_list c t l ord))) = find (t', i) (files c).
Proof.
  intro N. rewrite rnl_files. destruct (ft_eqbP t' t); [contradiction|].
  destruct (find (t', i) (files c)); reflexivity.
Qed.

Lemma rnl_find c t l ord i d :
  find (t, i) (files (fst (remove_not_in_list c t l ord))) = Some d <->
  find (t, i) (files c) = Some d /\ lc_find i l = Some (length d).
Proof.
  rewrite rnl_files, ft_eqb_refl. destruct (find (t, i) (files c)) as [d0|]; [|split; [|intros [E _]]; discriminate].
  destruct (lc_find i l) as [sz|]; [destruct (Nat.eqb_spec (length d0) sz) as [<-|N]|]; cbn [andb negb].
  - split; [intro E; inv E; auto | tauto].
  - split; [discriminate|]. intros [E1 E2]. inv E1. inv E2. contradiction.
  - split; [discriminate | intros [_ E]; discriminate].
Qed.

Lemma rnl_spec c t l ord i d :
  find (t, i) (files (fst (remove_not_in_list c t l ord))) = Some d -> In (i, length d) l.
Proof. intro F. apply lc_find_In. apply rnl_find in F. apply F. Qed.

Lemma rnl_le c t l ord : cache_le (fst (remove_not_in_list c t l ord)) c.
Proof.
  intros [t' i] d F. destruct (ft_eqbP t' t) as [->|N].
  - apply rnl_find in F. apply F.
  - rewrite rnl_other in F by exact N. exact F.
Qed.

(* a cached file of the fault list whose size is the size of the repository file is that file *)
Lemma rnl_coherent content c be t l ord :
  BeHonest content be -> CacheFaulty content c -> Listed t l be ->
  CoherentT t (fst (remove_not_in_list c t l ord)) be.
Proof.
  intros HB HC HL i d F. destruct (HL _ _ (rnl_spec _ _ _ _ _ _ F)) as [d' [Fb Len]].
  pose proof (BeHonest_find _ _ _ _ HB Fb). subst d'.
  destruct (HC _ _ (rnl_le _ _ _ _ _ _ F)) as [->|E]; [exact Fb | congruence].
Qed.
End NoEarlyExit.
