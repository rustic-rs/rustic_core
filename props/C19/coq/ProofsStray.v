(* C19 — misplaced 64-hex files (not at <dirname>/<hex[0..2]>/<hex>) are inert: since
   Cache::list_with_size only reports canonical files (extracted fact lists_strays = false),
   no result and no canonical cache file ever depends on them. *)
From Verif.Base Require Import Tactics.
From Verif.C19 Require Import Types Extracted Model Spec.

Lemma lists_strays_false : lists_strays = false.
Proof. reflexivity. Qed.

Local Opaque early_exit lists_strays.

Definition norm (c : cache) : cache := mkcache (files c) [].
Definition norm_st (s : st) : st := mkst (norm (cch s)) (bke s).

Lemma c_remove_norm c t i : c_remove (norm c) t i = option_map norm (c_remove c t i).
Proof. unfold c_remove, norm. simpl. destruct (find (t, i) (files c)); reflexivity. Qed.

Lemma c_list_norm c t : c_list (norm c) t = c_list c t.
Proof. unfold c_list. rewrite lists_strays_false. reflexivity. Qed.

Lemma phase1_norm t l : forall c lc,
  phase1 (norm c) t l lc = let '(a, la, oa) := phase1 c t l lc in (norm a, la, oa).
Proof.
  induction l as [|[i sz] l IH]; intros c lc; simpl; [reflexivity|].
  destruct (lc_find i lc) as [csz|]; [|apply IH].
  destruct (csz =? sz)%nat; [apply IH|].
  rewrite c_remove_norm. destruct (c_remove c t i) as [c'|]; simpl; [apply IH|].
  destruct early_exit; [reflexivity|].
  rewrite IH. destruct (phase1 c t l (lc_del i lc)) as [[a la] oa]. reflexivity.
Qed.

Lemma phase2_norm t ids : forall c,
  phase2 (norm c) t ids = let '(a, oa) := phase2 c t ids in (norm a, oa).
Proof.
  induction ids as [|i ids IH]; intros c; simpl; [reflexivity|].
  rewrite c_remove_norm. destruct (c_remove c t i) as [c'|]; simpl; [apply IH|].
  destruct early_exit; [reflexivity|].
  rewrite IH. destruct (phase2 c t ids) as [a oa]. reflexivity.
Qed.

Lemma rnl_norm c t l ord : fst (remove_not_in_list (norm c) t l ord) = norm (fst (remove_not_in_list c t l ord)).
Proof.
  unfold remove_not_in_list. rewrite c_list_norm, phase1_norm.
  destruct (phase1 c t l (c_list c t)) as [[c1 lc1] ok1].
  destruct (early_exit && negb ok1); [reflexivity|].
  rewrite phase2_norm. destruct (phase2 c1 t (order_by ord (map fst lc1))) as [c2 ok2]. reflexivity.
Qed.

Lemma step_norm o s :
  fst (step_c o (norm_st s)) = fst (step_c o s) /\ norm_st (snd (step_c o (norm_st s))) = norm_st (snd (step_c o s)).
Proof.
  destruct s as [c be]. unfold norm_st at 1 3. cbn [cch bke].
  destruct o; cbn [step_c].
  - (* the reads of the cache look at the canonical files only *)
    unfold cb_read_full. cbn [cch bke]. change (c_read_full (norm c) t i) with (c_read_full c t i).
    destruct (guard_read_full t false); [|auto].
    destruct (c_read_full c t i); auto; destruct (be_read_full be t i); auto.
  - unfold cb_read_partial. cbn [cch bke]. change (c_read_partial (norm c) t i off len) with (c_read_partial c t i off len).
    destruct (guard_read_partial t c0); [|auto].
    destruct (c_read_partial c t i off len); auto;
      (destruct (be_read_full be t i) as [b|]; [destruct (off + len <=? length b)%nat|]; auto).
  - unfold cb_write. cbn [cch bke]. destruct (guard_write_bytes t c0), okb; auto.
  - unfold cb_remove. cbn [cch bke]. destruct (be_remove be t i) as [ok be'].
    destruct (guard_remove t c0); [|auto]. rewrite c_remove_norm.
    destruct (c_remove c t i); auto.
  - unfold cb_list. cbn [cch bke]. destruct (guard_list_with_size t false); [|auto].
    rewrite rnl_norm. auto.
  - cbn [cch bke]. rewrite rnl_norm. auto.
  - auto.
  - cbn [cch bke]. destruct (be_remove be t i). auto.
  - auto.
  - auto.
  - auto.
Qed.

Lemma norm_st_idem s : norm_st (norm_st s) = norm_st s.
Proof. reflexivity. Qed.
Lemma norm_st_eq s s' : norm_st s = norm_st s' <-> files (cch s) = files (cch s') /\ bke s = bke s'.
Proof.
  destruct s as [[f x] b], s' as [[f' x'] b']. unfold norm_st, norm. simpl.
  split; [intro H; inv H; auto | intros [-> ->]; reflexivity].
Qed.

Lemma run_norm_eq ops : forall s s',
  norm_st s = norm_st s' ->
  fst (run_c ops s) = fst (run_c ops s') /\ norm_st (snd (run_c ops s)) = norm_st (snd (run_c ops s')).
Proof.
  induction ops as [|o r IH]; intros s s' E; simpl; [auto|].
  destruct (step_norm o s) as [R N], (step_norm o s') as [R' N']. rewrite E in R, N. rewrite R' in R. rewrite N' in N.
  destruct (step_c o s) as [x s1], (step_c o s') as [x' s1']. simpl in R, N. subst x'.
  destruct (IH s1 s1' (eq_sym N)) as [R2 N2].
  destruct (run_c r s1) as [xs s2], (run_c r s1') as [xs' s2']. simpl in *. split; congruence.
Qed.
