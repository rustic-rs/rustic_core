(* C06 — GF(2)[x] on N: the reduction `pmod _ P` (the while loop of Polynom64::modulo) is
   linear, idempotent, bounded by the degree, and compatible with shifts.  Then: numbers whose
   bits do not overlap; a linear function from its values at the powers of two. *)
From Verif.Base Require Import Tactics.
From Verif.C06 Require Import Extracted Model.
Local Open Scope N_scope.

(* an identity between xor-combinations of the same numbers: bit by bit, by cases *)
Ltac bitwise :=
  apply N.bits_inj; intro; rewrite ?N.lxor_spec;
  repeat match goal with |- context [N.testbit ?a ?m] => destruct (N.testbit a m) end; reflexivity.

Lemma lxor_cancel a b : N.lxor a (N.lxor b a) = b.
Proof. bitwise. Qed.
Lemma lxor_swap a b c : N.lxor (N.lxor a c) (N.lxor b c) = N.lxor a b.
Proof. bitwise. Qed.
Lemma lxor_rot a b c : N.lxor (N.lxor a b) c = N.lxor (N.lxor a c) b.
Proof. bitwise. Qed.

Definition below (n a : N) : Prop := forall m, n <= m -> N.testbit a m = false.

Lemma below_lt n a : a < 2 ^ n -> below n a.
Proof.
  intros H m Hm. destruct (N.eq_dec a 0) as [->|Ha]; [apply N.bits_0|].
  apply N.bits_above_log2. apply N.log2_lt_pow2 in H; lia.
Qed.
Lemma lt_below n a : below n a -> a < 2 ^ n.
Proof.
  intros H. destruct (N.eq_dec a 0) as [->|Ha].
  - apply N.neq_0_lt_0, N.pow_nonzero. lia.
  - apply N.log2_lt_pow2; [lia|]. destruct (N.lt_ge_cases (N.log2 a) n) as [L|L]; [assumption|].
    specialize (H _ L). rewrite N.bit_log2 in H by assumption. discriminate.
Qed.
Lemma below_lxor n a b : below n a -> below n b -> below n (N.lxor a b).
Proof. intros Ha Hb m Hm. rewrite N.lxor_spec, Ha, Hb by assumption. reflexivity. Qed.
Lemma below_mono n n' a : n <= n' -> below n a -> below n' a.
Proof. intros H Ha m Hm. apply Ha. lia. Qed.
Lemma below_0 n : below n 0.
Proof. intros m _. apply N.bits_0. Qed.
Lemma below_size a : below (N.size a) a.
Proof.
  intros m Hm. destruct (N.eq_dec a 0) as [->|Ha]; [apply N.bits_0|].
  apply N.bits_above_log2. rewrite N.size_log2 in Hm by assumption. lia.
Qed.

Section Poly.
  Variable P : N.
  Hypothesis HP : P <> 0.
  Let k := N.log2 P.

  (* `sweep n` clears the bits k+n-1 .. k from the top, each with the shift of P whose leading bit
     it is; the while loop of `pmod` does the same, passing over the zero bits.  Unlike the loop,
     the sweep does the same steps for every argument, which is what linearity needs. *)
  Definition Pi (i : nat) : N := N.shiftl P (N.of_nat i).
  Definition sweep_bit (i : nat) (a : N) : N :=
    if N.testbit a (k + N.of_nat i) then N.lxor a (Pi i) else a.
  Fixpoint sweep (n : nat) (a : N) : N :=
    match n with O => a | S i => sweep i (sweep_bit i a) end.

  Lemma Pi_top i : N.testbit (Pi i) (k + N.of_nat i) = true.
  Proof.
    unfold Pi. rewrite N.shiftl_spec_high by lia.
    replace (k + N.of_nat i - N.of_nat i) with k by lia. apply N.bit_log2. assumption.
  Qed.
  Lemma Pi_below i : below (k + N.of_nat i + 1) (Pi i).
  Proof.
    intros m Hm. unfold Pi. rewrite N.shiftl_spec_high by lia.
    apply N.bits_above_log2. fold k. lia.
  Qed.

  Lemma sweep_bit_linear i a b : sweep_bit i (N.lxor a b) = N.lxor (sweep_bit i a) (sweep_bit i b).
  Proof.
    unfold sweep_bit. rewrite N.lxor_spec.
    destruct (N.testbit a (k + N.of_nat i)), (N.testbit b (k + N.of_nat i)); cbn [xorb]; bitwise.
  Qed.
  Lemma sweep_linear n : forall a b, sweep n (N.lxor a b) = N.lxor (sweep n a) (sweep n b).
  Proof. induction n as [|i IH]; intros a b; cbn [sweep]; [reflexivity|]. rewrite sweep_bit_linear. apply IH. Qed.

  Lemma sweep_bit_below i a : below (k + N.of_nat (S i)) a -> below (k + N.of_nat i) (sweep_bit i a).
  Proof.
    intros H m Hm. unfold sweep_bit.
    destruct (N.eq_dec m (k + N.of_nat i)) as [->|Hne].
    - destruct (N.testbit a (k + N.of_nat i)) eqn:E.
      + rewrite N.lxor_spec, E, Pi_top. reflexivity.
      + assumption.
    - assert (Ha : N.testbit a m = false) by (apply H; lia).
      destruct (N.testbit a (k + N.of_nat i)); [|assumption].
      rewrite N.lxor_spec, Ha. rewrite (Pi_below i m) by lia. reflexivity.
  Qed.
  Lemma sweep_below n : forall a, below (k + N.of_nat n) a -> below k (sweep n a).
  Proof.
    induction n as [|i IH]; intros a H; cbn [sweep].
    - intros m Hm. apply H. lia.
    - apply IH. apply sweep_bit_below. assumption.
  Qed.
  Lemma sweep_bit_id i a : N.testbit a (k + N.of_nat i) = false -> sweep_bit i a = a.
  Proof. intros H. unfold sweep_bit. rewrite H. reflexivity. Qed.
  Lemma sweep_small n : forall a, below k a -> sweep n a = a.
  Proof.
    induction n as [|i IH]; intros a H; cbn [sweep]; [reflexivity|].
    rewrite sweep_bit_id by (apply H; lia). apply IH. assumption.
  Qed.
  Lemma sweep_extend n a : below (k + N.of_nat n) a -> forall j, sweep (j + n) a = sweep n a.
  Proof.
    intros H. induction j as [|j IH]; [reflexivity|].
    cbn [plus sweep]. rewrite sweep_bit_id by (apply H; lia). assumption.
  Qed.
  Lemma sweep_0 n : sweep n 0 = 0.
  Proof. apply sweep_small. apply below_0. Qed.

  Lemma pmod_fuel_small f a : below k a -> pmod_fuel f a P = a.
  Proof.
    intros H. destruct f as [|f]; [reflexivity|]. cbn [pmod_fuel].
    destruct (N.eqb_spec a 0); [reflexivity|].
    destruct (N.leb_spec (N.log2 P) (N.log2 a)) as [L|L]; [|reflexivity].
    fold k in L. specialize (H _ L). rewrite N.bit_log2 in H by assumption. discriminate.
  Qed.

  Lemma pmod_fuel_sweep : forall n a f, below (k + N.of_nat n) a -> (n <= f)%nat -> pmod_fuel f a P = sweep n a.
  Proof.
    induction n as [|i IH]; intros a f H Hf.
    - cbn [sweep]. apply pmod_fuel_small. intros m Hm. apply H. lia.
    - destruct f as [|f]; [lia|]. cbn [sweep].
      destruct (N.testbit a (k + N.of_nat i)) eqn:E.
      + assert (Ha : a <> 0) by (intros ->; rewrite N.bits_0 in E; discriminate).
        assert (Hl : N.log2 a = k + N.of_nat i).
        { apply N.log2_bits_unique; [assumption|]. intros m Hm. apply H. lia. }
        cbn [pmod_fuel]. destruct (N.eqb_spec a 0); [contradiction|].
        rewrite Hl. fold k. destruct (N.leb_spec k (k + N.of_nat i)); [|lia].
        replace (k + N.of_nat i - k) with (N.of_nat i) by lia.
        assert (Es : sweep_bit i a = N.lxor a (N.shiftl P (N.of_nat i))) by (unfold sweep_bit, Pi; rewrite E; reflexivity).
        rewrite <- Es. apply IH; [|lia]. apply sweep_bit_below. assumption.
      + rewrite sweep_bit_id by assumption. apply IH; [|lia].
        intros m Hm. destruct (N.eq_dec m (k + N.of_nat i)) as [->|]; [assumption|]. apply H. lia.
  Qed.

  Lemma below_big a n : (N.to_nat (N.size a) <= n)%nat -> below (k + N.of_nat n) a.
  Proof. intros H. apply (below_mono (N.size a)); [lia|apply below_size]. Qed.

  Lemma pmod_sweep n a : below (k + N.of_nat n) a -> pmod a P = sweep n a.
  Proof.
    intros H. unfold pmod. set (s := N.to_nat (N.size a)).
    assert (Hs : below (k + N.of_nat s) a) by (apply below_big, le_n).
    rewrite (pmod_fuel_sweep s a s Hs) by lia.
    destruct (Nat.le_ge_cases s n) as [L|L].
    - replace n with ((n - s) + s)%nat by lia. symmetry. apply sweep_extend. assumption.
    - replace s with ((s - n) + n)%nat at 1 by lia. apply sweep_extend. assumption.
  Qed.

  Lemma pmod_linear a b : pmod (N.lxor a b) P = N.lxor (pmod a P) (pmod b P).
  Proof.
    rewrite !(pmod_sweep (N.to_nat (N.size a + N.size b))) by (try apply below_lxor; apply below_big; lia).
    apply sweep_linear.
  Qed.
  Lemma pmod_below a : below k (pmod a P).
  Proof. rewrite (pmod_sweep _ a (below_big a _ (le_n _))). apply sweep_below, below_big, le_n. Qed.
  Lemma pmod_small a : below k a -> pmod a P = a.
  Proof. intros H. rewrite (pmod_sweep 0 a) by (intros m Hm; apply H; lia). reflexivity. Qed.
  Lemma pmod_P_shift j : pmod (N.shiftl P j) P = 0.
  Proof.
    set (i := N.to_nat j). replace j with (N.of_nat i) by (unfold i; lia). fold (Pi i).
    rewrite (pmod_sweep (S i)) by (apply (below_mono (k + N.of_nat i + 1)); [lia|apply Pi_below]).
    cbn [sweep]. unfold sweep_bit. rewrite Pi_top, N.lxor_nilpotent. apply sweep_0.
  Qed.

  (* xor-combinations of shifts of P reduce to 0 and are closed under shifts *)
  Inductive Comb : N -> Prop :=
  | C0 : Comb 0
  | C1 c j : Comb c -> Comb (N.lxor c (N.shiftl P j)).
  Lemma comb_lxor c d : Comb c -> Comb d -> Comb (N.lxor c d).
  Proof.
    intros Hc Hd. induction Hd as [|d j Hd IH]; [rewrite N.lxor_0_r; assumption|].
    rewrite <- N.lxor_assoc. constructor. assumption.
  Qed.
  Lemma comb_shift c i : Comb c -> Comb (N.shiftl c i).
  Proof.
    intros Hc. induction Hc as [|c j Hc IH]; [rewrite N.shiftl_0_l; constructor|].
    rewrite N.shiftl_lxor, N.shiftl_shiftl. constructor. assumption.
  Qed.
  Lemma pmod_comb c : Comb c -> pmod c P = 0.
  Proof.
    intros Hc. induction Hc as [|c j Hc IH]; [reflexivity|].
    rewrite pmod_linear, IH, pmod_P_shift. reflexivity.
  Qed.
  Lemma sweep_comb n : forall a, Comb (N.lxor a (sweep n a)).
  Proof.
    induction n as [|i IH]; intros a; cbn [sweep]; [rewrite N.lxor_nilpotent; constructor|].
    replace (N.lxor a (sweep i (sweep_bit i a))) with (N.lxor (N.lxor a (sweep_bit i a)) (N.lxor (sweep_bit i a) (sweep i (sweep_bit i a)))) by bitwise.
    apply comb_lxor; [|apply IH]. unfold sweep_bit. destruct (N.testbit a (k + N.of_nat i)).
    - replace (N.lxor a (N.lxor a (Pi i))) with (N.lxor 0 (Pi i)) by (rewrite N.lxor_0_l; bitwise). constructor. constructor.
    - rewrite N.lxor_nilpotent. constructor.
  Qed.
  Lemma pmod_comb_diff a : Comb (N.lxor a (pmod a P)).
  Proof. rewrite (pmod_sweep _ a (below_big a _ (le_n _))). apply sweep_comb. Qed.

  Lemma pmod_shift_pmod a j : pmod (N.shiftl (pmod a P) j) P = pmod (N.shiftl a j) P.
  Proof.
    replace (N.shiftl a j) with (N.lxor (N.shiftl (pmod a P) j) (N.shiftl (N.lxor a (pmod a P)) j)).
    - rewrite pmod_linear, (pmod_comb _ (comb_shift _ j (pmod_comb_diff a))), N.lxor_0_r. reflexivity.
    - rewrite <- N.shiftl_lxor. f_equal. bitwise.
  Qed.
  Lemma pmod_idem a : pmod (pmod a P) P = pmod a P.
  Proof. apply pmod_small. apply pmod_below. Qed.
End Poly.

Lemma lor_lxor_disjoint x y : (forall m, N.testbit x m && N.testbit y m = false) -> N.lor x y = N.lxor x y.
Proof.
  intros H. apply N.bits_inj. intro m. rewrite N.lor_spec, N.lxor_spec. specialize (H m).
  destruct (N.testbit x m), (N.testbit y m); cbn in *; congruence.
Qed.
Lemma below_shiftl n j x : below n x -> below (n + j) (N.shiftl x j).
Proof. intros H m Hm. rewrite N.shiftl_spec_high by lia. apply H. lia. Qed.
Lemma shiftl_disjoint_below a n y : below n y -> forall m, N.testbit (N.shiftl a n) m && N.testbit y m = false.
Proof.
  intros H m. destruct (N.lt_ge_cases m n) as [L|L].
  - rewrite N.shiftl_spec_low by assumption. reflexivity.
  - rewrite (H m L). apply andb_false_r.
Qed.
Lemma land_lxor_l x y c : N.land (N.lxor x y) c = N.lxor (N.land x c) (N.land y c).
Proof.
  apply N.bits_inj. intro m. rewrite !N.land_spec, !N.lxor_spec, !N.land_spec.
  destruct (N.testbit x m), (N.testbit y m), (N.testbit c m); reflexivity.
Qed.
Lemma land255_lt x : N.land x 255 < 256.
Proof. change 255 with (N.ones 8). rewrite N.land_ones. apply N.mod_lt. discriminate. Qed.
Lemma lxor_byte x y : x < 256 -> y < 256 -> N.lxor x y < 256.
Proof. intros Hx Hy. apply (lt_below 8). apply below_lxor; apply below_lt; assumption. Qed.
Lemma index_bits h s j : N.testbit (N.land (N.shiftr h s) 255) j = if j <? 8 then N.testbit h (j + s) else false.
Proof.
  rewrite N.land_spec, N.shiftr_spec'. change 255 with (N.ones 8). destruct (N.ltb_spec j 8).
  - rewrite N.ones_spec_low by assumption. apply andb_true_r.
  - rewrite N.ones_spec_high by assumption. apply andb_false_r.
Qed.

(* A GF(2)-linear function of a number below 2^n is determined by its values at the n powers of
   two: xor together those at the one bits (basis = the values, lowest power first). *)
Fixpoint xsel (basis : list N) (q : positive) : N :=
  match basis with
  | [] => 0
  | e :: r => match q with xH => e | xO q' => xsel r q' | xI q' => N.lxor e (xsel r q') end
  end.

Lemma xsel_linear (f : N -> N) : (forall x y, f (N.lxor x y) = N.lxor (f x) (f y)) ->
  forall n q j, Npos q < 2 ^ N.of_nat n ->
  xsel (map (fun i => f (N.shiftl 1 (N.of_nat i))) (seq j n)) q = f (N.shiftl (Npos q) (N.of_nat j)).
Proof.
  intros Hf. induction n as [|n IH]; intros q j Hq; [cbn in Hq; lia|].
  rewrite Nat2N.inj_succ, N.pow_succ_r' in Hq. cbn [seq map xsel].
  assert (E : forall q', N.shiftl (Npos q') (N.of_nat (S j)) = N.shiftl (Npos q'~0) (N.of_nat j)).
  { intros q'. change (Npos q'~0) with (N.shiftl (Npos q') 1). rewrite N.shiftl_shiftl. f_equal. lia. }
  destruct q as [q'|q'|].
  - rewrite IH by lia. rewrite E, <- Hf, <- N.shiftl_lxor. reflexivity.
  - rewrite IH by lia. rewrite E. reflexivity.
  - reflexivity.
Qed.
