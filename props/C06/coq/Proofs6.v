(* C06 — the chunker's window at length L, explicitly; the cut decision at L is the Rabin
   fingerprint (reduction modulo P) of that window for degree 8..56, the from-scratch fold `wfold`
   for every degree >= 8; for L >= min + 64 the window is exactly the last 64 bytes. *)
From Verif.Base Require Import Tactics Lists.
From Verif.C06 Require Import Extracted Model Spec ListLemmas Proofs5 Proofs7.
Local Open Scope N_scope.

Lemma a_fifo_fold T : forall xs w, a_fifo w <> [] ->
  a_fifo (fold_left (a_slide T) xs w) = skipn (length xs) (a_fifo w ++ xs).
Proof.
  induction xs as [|x xs IH]; intros w Hw; cbn [fold_left length skipn].
  - rewrite app_nil_r. reflexivity.
  - unfold a_slide at 2. destruct (a_fifo w) as [|o t] eqn:E; [congruence|].
    rewrite IH by (cbn [a_fifo]; destruct t; discriminate).
    cbn [a_fifo app skipn]. rewrite <- app_assoc. reflexivity.
Qed.

Lemma wsize_is p : t_wsize (tab_of p) = 64.
Proof. unfold tab_of. cbn [rabin_tab t_wsize]. vm_compute. reflexivity. Qed.
Lemma prefill_is : PREFILL_SLICE = 64.
Proof. vm_compute. reflexivity. Qed.

Lemma win_start_fifo p (s : bytes) : PREFILL_SLICE <= c_min p -> c_min p <= nlen s ->
  a_fifo (win_start (tab_of p) p s) = 0 :: ntake 63 (ndrop (c_min p - 64) s).
Proof.
  intros H1 H2. unfold win_start, a_init. cbn [a_fifo]. rewrite wsize_is. f_equal.
  rewrite prefill_is in *. change (64 - 1) with 63.
  rewrite !ntake_firstn, !ndrop_skipn, skipn_firstn_comm, firstn_firstn.
  f_equal. unfold nlen in *. lia.
Qed.

(* The window at length L: the last 64 of  0 :: s[min-64 .. min-1) ++ s[min .. L). *)
Lemma win_fifo p (s : bytes) L : PREFILL_SLICE <= c_min p -> c_min p <= L -> L <= nlen s ->
  a_fifo (win_at (tab_of p) p s L)
  = skipn (N.to_nat (L - c_min p))
          ((0 :: ntake 63 (ndrop (c_min p - 64) s)) ++ ntake (L - c_min p) (ndrop (c_min p) s)).
Proof.
  intros H1 H2 H3. unfold win_at.
  rewrite a_fifo_fold by (unfold win_start, a_init; cbn [a_fifo]; discriminate).
  rewrite (win_start_fifo p s H1) by lia.
  assert (E := nlen_ntake (L - c_min p) (ndrop (c_min p) s)). rewrite nlen_ndrop in E.
  unfold nlen in *. replace (length (ntake (L - c_min p) (ndrop (c_min p) s))) with (N.to_nat (L - c_min p)) by lia.
  reflexivity.
Qed.

Lemma prefill_length p (s : bytes) : PREFILL_SLICE <= c_min p -> c_min p <= nlen s ->
  length (ntake 63 (ndrop (c_min p - 64) s)) = 63%nat.
Proof.
  intros H1 H2. assert (E := nlen_ntake 63 (ndrop (c_min p - 64) s)). rewrite nlen_ndrop in E.
  rewrite prefill_is in H1. unfold nlen in *. lia.
Qed.

Lemma win_fifo_far p (s : bytes) L : PREFILL_SLICE <= c_min p -> c_min p + 64 <= L -> L <= nlen s ->
  a_fifo (win_at (tab_of p) p s L) = ntake 64 (ndrop (L - 64) s).
Proof.
  intros H1 H2 H3. rewrite win_fifo by (assumption || lia).
  assert (E := prefill_length p s H1). rewrite skipn_app, skipn_all2 by (cbn [length]; lia).
  cbn [length app]. rewrite E by lia.
  rewrite !ntake_firstn, !ndrop_skipn, skipn_firstn_comm, skipn_skipn.
  f_equal; [|f_equal]; lia.
Qed.

(* what holds of every window reached from a prefill holds of the chunker's window *)
Lemma win_at_rolling p (s : bytes) L (Q : awin -> Prop) :
  (forall bs xs, Forall isbyte bs -> Forall isbyte xs ->
     length bs = (N.to_nat (t_wsize (tab_of p)) - 1)%nat ->
     Q (fold_left (a_slide (tab_of p)) xs (a_init (tab_of p) bs))) ->
  Forall isbyte s -> PREFILL_SLICE <= c_min p -> c_min p <= nlen s -> Q (win_at (tab_of p) p s L).
Proof.
  intros HQ Hs H1 H2. apply HQ.
  - apply Forall_ntake, Forall_ndrop, Forall_ntake. assumption.
  - apply Forall_ntake, Forall_ndrop. assumption.
  - assert (E := nlen_ntake (t_wsize (tab_of p) - 1) (ndrop (c_min p - PREFILL_SLICE) (ntake (c_min p) s))).
    rewrite nlen_ndrop, (nlen_ntake (c_min p)) in E. unfold nlen in *. rewrite wsize_is, prefill_is in *. lia.
Qed.

Lemma window_hash_is_fingerprint_lemma : forall p s L, Forall isbyte s ->
  8 <= N.log2 (c_poly p) -> N.log2 (c_poly p) <= 56 ->
  PREFILL_SLICE <= c_min p -> c_min p <= nlen s ->
  a_hash (win_at (tab_of p) p s L) = fp_direct (c_poly p) (a_fifo (win_at (tab_of p) p s L)).
Proof.
  intros p s L Hs Hlo Hhi. apply (win_at_rolling p s L (fun w => a_hash w = fp_direct _ (a_fifo w))); [|assumption].
  apply (rolling_lemma (c_poly p) WINDOW_BITS Hlo Hhi).
Qed.

Lemma window_hash_is_wfold : forall p s L, Forall isbyte s ->
  8 <= N.log2 (c_poly p) -> PREFILL_SLICE <= c_min p -> c_min p <= nlen s ->
  a_hash (win_at (tab_of p) p s L) = wfold (tab_of p) (a_fifo (win_at (tab_of p) p s L)).
Proof.
  intros p s L Hs Hlo. apply (win_at_rolling p s L (fun w => a_hash w = wfold _ (a_fifo w))); [|assumption].
  apply (rolling_any_degree_lemma (c_poly p) WINDOW_BITS Hlo).
Qed.

Lemma cut_local_lemma : forall p s L, Forall isbyte s ->
  8 <= N.log2 (c_poly p) -> N.log2 (c_poly p) <= 56 ->
  PREFILL_SLICE <= c_min p -> c_min p + 64 <= L -> L <= nlen s ->
  a_fifo (win_at (tab_of p) p s L) = ntake 64 (ndrop (L - 64) s) /\
  a_hash (win_at (tab_of p) p s L) = fp_direct (c_poly p) (ntake 64 (ndrop (L - 64) s)).
Proof.
  intros p s L Hs Hlo Hhi H1 H2 H3. rewrite <- (win_fifo_far p s L H1 H2 H3).
  split; [reflexivity|]. apply window_hash_is_fingerprint_lemma; try assumption. lia.
Qed.

(* hypotheses are satisfiable: the restic default polynomial has degree 53 *)
Example default_poly_degree : 8 <= N.log2 0x3DA3358B4DC173 /\ N.log2 0x3DA3358B4DC173 <= 56.
Proof. vm_compute. split; discriminate. Qed.

Definition ex_stream (n : nat) : bytes := map (fun i => (N.of_nat i * 37 + 11) mod 256) (seq 0 n).
Lemma ex_stream_bytes n : Forall isbyte (ex_stream n).
Proof. apply Forall_forall. intros x Hx. apply in_map_iff in Hx. destruct Hx as [i [<- _]]. apply N.mod_lt. discriminate. Qed.

Example cut_local_example :
  let p := {| c_poly := 0x3DA3358B4DC173; c_avg := 64; c_min := 64; c_max := 4096 |} in
  let s := map (fun i => (N.of_nat i * 37 + 11) mod 256) (seq 0 200) in
  a_hash (win_at (tab_of p) p s 150) = fp_direct (c_poly p) (ntake 64 (ndrop 86 s)).
Proof.
  intros p s. apply (cut_local_lemma p s 150 (ex_stream_bytes 200)); try apply default_poly_degree;
    apply N.leb_le; vm_compute; reflexivity.
Qed.
