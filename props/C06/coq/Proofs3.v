(* C06 — the hypotheses are satisfiable. *)
From Verif.Base Require Import Tactics.
From Verif.C06 Require Import Extracted Model Spec ListLemmas Proofs Proofs2.
Local Open Scope N_scope.

(* the restic default polynomial; min = BUF_SIZE - 1, the smallest params_ok admits *)
Definition ex_params : cparams :=
  {| c_poly := 0x3DA3358B4DC173; c_avg := 4096; c_min := 4095; c_max := 8192 |}.
Example params_ok_satisfiable : params_ok ex_params = true.
Proof. vm_compute. reflexivity. Qed.
Example default_params_ok :
  params_ok {| c_poly := 0x3DA3358B4DC173; c_avg := DEFAULT_CHUNK_SIZE;
               c_min := DEFAULT_CHUNK_MIN_SIZE; c_max := DEFAULT_CHUNK_MAX_SIZE |} = true.
Proof. vm_compute. reflexivity. Qed.
