(* C06 — accepted polynomials: the chunker is used only with polynomials of degree 8..56, for
   which the tested hash is the Rabin fingerprint; hence for every accepted configuration the
   cut predicate is the one with the table-free fingerprint. *)
From Verif.Base Require Import Tactics.
From Verif.C06 Require Import Extracted Model Spec Proofs2 Proofs4 Proofs5 Proofs6.
Local Open Scope N_scope.

Lemma accepted_poly_degree_lemma : forall P, poly_accepts P = true -> 8 <= N.log2 P /\ N.log2 P <= 56.
Proof.
  intros P H. unfold poly_accepts, poly_accepts_src, poly_degree_errors in H. cbn [existsb] in H.
  apply andb_prop in H. destruct H as [_ H]. apply negb_true_iff in H.
  rewrite orb_false_r in H. apply orb_false_elim in H. destruct H as [H1 H2].
  apply N.ltb_ge in H1, H2.
  assert (B1 : 8 <= MIN_POLY_DEGREE) by (apply N.leb_le; vm_compute; reflexivity).
  assert (B2 : MAX_POLY_DEGREE <= 56) by (apply N.leb_le; vm_compute; reflexivity).
  lia.
Qed.
Example default_poly_accepted : poly_accepts 0x3DA3358B4DC173 = true.
Proof. vm_compute. reflexivity. Qed.
Example zero_poly_rejected : poly_accepts 0 = false /\ poly_accepts 0x83 = false /\ poly_accepts 0x3236eb02265b1f5 = false.
Proof. vm_compute. auto. Qed.

Definition is_cut_fp (p : cparams) (s : bytes) (L : N) : bool :=
  (c_max p <=? L)
  || (N.land (fp_direct (c_poly p) (a_fifo (win_at (tab_of p) p s L))) (c_avg p - 1) =? 0)
  || (L =? nlen s).

Lemma accepted_is_cut_fp : forall P avg mn mx s L,
  poly_accepts P = true -> rabin_accepts avg mn mx = true -> Forall isbyte s -> mn <= nlen s ->
  let p := {| c_poly := P; c_avg := avg; c_min := mn; c_max := mx |} in
  is_cut (tab_of p) p s L = is_cut_fp p s L.
Proof.
  intros P avg mn mx s L HP Ha Hs Hl p.
  destruct (accepted_poly_degree_lemma P HP) as [D1 D2].
  pose proof (params_ok_hyps p (accepted_params_ok_lemma P avg mn mx Ha)) as Hh.
  unfold is_cut, is_cut_fp.
  rewrite (window_hash_is_fingerprint_lemma p s L Hs D1 D2 (h_slice _ _ Hh) Hl). reflexivity.
Qed.
