(* C06 — executable model of the chunkers of rustic_core.

   Rabin chunker: crates/core/src/chunker/rabin.rs (ChunkIter::new / Iterator::next),
   rolling hash: rustic_cdc 0.3.1 rolling_hash.rs (Rabin64) and polynom.rs (Polynom64).
   Fixed-size chunker: crates/core/src/chunker/fixed_size.rs.
   Constants (BUF_SIZE, the 64 of the prefill slice, the window bits, the conditions of
   check_rabin_params) come from Extracted.v, i.e. from the current source.

   Conventions
   * bytes are N (< 256), streams are lists; usize/u64 are N with explicit truncation
     (`shl64`) or explicit checked subtraction (`usize_sub`: Debug -> panic, Release -> wrap).
   * The reader is the remaining stream plus a read schedule `list rd`: each call of
     `Read::read` pops one event; `Short k` delivers at most max(1,k) bytes (never more than
     the buffer offered, never more than what remains), `Interrupted` fails with
     ErrorKind::Interrupted; once the list is used up every read is as long as possible.
     (A terminating run consumes finitely many events, so finite lists lose nothing; the
     sizes of the buffers std's `read_to_end` offers are folded into the schedule.)
   * The read-ahead buffer `buf`/`pos` is represented by `st_avail` = buf[pos..] and
     `st_buflen` = buf.len() (it shrinks permanently: `buf.truncate(size)`); buf[..pos] is
     never read again by the code.
   * `vec` is accumulated in reverse inside the main loop (`b :: acc` = vec.push(b)). *)
From Verif.Base Require Import Tactics.
From Verif.C06 Require Import Extracted.
Local Open Scope N_scope.

Definition byte := N.
Definition bytes := list N.
Definition nlen {A} (l : list A) : N := N.of_nat (length l).
(* firstn / skipn with a binary count (a wrapped usize must not be turned into a unary nat);
   ListLemmas.v shows ntake n l = firstn (N.to_nat n) l and ndrop n l = skipn (N.to_nat n) l *)
Fixpoint ntake {A} (n : N) (l : list A) : list A :=
  match l with [] => [] | x :: t => if n =? 0 then [] else x :: ntake (n - 1) t end.
Fixpoint ndrop {A} (n : N) (l : list A) : list A :=
  match l with [] => [] | x :: t => if n =? 0 then l else ndrop (n - 1) t end.

Inductive mode := Debug | Release.
Inductive panic :=
| PMinSizeSub      (* `min_size -= open_buf_len`: attempt to subtract with overflow *)
| PWindowSub       (* `vec.len() - 64`: attempt to subtract with overflow (debug) *)
| PWindowSlice.    (* `vec[huge..len]`: slice index out of range (release) *)
Inductive res (A : Type) := Ok (a : A) | Panic (p : panic) | OutOfFuel.
Arguments Ok {A} a.
Arguments Panic {A} p.
Arguments OutOfFuel {A}.

Definition U64 : N := 2 ^ 64.
Definition usize_sub (md : mode) (a b : N) : option N :=
  if b <=? a then Some (a - b)
  else match md with Debug => None | Release => Some (a + U64 - b) end.

(* ------------------------------------------------------------------ Polynom64 *)
Definition shl64 (x k : N) : N := (N.shiftl x k) mod U64.
(* `63 - leading_zeros` for p > 0 (the model is only used with polynomials of degree >= 8) *)
Definition degree (p : N) : N := N.log2 p.

(* `while p.degree() >= m.degree() { p ^= m << (p.degree() - m.degree()) }` *)
Fixpoint pmod_fuel (fuel : nat) (p m : N) : N :=
  match fuel with
  | O => p
  | S f =>
      if p =? 0 then p
      else if N.log2 m <=? N.log2 p
           then pmod_fuel f (N.lxor p (N.shiftl m (N.log2 p - N.log2 m))) m
           else p
  end.
Definition pmod (p m : N) : N := pmod_fuel (N.to_nat (N.size p)) p m.

(* ------------------------------------------------------------------ Rabin64 *)
Record rtab := { t_shift : N; t_out : list N; t_mod : list N; t_wsize : N; t_wmask : N }.
Record rstate := { r_win : list N; r_idx : N; r_hash : N }.

Fixpoint iter {A} (n : nat) (f : A -> A) (x : A) : A :=
  match n with O => x | S k => iter k f (f x) end.

(* calculate_out_table: hash = b mod P; (window_size-1) times: hash <<= 8; hash = hash mod P *)
Definition out_entry (wsize P b : N) : N :=
  iter (N.to_nat (wsize - 1)) (fun h => pmod (shl64 h 8) P) (pmod b P).
(* calculate_mod_table: p = b << k; elem = p.modulo(P) | p *)
Definition mod_entry (P b : N) : N :=
  let p := shl64 b (degree P) in N.lor (pmod p P) p.
Definition byte_values : list N := map N.of_nat (seq 0 256).

(* Rabin64::new_with_polynom(bits, P) — the immutable part *)
Definition rabin_tab (bits P : N) : rtab :=
  let ws := N.shiftl 1 bits in
  {| t_shift := degree P - 8;
     t_out := map (out_entry ws P) byte_values;
     t_mod := map (mod_entry P) byte_values;
     t_wsize := ws; t_wmask := ws - 1 |}.
(* ... and the mutable part: window_data = vec![0; window_size], window_index = 0, hash = 0 *)
Definition rabin_init (T : rtab) : rstate :=
  {| r_win := repeat 0 (N.to_nat (t_wsize T)); r_idx := 0; r_hash := 0 |}.

Definition tbl (t : list N) (i : N) : N := nth (N.to_nat i) t 0.
Fixpoint set_nth (n : nat) (v : N) (l : list N) : list N :=
  match l, n with
  | [], _ => []
  | _ :: t, O => v :: t
  | x :: t, S k => x :: set_nth k v t
  end.

(* mod_index = (hash >> polynom_shift) & 255; hash <<= 8; hash |= byte; hash ^= mod_table[mod_index] *)
Definition append_byte (T : rtab) (h b : N) : N :=
  let mi := N.land (N.shiftr h (t_shift T)) 255 in
  N.lxor (N.lor (shl64 h 8) b) (tbl (t_mod T) mi).

(* window_data[window_index] = byte; <hash update>; window_index = (window_index + 1) & mask *)
Definition rb_put (T : rtab) (r : rstate) (h b : N) : rstate :=
  {| r_win := set_nth (N.to_nat (r_idx r)) b (r_win r);
     r_idx := N.land (r_idx r + 1) (t_wmask T);
     r_hash := append_byte T h b |}.

(* slide: out_value = window_data[window_index]; hash ^= out_table[out_value]; then as above *)
Definition rb_slide (T : rtab) (r : rstate) (b : N) : rstate :=
  let out := tbl (r_win r) (r_idx r) in
  rb_put T r (N.lxor (r_hash r) (tbl (t_out T) out)) b.

(* reset_and_prefill_window: hash = 0; up to window_size-1 bytes are put WITHOUT removing the
   old value; window_index is NOT reset; finally window_data[window_index] = 0 *)
Definition rb_prefill_step (T : rtab) (r : rstate) (b : N) : rstate := rb_put T r (r_hash r) b.
Definition rb_reset_prefill (T : rtab) (r : rstate) (it : bytes) : rstate :=
  let r0 := {| r_win := r_win r; r_idx := r_idx r; r_hash := 0 |} in
  let r1 := fold_left (rb_prefill_step T) (ntake (t_wsize T - 1) it) r0 in
  {| r_win := set_nth (N.to_nat (r_idx r1)) 0 (r_win r1); r_idx := r_idx r1; r_hash := r_hash r1 |}.

(* ------------------------------------------------------------------ the reader *)
Inductive rd := Short (k : N) | Interrupted.

Inductive rdres := RInt (sc : list rd) | RData (d rest : bytes) (sc : list rd).
(* one `reader.read(&mut buf[..cap])`, cap >= 1 *)
Definition sread (cap : N) (rest : bytes) (sched : list rd) : rdres :=
  match sched with
  | Interrupted :: sc => RInt sc
  | Short k :: sc => let n := N.min (N.max 1 k) cap in RData (ntake n rest) (ndrop n rest) sc
  | [] => RData (ntake cap rest) (ndrop cap rest) []
  end.

(* `(&mut reader).take(limit).read_to_end(&mut vec)`: reads until the limit is reached (Take
   then answers Ok(0) without touching the reader) or the reader says Ok(0); Interrupted is
   retried.  Returns (bytes appended, remaining stream, remaining schedule). *)
Fixpoint read_to_end (limit : N) (rest : bytes) (sched : list rd) : bytes * bytes * list rd :=
  match sched with
  | [] => (ntake limit rest, ndrop limit rest, [])
  | ev :: sc =>
      if limit =? 0 then ([], rest, sched)
      else match ev with
           | Interrupted => read_to_end limit rest sc
           | Short k =>
               let n := N.min (N.max 1 k) limit in
               match ntake n rest with
               | [] => ([], rest, sc)
               | d => let '(d', rest', sc') := read_to_end (limit - nlen d) (ndrop n rest) sc in
                      (d ++ d', rest', sc')
               end
           end
  end.

(* ------------------------------------------------------------------ Rabin ChunkIter *)
Record cparams := { c_poly : N; c_avg : N; c_min : N; c_max : N }.
Record cstate := { st_avail : bytes; st_buflen : N; st_finished : bool;
                   st_rabin : rstate; st_hint : N }.

(* ChunkIter::new: buf = vec![0; BUF_SIZE], pos = BUF_SIZE, finished = false *)
Definition init_state (T : rtab) (hint : N) : cstate :=
  {| st_avail := []; st_buflen := BUF_SIZE; st_finished := false;
     st_rabin := rabin_init T; st_hint := hint |}.

Record lstate := { l_acc : bytes; l_len : N; l_r : rstate; l_avail : bytes; l_buflen : N;
                   l_rest : bytes; l_sched : list rd; l_fin : bool }.

(* the `loop { ... }` of next(); acc = vec reversed, len = vec.len() *)
Fixpoint main_loop (fuel : nat) (T : rtab) (mask max_size : N) (acc : bytes) (len : N)
         (r : rstate) (avail : bytes) (buflen : N) (rest : bytes) (sched : list rd)
  : option lstate :=
  match fuel with
  | O => None
  | S f =>
      if max_size <=? len then Some (Build_lstate acc len r avail buflen rest sched false)
      else if N.land (r_hash r) mask =? 0 then Some (Build_lstate acc len r avail buflen rest sched false)
      else match avail with
           | b :: av =>                                   (* buf.len() != pos *)
               main_loop f T mask max_size (b :: acc) (len + 1) (rb_slide T r b) av buflen rest sched
           | [] =>                                        (* refill: reader.read(&mut buf[..]) *)
               match sread buflen rest sched with
               | RInt sc => main_loop f T mask max_size acc len r [] buflen rest sc   (* continue *)
               | RData [] rest' sc =>                     (* Ok(0): finished = true; break *)
                   Some (Build_lstate acc len r [] buflen rest' sc true)
               | RData (b :: d) rest' sc =>               (* Ok(n): pos = 0; buf.truncate(n); push *)
                   main_loop f T mask max_size (b :: acc) (len + 1) (rb_slide T r b) d (1 + nlen d) rest' sc
               end
           end
  end.

Definition loop_fuel (rest : bytes) (sched : list rd) : nat := (2 * length rest + length sched + 2)%nat.

(* one call of Iterator::next.  Result: (item, new state, remaining stream, remaining schedule) *)
Definition chunk_next (md : mode) (T : rtab) (p : cparams) (st : cstate) (rest : bytes) (sched : list rd)
  : res (option bytes * cstate * bytes * list rd) :=
  if st_finished st then Ok (None, st, rest, sched) else
  let open_buf_len := nlen (st_avail st) in
  (* vec = buf[pos..]; pos = buf.len(); min_size -= open_buf_len *)
  match (if 0 <? open_buf_len then usize_sub md (c_min p) open_buf_len else Some (c_min p)) with
  | None => Panic PMinSizeSub
  | Some min_size =>
      let '(data, rest1, sched1) := read_to_end min_size rest sched in
      let size := nlen data in
      let vec := st_avail st ++ data in
      if size <? min_size then
        (* finished = true; vec.truncate(size + open_buf_len); None if empty *)
        let st' := {| st_avail := []; st_buflen := st_buflen st; st_finished := true;
                      st_rabin := st_rabin st; st_hint := st_hint st |} in
        Ok (match vec with [] => None | _ => Some vec end, st', rest1, sched1)
      else
        let vlen := open_buf_len + size in
        if vlen <? PREFILL_SLICE then
          Panic (match md with Debug => PWindowSub | Release => PWindowSlice end)
        else
          let r1 := rb_reset_prefill T (st_rabin st) (ndrop (vlen - PREFILL_SLICE) vec) in
          match main_loop (loop_fuel rest1 sched1) T (c_avg p - 1) (c_max p) (rev vec) vlen r1 []
                          (st_buflen st) rest1 sched1 with
          | None => OutOfFuel
          | Some ls =>
              let st' := {| st_avail := l_avail ls; st_buflen := l_buflen ls; st_finished := l_fin ls;
                            st_rabin := l_r ls; st_hint := st_hint st - l_len ls |} in
              Ok (Some (rev (l_acc ls)), st', l_rest ls, l_sched ls)
          end
  end.

(* drive the iterator to its first None *)
Fixpoint chunks_loop (n : nat) (md : mode) (T : rtab) (p : cparams) (st : cstate) (rest : bytes)
         (sched : list rd) : res (list bytes) :=
  match n with
  | O => OutOfFuel
  | S k =>
      match chunk_next md T p st rest sched with
      | Ok (None, _, _, _) => Ok []
      | Ok (Some c, st', rest', sched') =>
          match chunks_loop k md T p st' rest' sched' with
          | Ok cs => Ok (c :: cs)
          | e => e
          end
      | Panic x => Panic x
      | OutOfFuel => OutOfFuel
      end
  end.

Definition tab_of (p : cparams) : rtab := rabin_tab WINDOW_BITS (c_poly p).

Definition chunks_impl (md : mode) (p : cparams) (hint : N) (s : bytes) (sched : list rd) : res (list bytes) :=
  let T := tab_of p in
  chunks_loop (S (S (length s))) md T p (init_state T hint) s sched.

(* check_rabin_params: Ok iff none of the error conditions found in the source holds *)
Definition rabin_accepts (cs mn mx : N) : bool := negb (existsb (fun b => b) (rabin_param_errors cs mn mx)).

(* check_rabin_polynomial (ChunkIter::from_config): the stored polynomial is used only if the
   condition found in the source holds (`true` when the source has no such check) *)
Definition poly_accepts (P : N) : bool := poly_accepts_src P.

(* ------------------------------------------------------------------ fixed-size ChunkIter *)
Record fstate := { f_finished : bool; f_hint : N }.
Definition fixed_next (size : N) (st : fstate) (rest : bytes) (sched : list rd)
  : option bytes * fstate * bytes * list rd :=
  if f_finished st then (None, st, rest, sched) else
  let '(data, rest1, sched1) := read_to_end size rest sched in
  let fin := nlen data <? size in
  (match data with [] => None | _ => Some data end,
   {| f_finished := fin; f_hint := f_hint st - nlen data |}, rest1, sched1).

Fixpoint fixed_loop (n : nat) (size : N) (st : fstate) (rest : bytes) (sched : list rd) : option (list bytes) :=
  match n with
  | O => None
  | S k =>
      match fixed_next size st rest sched with
      | (None, _, _, _) => Some []
      | (Some c, st', rest', sched') =>
          match fixed_loop k size st' rest' sched' with Some cs => Some (c :: cs) | None => None end
      end
  end.
Definition fixed_impl (size hint : N) (s : bytes) (sched : list rd) : option (list bytes) :=
  fixed_loop (S (S (length s))) size {| f_finished := false; f_hint := hint |} s sched.
Definition fixed_accepts (size : N) : bool := FIXED_SIZE_MIN <=? size.
