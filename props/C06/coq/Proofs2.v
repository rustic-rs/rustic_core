(* C06 — `cuts` cuts greedily by `first_len`: what holds of every greedy cutting.  Refinement,
   second half: one call of next() yields the first chunk of the specification and leaves the
   rest, so the whole iteration is `cuts`.  Where `scan` stops and the size bounds of this cutting. *)
From Verif.Base Require Import Tactics Lists.
From Verif.C06 Require Import Extracted Model Spec ListLemmas Proofs.
Local Open Scope N_scope.

Lemma first_len_short T p s : nlen s < c_min p -> first_len T p s = length s.
Proof. intros H. unfold first_len. destruct (N.ltb_spec (nlen s) (c_min p)); [reflexivity|lia]. Qed.
Lemma first_len_long T p s : c_min p <= nlen s ->
  first_len T p s = (N.to_nat (c_min p)
                     + scan T (c_avg p - 1) (c_max p) (win_start T p s) (c_min p) (ndrop (c_min p) s))%nat.
Proof. intros H. unfold first_len. destruct (N.ltb_spec (nlen s) (c_min p)); [lia|reflexivity]. Qed.

Lemma first_len_pos T p s : 1 <= c_min p -> s <> [] -> (1 <= first_len T p s)%nat.
Proof.
  intros Hm Hs. destruct (N.lt_ge_cases (nlen s) (c_min p)).
  - rewrite first_len_short by assumption. destruct s; [congruence|]. cbn [length]. lia.
  - rewrite first_len_long by assumption. lia.
Qed.

Section Causal.
  Local Open Scope nat_scope.

  (* the scan for the cut is causal: if it stops exactly at the end of l although input remains,
     it stops there whatever follows *)
  Lemma scan_causal T mask mx : forall (l : list N) w len r r',
    r <> [] -> scan T mask mx w len (l ++ r) = length l -> scan T mask mx w len (l ++ r') = length l.
  Proof.
    induction l as [|b l IH]; intros w len r r' Nr H; rewrite scan_unfold in H |- *; cbn [app length] in *.
    - destruct (mx <=? len)%N; [reflexivity|]. destruct (N.land (a_hash w) mask =? 0)%N; [reflexivity|].
      destruct r; [congruence | discriminate].
    - destruct (mx <=? len)%N; [discriminate|]. destruct (N.land (a_hash w) mask =? 0)%N; [discriminate|].
      injection H as H. f_equal. eapply IH; eassumption.
  Qed.

  (* once the minimum size is reached, neither the window nor the size test looks at what follows c *)
  Lemma first_len_app T p (c x : list N) : (c_min p <= nlen c)%N ->
    first_len T p (c ++ x) =
    N.to_nat (c_min p) + scan T (c_avg p - 1) (c_max p) (win_start T p c) (c_min p) (ndrop (c_min p) c ++ x).
  Proof.
    intro H. unfold first_len, win_start.
    replace (nlen (c ++ x) <? c_min p)%N with false by (symmetry; apply N.ltb_ge; rewrite nlen_app; lia).
    rewrite (ntake_app (c_min p)), (ndrop_app (c_min p)). replace (c_min p - nlen c)%N with 0%N by lia.
    rewrite ntake_0, ndrop_0, app_nil_r. reflexivity.
  Qed.

  Lemma first_len_causal T p (c r r' : list N) :
    r <> [] -> first_len T p (c ++ r) = length c -> first_len T p (c ++ r') = length c.
  Proof.
    intros Nr H. assert (Hmin : (c_min p <= nlen c)%N).
    { unfold first_len, nlen in *. destruct (N.of_nat (length (c ++ r)) <? c_min p)%N; [|lia].
      rewrite app_length in H. destruct r; [congruence | cbn [length] in H; lia]. }
    rewrite (first_len_app T p c r Hmin) in H. rewrite (first_len_app T p c r' Hmin).
    assert (Hl : length c = N.to_nat (c_min p) + length (ndrop (c_min p) c)).
    { pose proof (nlen_ndrop (c_min p) c) as Q. unfold nlen in Q, Hmin. lia. }
    rewrite Hl in H |- *. f_equal. eapply scan_causal; [exact Nr | lia].
  Qed.
End Causal.

Section Greedy.
  Variable len : bytes -> nat.
  Fixpoint greedy (n : nat) (s : bytes) : list bytes :=
    match n, s with
    | S k, _ :: _ => firstn (len s) s :: greedy k (skipn (len s) s)
    | _, _ => []
    end.
  Hypothesis len_pos : forall s, s <> [] -> (1 <= len s)%nat.

  Lemma greedy_ind (Q : bytes -> list bytes -> Prop) :
    Q [] [] ->
    (forall s cs, s <> [] -> Q (skipn (len s) s) cs -> Q s (firstn (len s) s :: cs)) ->
    forall n s, (length s <= n)%nat -> Q s (greedy n s).
  Proof.
    intros Q0 Qs. induction n as [|n IH]; intros [|x t] Hn; cbn [length] in Hn; try exact Q0; [lia|].
    assert (Hne : x :: t <> []) by discriminate. cbn [greedy]. apply Qs; [assumption|].
    apply IH. rewrite skipn_length. specialize (len_pos _ Hne). cbn [length]. lia.
  Qed.

  Lemma greedy_fuel n n' s : (length s <= n)%nat -> (length s <= n')%nat -> greedy n s = greedy n' s.
  Proof.
    intros Hn. revert n'. apply (greedy_ind (fun s cs => forall n', (length s <= n')%nat -> cs = greedy n' s)); [| |exact Hn].
    - intros [|n'] _; reflexivity.
    - intros [|x t] cs Hne IH [|n'] Hn'; try congruence; cbn [length] in Hn'; [lia|].
      cbn [greedy]. f_equal. apply IH. rewrite skipn_length. specialize (len_pos _ Hne). cbn [length]. lia.
  Qed.

  Lemma greedy_concat n s : (length s <= n)%nat -> concat (greedy n s) = s.
  Proof.
    apply (greedy_ind (fun s cs => concat cs = s)); [reflexivity|].
    intros s' cs _ IH. cbn [concat]. rewrite IH. apply firstn_skipn.
  Qed.
End Greedy.

(* What holds of every chunker that cuts greedily by `len`, whatever fuel its definition carries.
   `len_causal`: a cut decided before the end of the input does not depend on what follows it. *)
Section GreedyChunker.
  Variable len : bytes -> nat.
  Variable chunker : bytes -> list bytes.
  Hypothesis len_pos : forall s, s <> [] -> (1 <= len s)%nat.
  Hypothesis chunker_greedy : forall s, chunker s = greedy len (length s) s.

  Lemma greedy_unfold s : s <> [] -> chunker s = firstn (len s) s :: chunker (skipn (len s) s).
  Proof.
    intro Hne. rewrite !chunker_greedy. pose proof (len_pos s Hne).
    destruct s as [|x t]; [congruence|]. cbn [length greedy]. f_equal.
    apply greedy_fuel; [exact len_pos| |lia]. rewrite skipn_length. cbn [length]. lia.
  Qed.

  Lemma greedy_first c x : c <> [] -> len (c ++ x) = length c -> chunker (c ++ x) = c :: chunker x.
  Proof.
    intros Nc E. rewrite greedy_unfold by (destruct c; [congruence|discriminate]).
    rewrite E, firstn_app, skipn_app, Nat.sub_diag, firstn_all, skipn_all. cbn [firstn skipn app].
    now rewrite app_nil_r.
  Qed.

  Lemma greedy_partition : (forall s, concat (chunker s) = s) /\ (forall s c, In c (chunker s) -> c <> []).
  Proof.
    split; intro s; rewrite chunker_greedy.
    - apply greedy_concat; [exact len_pos|lia].
    - apply (greedy_ind len len_pos (fun s cs => forall c, In c cs -> c <> [])); [intros c []| |lia].
      intros s' cs Hne IH c [<-|Hc]; [|exact (IH c Hc)]. pose proof (len_pos s' Hne).
      destruct s' as [|b s'']; [congruence|]. destruct (len (b :: s'')); [lia|discriminate].
  Qed.

  Lemma greedy_suffix t : forall pre a post,
    chunker (a ++ t) = pre ++ post -> concat pre = a -> post = chunker t.
  Proof.
    induction pre as [|c pre IH]; intros a post Hc <-; cbn [concat app] in *; [now symmetry|].
    set (s := (c ++ concat pre) ++ t) in *.
    rewrite greedy_unfold in Hc by (intros E; rewrite E, chunker_greedy in Hc; discriminate Hc).
    injection Hc as Hc1 Hc2. apply (IH (concat pre) post); [|reflexivity].
    rewrite <- Hc2. f_equal. apply (app_inv_head c).
    rewrite <- Hc1 at 2. rewrite firstn_skipn. unfold s. now rewrite app_assoc.
  Qed.

  Hypothesis len_causal : forall c r r', r <> [] -> len (c ++ r) = length c -> len (c ++ r') = length c.

  Lemma greedy_resync : forall c r, c <> [] -> r <> [] -> hd_error (chunker (c ++ r)) = Some c ->
    forall r', chunker (c ++ r') = c :: chunker r'.
  Proof.
    intros c r Nc Nr Hd r'. apply greedy_first; [exact Nc|]. apply (len_causal c r r' Nr).
    rewrite greedy_unfold in Hd by (destruct c; [congruence|discriminate]). cbn [hd_error] in Hd.
    injection Hd as Hd. apply (f_equal (@length _)) in Hd. rewrite firstn_length, app_length in Hd.
    destruct r; [congruence|cbn [length] in Hd; lia].
  Qed.
End GreedyChunker.

Lemma cuts_fuel_greedy T p : forall n s, cuts_fuel n T p s = greedy (first_len T p) n s.
Proof. induction n as [|n IH]; intros [|x t]; cbn [cuts_fuel greedy]; [reflexivity..|]. now rewrite IH. Qed.

Lemma cuts_greedy p s : cuts p s = greedy (first_len (tab_of p) p) (length s) s.
Proof. apply cuts_fuel_greedy. Qed.

Lemma cuts_unfold p s : 1 <= c_min p -> s <> [] ->
  cuts p s = firstn (first_len (tab_of p) p s) s :: cuts p (skipn (first_len (tab_of p) p s) s).
Proof. intros Hm. exact (greedy_unfold _ _ (fun s => first_len_pos _ p s Hm) (cuts_greedy p) s). Qed.

Lemma cuts_at p s n : 1 <= c_min p -> 0 < n -> N.of_nat (first_len (tab_of p) p s) = n ->
  cuts p s = ntake n s :: cuts p (ndrop n s).
Proof.
  intros Hm Hn E. rewrite ntake_firstn, ndrop_skipn, <- E, Nat2N.id. apply cuts_unfold; [assumption|].
  intros ->. rewrite first_len_short in E by (cbn; lia). cbn in E. lia.
Qed.

Lemma cuts_app_first p c x : 1 <= c_min p -> c <> [] ->
  first_len (tab_of p) p (c ++ x) = length c -> cuts p (c ++ x) = c :: cuts p x.
Proof. intros Hm. exact (greedy_first _ _ (fun s => first_len_pos _ p s Hm) (cuts_greedy p) c x). Qed.

Lemma cuts_ind p (Q : bytes -> list bytes -> Prop) : 1 <= c_min p ->
  Q [] [] ->
  (forall s cs, s <> [] -> let L := first_len (tab_of p) p s in Q (skipn L s) cs -> Q s (firstn L s :: cs)) ->
  forall s, Q s (cuts p s).
Proof.
  intros Hm Q0 Qs s. unfold cuts. rewrite cuts_fuel_greedy.
  apply greedy_ind; [intros s'; apply first_len_pos, Hm|assumption..|lia].
Qed.

Lemma cuts_concat p s : 1 <= c_min p -> concat (cuts p s) = s.
Proof. intros Hm. exact (proj1 (greedy_partition _ _ (fun s => first_len_pos _ p s Hm) (cuts_greedy p)) s). Qed.

Definition st_inv (T : rtab) (st : cstate) (rest : bytes) : Prop :=
  wfr T (st_rabin st) /\ buf_inv (st_avail st) (st_buflen st) /\
  (st_finished st = true -> st_avail st = [] /\ rest = []).

(* what the proofs need of the parameters (implied by params_ok, see params_ok_hyps) *)
Record hyps (T : rtab) (p : cparams) : Prop := {
  h_wft : wft T;
  h_win : t_wsize T - 1 <= PREFILL_SLICE;
  h_slice : PREFILL_SLICE <= c_min p;
  h_buf : BUF_SIZE - 1 <= c_min p;
  h_min1 : 1 <= c_min p;
  h_minmax : c_min p <= c_max p }.

Lemma min_size_ok md mn open : open <= mn ->
  (if 0 <? open then usize_sub md mn open else Some mn) = Some (mn - open).
Proof.
  intros H. destruct (N.ltb_spec 0 open).
  - unfold usize_sub. destruct (N.leb_spec open mn); [reflexivity|lia].
  - f_equal. lia.
Qed.

Definition next_post (T : rtab) (p : cparams) (s : bytes) (o : option bytes) (st' : cstate) (rest' : bytes) : Prop :=
  match s with
  | [] => o = None
  | _ => o = Some (firstn (first_len T p s) s) /\
         st_avail st' ++ rest' = skipn (first_len T p s) s
  end.

Lemma chunk_next_spec md T p st rest sched : hyps T p -> st_inv T st rest ->
  exists o st' rest' sched',
    chunk_next md T p st rest sched = Ok (o, st', rest', sched') /\
    st_inv T st' rest' /\ next_post T p (st_avail st ++ rest) o st' rest'.
Proof.
  intros H [Hr [Hb Hfin]]. unfold chunk_next.
  destruct (st_finished st) eqn:Ef.
  { destruct (Hfin eq_refl) as [Ha Hre]. exists None, st, rest, sched.
    split; [reflexivity|]. split; [unfold st_inv; auto|]. rewrite Ha, Hre. reflexivity. }
  set (s := st_avail st ++ rest).
  assert (Hopen : nlen (st_avail st) <= c_min p).
  { destruct Hb as [[Hb|Hb] [Hb2 Hb3]]; [rewrite Hb; cbn; lia|]. pose proof (h_buf T p H). lia. }
  rewrite (min_size_ok md _ _ Hopen).
  destruct (read_to_end_spec sched (c_min p - nlen (st_avail st)) rest) as [sc1 Hrte]. rewrite Hrte.
  set (msz := c_min p - nlen (st_avail st)).
  (* the leftover of the read buffer and what read_to_end adds are the first min bytes of s *)
  assert (Hvec : st_avail st ++ ntake msz rest = ntake (c_min p) s).
  { unfold s. rewrite ntake_app. rewrite (ntake_all (c_min p) (st_avail st)) by assumption. reflexivity. }
  assert (Hdrop : ndrop msz rest = ndrop (c_min p) s).
  { unfold s. rewrite ndrop_app. rewrite (ndrop_all (c_min p) (st_avail st)) by assumption. reflexivity. }
  assert (Hs : nlen s = nlen (st_avail st) + nlen rest) by (unfold s; apply nlen_app).
  rewrite Hvec, Hdrop, (nlen_ntake msz rest).
  assert (Hbuf : buf_inv [] (st_buflen st)) by (destruct Hb as [_ Hb]; unfold buf_inv; auto).
  destruct (N.ltb_spec (N.min msz (nlen rest)) msz) as [Hlt|Hge].
  - (* stream shorter than min: last chunk *)
    rewrite (ntake_all (c_min p) s), (ndrop_all (c_min p) s) by lia.
    eexists _, _, _, _. split; [reflexivity|]. split; [unfold st_inv; cbn; auto|].
    unfold next_post. destruct s as [|x t] eqn:Es; [reflexivity|]. rewrite <- Es in *.
    rewrite first_len_short, firstn_all, skipn_all by lia. cbn [st_avail app]. auto.
  - (* at least min bytes *)
    assert (Hlong : c_min p <= nlen s) by lia.
    replace (nlen (st_avail st) + N.min msz (nlen rest)) with (c_min p) by lia.
    pose proof (h_slice T p H) as Hsl.
    destruct (N.ltb_spec (c_min p) PREFILL_SLICE) as [Hbad|_]; [lia|].
    set (it := ndrop (c_min p - PREFILL_SLICE) (ntake (c_min p) s)).
    assert (Hit : t_wsize T - 1 <= nlen it).
    { unfold it. rewrite nlen_ndrop, nlen_ntake. pose proof (h_win T p H). lia. }
    destruct (prefill_abs T (st_rabin st) it (h_wft T p H) Hr Hit) as [Habs Hw1].
    destruct (main_loop_spec T (c_avg p - 1) (c_max p) (h_wft T p H)
                (loop_fuel (ndrop (c_min p) s) sc1) (rev (ntake (c_min p) s)) (c_min p) _ []
                (st_buflen st) (ndrop (c_min p) s) sc1 Hw1 Hbuf) as [ls [Hml [P1 P2 P3 P4 P5 P6]]].
    { unfold loop_fuel. cbn [length]. lia. }
    rewrite Hml. eexists _, _, _, _. split; [reflexivity|].
    split; [unfold st_inv; cbn [st_rabin st_avail st_buflen st_finished]; auto|].
    cbn [app] in P1, P2. rewrite Habs in P1, P2.
    change (a_init T (ntake (t_wsize T - 1) it)) with (win_start T p s) in P1, P2.
    unfold next_post. destruct s as [|x t] eqn:Es.
    { cbn in Hlong. pose proof (h_min1 T p H). lia. }
    rewrite <- Es in *. rewrite first_len_long by assumption. cbn [st_avail]. split.
    + f_equal. rewrite P1, rev_app_distr, !rev_involutive.
      rewrite firstn_plus, <- ntake_firstn, <- ndrop_skipn. reflexivity.
    + rewrite P2, ndrop_skipn, skipn_skipn, Nat.add_comm. reflexivity.
Qed.

Lemma chunks_loop_spec md p : hyps (tab_of p) p -> forall n st rest sched,
  st_inv (tab_of p) st rest -> (length (st_avail st ++ rest) < n)%nat ->
  chunks_loop n md (tab_of p) p st rest sched = Ok (cuts p (st_avail st ++ rest)).
Proof.
  intros H. induction n as [|n IH]; intros st rest sched Hinv Hn; [lia|].
  cbn [chunks_loop].
  destruct (chunk_next_spec md _ p st rest sched H Hinv) as [o [st' [rest' [sched' [Hc [Hinv' Hpost]]]]]].
  rewrite Hc. unfold next_post in Hpost.
  destruct (st_avail st ++ rest) as [|x t] eqn:Es; [subst o; reflexivity|].
  rewrite <- Es in *. destruct Hpost as [-> Hrest].
  assert (Hne : st_avail st ++ rest <> []) by (rewrite Es; discriminate).
  pose proof (h_min1 _ p H) as Hm. pose proof (first_len_pos (tab_of p) p _ Hm Hne) as Hpos.
  rewrite (IH st' rest' sched' Hinv'), Hrest, (cuts_unfold p _ Hm Hne); [reflexivity|].
  apply (f_equal (@length N)) in Es. cbn [length] in Es. rewrite Hrest, skipn_length. lia.
Qed.

Lemma params_ok_hyps p : params_ok p = true -> hyps (tab_of p) p.
Proof.
  unfold params_ok, pow2. rewrite !andb_true_iff, !N.leb_le, N.ltb_lt. intros [[[[[H0 _] H2] H3] H4] H5].
  assert (1 <= PREFILL_SLICE) by (apply N.leb_le; vm_compute; reflexivity).
  assert (t_wsize (tab_of p) - 1 <= PREFILL_SLICE)
    by (unfold tab_of; cbn [rabin_tab t_wsize]; apply N.leb_le; vm_compute; reflexivity).
  constructor; try apply wft_tab; try assumption; lia.
Qed.

Lemma params_ok_min p : params_ok p = true -> (1 <= c_min p)%N.
Proof. intro H. exact (h_min1 _ _ (params_ok_hyps p H)). Qed.

Lemma init_inv T hint s : wft T -> st_inv T (init_state T hint) s.
Proof.
  intros HT. unfold st_inv, init_state. cbn [st_rabin st_avail st_buflen st_finished].
  split; [apply wfr_init; assumption|]. split; [|discriminate].
  assert (1 <= BUF_SIZE) by (apply N.leb_le; vm_compute; reflexivity).
  unfold buf_inv. split; [left; reflexivity|lia].
Qed.

Lemma chunks_impl_is_cuts md p hint s sched :
  params_ok p = true -> chunks_impl md p hint s sched = Ok (cuts p s).
Proof.
  intros Hp. pose proof (params_ok_hyps p Hp) as H. unfold chunks_impl.
  apply (chunks_loop_spec md p H (S (S (length s))) (init_state (tab_of p) hint) s sched).
  - apply init_inv. apply (h_wft _ _ H).
  - cbn [init_state st_avail app]. lia.
Qed.

Lemma scan_le_len T mask mx : forall l w len, (scan T mask mx w len l <= length l)%nat.
Proof.
  induction l as [|b l IH]; intros w len; rewrite scan_unfold.
  - repeat destr_if; cbn [length]; lia.
  - repeat destr_if; cbn [length]; try lia. specialize (IH (a_slide T w b) (len + 1)). lia.
Qed.

Lemma scan_le_max T mask mx : forall l w len, len <= mx -> N.of_nat (scan T mask mx w len l) <= mx - len.
Proof.
  induction l as [|b l IH]; intros w len Hl; rewrite scan_unfold.
  - repeat destr_if; lia.
  - destruct (N.leb_spec mx len); [lia|]. destruct (N.land (a_hash w) mask =? 0); [lia|].
    specialize (IH (a_slide T w b) (len + 1)). lia.
Qed.

Lemma first_len_le T p s : (first_len T p s <= length s)%nat.
Proof.
  destruct (N.lt_ge_cases (nlen s) (c_min p)) as [H|H]; [rewrite first_len_short by assumption; lia|].
  rewrite first_len_long by assumption.
  pose proof (scan_le_len T (c_avg p - 1) (c_max p) (ndrop (c_min p) s) (win_start T p s) (c_min p)) as Hs.
  pose proof (nlen_ndrop (c_min p) s). unfold nlen in *. lia.
Qed.

Lemma first_len_bounds T p s : c_min p <= c_max p -> c_min p <= nlen s ->
  c_min p <= N.of_nat (first_len T p s) <= c_max p.
Proof.
  intros Hmm Hl. rewrite first_len_long by assumption.
  pose proof (scan_le_max T (c_avg p - 1) (c_max p) (ndrop (c_min p) s) (win_start T p s) (c_min p) Hmm).
  lia.
Qed.

Definition stop (mask mx : N) (w : awin) (L : N) (atend : bool) : bool :=
  (mx <=? L) || (N.land (a_hash w) mask =? 0) || atend.

(* `scan` takes j bytes exactly if the test fails after 0 .. j-1 bytes and succeeds after j *)
Lemma scan_spec T mask mx : forall l w len,
  let k := scan T mask mx w len l in
  stop mask mx (fold_left (a_slide T) (firstn k l) w) (len + N.of_nat k) (Nat.eqb k (length l)) = true /\
  forall j, (j < k)%nat ->
    stop mask mx (fold_left (a_slide T) (firstn j l) w) (len + N.of_nat j) (Nat.eqb j (length l)) = false.
Proof.
  induction l as [|b l IH]; intros w len; cbv zeta; rewrite scan_unfold; unfold stop;
    (destruct (mx <=? len) eqn:E1;
      [|destruct (N.land (a_hash w) mask =? 0) eqn:E2]);
    cbn [firstn fold_left length Nat.eqb]; rewrite ?N.add_0_r, ?E1, ?E2, ?orb_true_r;
    try (split; [reflexivity|intros; lia]).
  destruct (IH (a_slide T w b) (len + 1)) as [I1 I2]. unfold stop in I1, I2.
  set (k := scan T mask mx (a_slide T w b) (len + 1) l) in *.
  split.
  - replace (len + N.of_nat (S k)) with (len + 1 + N.of_nat k) by lia. exact I1.
  - intros [|j] Hj; cbn [firstn fold_left length Nat.eqb].
    + rewrite N.add_0_r, E1, E2. reflexivity.
    + replace (len + N.of_nat (S j)) with (len + 1 + N.of_nat j) by lia. apply I2. lia.
Qed.

(* at L = min the decision is the test on the prefilled window *)
Lemma first_len_at_min T p s : c_min p < c_max p -> c_min p < nlen s ->
  let z := N.land (a_hash (win_start T p s)) (c_avg p - 1) =? 0 in
  is_cut T p s (c_min p) = z /\
  (if z then N.of_nat (first_len T p s) = c_min p else c_min p < N.of_nat (first_len T p s)).
Proof.
  intros Hm Hs. cbv zeta. rewrite first_len_long, scan_unfold by lia.
  unfold is_cut, win_at. rewrite N.sub_diag, ntake_0. cbn [fold_left].
  destruct (N.leb_spec (c_max p) (c_min p)); [lia|]. destruct (N.eqb_spec (c_min p) (nlen s)); [lia|].
  rewrite orb_false_r. split; [reflexivity|].
  destruct (N.land _ _ =? 0); [lia|].
  destruct (ndrop (c_min p) s) eqn:E; [|lia].
  apply (f_equal nlen) in E. rewrite nlen_ndrop in E. cbn in E. lia.
Qed.

(* a piece of exactly the minimum size with the low bits of the window fingerprint zero when
   the minimum is reached; a stream of such pieces is cut into them *)
Definition min_piece (p : cparams) (c : list N) : Prop :=
  nlen c = c_min p /\ N.land (a_hash (win_start (tab_of p) p c)) (c_avg p - 1) = 0%N.

Lemma cuts_at_min p cs : params_ok p = true -> (c_min p < c_max p)%N ->
  Forall (min_piece p) cs -> cuts p (concat cs) = cs.
Proof.
  intros Hp Hm. induction 1 as [|c cs [Hl Hh] _ IH]; [reflexivity|]. cbn [concat].
  pose proof (params_ok_min p Hp).
  rewrite cuts_app_first, IH; [reflexivity | assumption | intros ->; cbn in Hl; lia |].
  rewrite first_len_app, scan_unfold, Hh by lia.
  replace (c_max p <=? c_min p)%N with false by (symmetry; apply N.leb_gt; exact Hm).
  rewrite N.eqb_refl. unfold nlen in Hl. lia.
Qed.

Lemma cuts_fuel_bounds T p : 1 <= c_min p -> c_min p <= c_max p -> forall m s, (length s <= m)%nat ->
  bounds_ok (c_min p) (c_max p) (cuts_fuel m T p s) = true.
Proof.
  intros Hm Hmm m s Hl. rewrite cuts_fuel_greedy.
  (* whether a chunk is the last is read off the rest of the stream *)
  apply (greedy_ind _ (fun s => first_len_pos T p s Hm)
           (fun s cs => (s = [] -> cs = []) /\ bounds_ok (c_min p) (c_max p) cs = true)); [auto| |exact Hl].
  intros s' cs Hne. set (L := first_len T p s'). intros [Hnil IH]. split; [congruence|].
  pose proof (first_len_le T p s') as Hle. fold L in Hle.
  assert (Hc : nlen (firstn L s') = N.of_nat L) by (unfold nlen; rewrite firstn_length; lia).
  assert (Hpos : 0 < nlen s') by (destruct s'; [congruence|rewrite nlen_cons; lia]).
  cbn [bounds_ok]. rewrite Hc, IH, andb_true_r.
  destruct (N.lt_ge_cases (nlen s') (c_min p)) as [Hshort|Hlong].
  - assert (E : L = length s') by (apply first_len_short; assumption).
    rewrite Hnil by (rewrite E; apply skipn_all). unfold nlen in *.
    apply andb_true_intro. split; [apply N.ltb_lt|apply N.leb_le]; lia.
  - pose proof (first_len_bounds T p s' Hmm Hlong) as [B1 B2]. fold L in B1, B2.
    destruct cs; apply andb_true_intro; split; try apply N.ltb_lt; try apply N.leb_le; lia.
Qed.

Lemma cuts_bounds_ok p s : params_ok p = true -> bounds_ok (c_min p) (c_max p) (cuts p s) = true.
Proof.
  intros Hp. destruct (params_ok_hyps p Hp) as [_ _ _ _ Hm Hmm].
  exact (cuts_fuel_bounds (tab_of p) p Hm Hmm (length s) s (le_n _)).
Qed.

Lemma bounds_ok_prop mn mx : 1 <= mn -> forall cs, bounds_ok mn mx cs = true ->
  forall pre c post, cs = pre ++ c :: post ->
    0 < nlen c /\ nlen c <= mx /\ (post <> [] -> mn <= nlen c).
Proof.
  intros Hmn cs Hb pre. revert cs Hb. induction pre as [|x pre IH]; intros cs Hb c post ->; cbn [app] in Hb.
  - destruct post; cbn [bounds_ok] in Hb; rewrite !andb_true_iff, ?N.leb_le, ?N.ltb_lt in Hb;
      repeat split; try congruence; lia.
  - apply (IH (pre ++ c :: post)); [|reflexivity].
    destruct (pre ++ c :: post) eqn:E; [destruct pre; discriminate|].
    cbn [bounds_ok] in Hb. apply andb_prop in Hb. apply Hb.
Qed.
