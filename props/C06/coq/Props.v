(* C06 — property theorems, each with its last step from the lemmas of the Proofs files and
   followed by Print Assumptions.  Model.v mirrors ChunkIter::next (chunker/rabin.rs), Rabin64
   (rustic_cdc) and the fixed-size chunker; BUF_SIZE, the prefill slice, the window bits and
   the conditions of check_rabin_params are regenerated from the source into Extracted.v.

   params_ok p  =  pow2 avg && min <= avg && avg <= max        (check_rabin_params)
                   && PREFILL_SLICE <= min && BUF_SIZE - 1 <= min   (forced by the proof). *)
From Verif.Base Require Import Tactics.
From Verif.C06 Require Import Extracted Model Spec ListLemmas Proofs Proofs2 Proofs3 Proofs4 Gf2 Proofs5 Proofs6 Proofs7 Proofs8 Proofs9.
Local Open Scope N_scope.

(* For EVERY read schedule (1-byte reads, short reads, Interrupted, any mixture), every size
   hint and both arithmetic modes the iterator yields exactly the chunk list of the
   declarative specification, which mentions neither reader nor iterator state. *)
Theorem chunks_fragmentation_independent : forall md p hint s sched,
  params_ok p = true -> chunks_impl md p hint s sched = Ok (cuts p s).
Proof. exact chunks_impl_is_cuts. Qed.
Print Assumptions chunks_fragmentation_independent.

Theorem chunks_schedule_invariance : forall p s md1 md2 hint1 hint2 sched1 sched2,
  params_ok p = true ->
  chunks_impl md1 p hint1 s sched1 = chunks_impl md2 p hint2 s sched2.
Proof. intros. rewrite !chunks_impl_is_cuts by assumption. reflexivity. Qed.
Print Assumptions chunks_schedule_invariance.

(* lossless: the concatenation of the chunks is the stream *)
Theorem chunks_concat : forall md p hint s sched,
  params_ok p = true ->
  exists cs, chunks_impl md p hint s sched = Ok cs /\ concat cs = s.
Proof.
  intros md p hint s sched Hp. exists (cuts p s). split; [apply chunks_impl_is_cuts; assumption|].
  apply cuts_concat, (h_min1 _ _ (params_ok_hyps p Hp)).
Qed.
Print Assumptions chunks_concat.

(* bounded: no chunk is empty or longer than max; every chunk but the last has >= min bytes *)
Theorem chunks_bounds : forall md p hint s sched,
  params_ok p = true ->
  exists cs, chunks_impl md p hint s sched = Ok cs /\
    forall pre c post, cs = pre ++ c :: post ->
      0 < nlen c /\ nlen c <= c_max p /\ (post <> [] -> c_min p <= nlen c).
Proof.
  intros md p hint s sched Hp. exists (cuts p s). split; [apply chunks_impl_is_cuts; assumption|].
  exact (bounds_ok_prop _ _ (params_ok_min p Hp) _ (cuts_bounds_ok p s Hp)).
Qed.
Print Assumptions chunks_bounds.

(* The parameters the code ACCEPTS (check_rabin_params as found in the source, regenerated into
   Extracted.rabin_param_errors) satisfy the hypotheses, so for every accepted parameter set,
   every polynomial, stream, schedule: lossless, bounded, equal to the specification. *)
Theorem accepted_params_ok : forall P avg mn mx,
  rabin_accepts avg mn mx = true ->
  params_ok {| c_poly := P; c_avg := avg; c_min := mn; c_max := mx |} = true.
Proof. exact accepted_params_ok_lemma. Qed.
Print Assumptions accepted_params_ok.

Theorem accepted_rabin_partition : forall md P avg mn mx hint s sched,
  rabin_accepts avg mn mx = true ->
  let p := {| c_poly := P; c_avg := avg; c_min := mn; c_max := mx |} in
  chunks_impl md p hint s sched = Ok (cuts p s) /\ concat (cuts p s) = s /\ bounds_ok mn mx (cuts p s) = true.
Proof. exact accepted_rabin_partition_lemma. Qed.
Print Assumptions accepted_rabin_partition.

(* Where the first chunk ends: at the LEAST length L >= min at which L >= max, or the window
   fingerprint has its low bits zero, or the stream ends (is_cut, Spec.v). *)
Theorem first_cut_is_least : forall T p s, c_min p <= nlen s ->
  let L := N.of_nat (first_len T p s) in
  c_min p <= L /\ L <= nlen s /\ is_cut T p s L = true /\
  forall L', c_min p <= L' -> L' < L -> is_cut T p s L' = false.
Proof.
  intros T p s Hl. cbv zeta.
  pose proof (first_len_le T p s) as Hle. rewrite first_len_long in * by assumption.
  destruct (scan_spec T (c_avg p - 1) (c_max p) (ndrop (c_min p) s) (win_start T p s) (c_min p)) as [S1 S2].
  set (k := scan T (c_avg p - 1) (c_max p) (win_start T p s) (c_min p) (ndrop (c_min p) s)) in *.
  pose proof (nlen_ndrop (c_min p) s) as Hlen.
  (* is_cut at min + j is the stopping test of scan after j bytes *)
  assert (Hcut : forall j, (j <= length s - N.to_nat (c_min p))%nat ->
            is_cut T p s (c_min p + N.of_nat j)
            = stop (c_avg p - 1) (c_max p) (fold_left (a_slide T) (firstn j (ndrop (c_min p) s)) (win_start T p s))
                   (c_min p + N.of_nat j) (Nat.eqb j (length (ndrop (c_min p) s)))).
  { intros j Hj. unfold is_cut, stop, win_at. rewrite ntake_firstn.
    replace (N.to_nat (c_min p + N.of_nat j - c_min p)) with j by lia. f_equal.
    unfold nlen in *. destruct (Nat.eqb_spec j (length (ndrop (c_min p) s))); [apply N.eqb_eq|apply N.eqb_neq]; lia. }
  unfold nlen in *.
  split; [lia|]. split; [lia|]. split.
  - replace (N.of_nat (N.to_nat (c_min p) + k)) with (c_min p + N.of_nat k) by lia.
    rewrite Hcut by lia. exact S1.
  - intros L' H1 H2. set (j := N.to_nat (L' - c_min p)).
    replace L' with (c_min p + N.of_nat j) by (unfold j; lia).
    rewrite Hcut by (unfold j; lia). apply S2. unfold j. lia.
Qed.
Print Assumptions first_cut_is_least.

(* Cut points depend only on the bytes since the previous cut: if |a| is a cut of a ++ t, the
   chunks after it are exactly the chunks of t alone - so two streams sharing the suffix t cut it
   identically after their first common cut. *)
Theorem resync_after_common_cut : forall p t pre a post, params_ok p = true ->
  cuts p (a ++ t) = pre ++ post -> concat pre = a -> post = cuts p t.
Proof.
  intros p t pre a post Hp. pose proof (h_min1 _ _ (params_ok_hyps p Hp)) as Hm.
  exact (greedy_suffix _ _ (fun s => first_len_pos _ p s Hm) (cuts_greedy p) t pre a post).
Qed.
Print Assumptions resync_after_common_cut.

Theorem fixed_size_partition : forall size hint s sched, 0 < size ->
  fixed_impl size hint s sched = Some (fixed_cuts size s) /\
  concat (fixed_cuts size s) = s /\ fixed_bounds_ok size (fixed_cuts size s) = true.
Proof. exact fixed_size_partition_lemma. Qed.
Print Assumptions fixed_size_partition.

Theorem accepted_fixed_size_partition : forall size hint s sched, fixed_accepts size = true ->
  fixed_impl size hint s sched = Some (fixed_cuts size s) /\
  concat (fixed_cuts size s) = s /\ fixed_bounds_ok size (fixed_cuts size s) = true.
Proof. exact accepted_fixed_partition_lemma. Qed.
Print Assumptions accepted_fixed_size_partition.

(* Outside the hypotheses the property fails - these are the parameter sets the unchanged tree
   accepted (defects repaired by the fix commit; the acceptance theorems above break if the
   checks are removed again). *)
Theorem chunks_bounds_tiny_params_refuted :
  exists p s, pow2 (c_avg p) = true /\ c_min p <= c_avg p /\ c_avg p <= c_max p /\ PREFILL_SLICE <= c_min p /\
    chunks_impl Debug p 0 s [] = Panic PMinSizeSub /\
    exists cs, chunks_impl Release p 0 s [] = Ok cs /\ bounds_ok (c_min p) (c_max p) cs = false.
Proof.
  (* 62 zeros, 1, then zeros: the prefill leaves the hash 1, so there is no cut at 64; the refill
     reads all the rest; one zero slid in makes the hash 256: cut at 65 with 129 > max bytes left
     in the read buffer.  Only entry 0 of either table is looked at. *)
  exists tiny_params, (repeat 0 62 ++ [1] ++ repeat 0 131)%list.
  split; [vm_compute; reflexivity|]. split; [vm_compute; discriminate|]. split; [vm_compute; discriminate|].
  split; [vm_compute; discriminate|]. split; [lazy; reflexivity|].
  eexists. split; lazy; reflexivity.
Qed.
Print Assumptions chunks_bounds_tiny_params_refuted.

Theorem chunk_min_below_window_refuted :
  exists p s, pow2 (c_avg p) = true /\ c_min p <= c_avg p /\ c_avg p <= c_max p /\
    chunks_impl Debug p 0 s [] = Panic PWindowSub /\ chunks_impl Release p 0 s [] = Panic PWindowSlice.
Proof.
  exists {| c_poly := 0x3DA3358B4DC173; c_avg := 16; c_min := 10; c_max := 64 |}, (ex_stream 100).
  split; [vm_compute; reflexivity|]. split; [vm_compute; discriminate|]. split; [vm_compute; discriminate|].
  (* the window is never filled: no table entry is needed *)
  split; lazy; reflexivity.
Qed.
Print Assumptions chunk_min_below_window_refuted.

Theorem fixed_size_zero_refuted :
  exists s, s <> [] /\ forall hint sched, fixed_impl 0 hint s sched = Some [].
Proof.
  exists [7]. split; [discriminate|]. intros hint sched. unfold fixed_impl. cbn [length fixed_loop fixed_next f_finished].
  destruct (read_to_end_spec sched 0 [7]) as [sc' H]. rewrite H. reflexivity.
Qed.
Print Assumptions fixed_size_zero_refuted.

(* rolling_equals_recompute: for EVERY polynomial of degree 8..56 (random_poly yields 53), every
   window size 2^bits, every prefill and every sequence of bytes slid in, the table-driven
   rolling hash equals the direct reduction modulo P of the window bytes read as a polynomial
   over GF(2) (most significant byte first). *)
Theorem rolling_equals_recompute : forall P bits, 8 <= N.log2 P -> N.log2 P <= 56 ->
  forall bs xs, Forall isbyte bs -> Forall isbyte xs ->
    length bs = (N.to_nat (t_wsize (rabin_tab bits P)) - 1)%nat ->
    let w := fold_left (a_slide (rabin_tab bits P)) xs (a_init (rabin_tab bits P) bs) in
    a_hash w = fp_direct P (a_fifo w).
Proof. exact rolling_lemma. Qed.
Print Assumptions rolling_equals_recompute.

(* what the tables must do, isolated: the two single-step facts lifted to all windows *)
Theorem rolling_equals_recompute_partial : forall T P,
  step_append_ok T P -> step_out_ok T P -> 0 < t_wsize T ->
  forall bs xs, Forall isbyte bs -> Forall isbyte xs -> length bs = (N.to_nat (t_wsize T) - 1)%nat ->
    let w := fold_left (a_slide T) xs (a_init T bs) in a_hash w = fp_direct P (a_fifo w).
Proof. exact rolling_partial_lemma. Qed.
Print Assumptions rolling_equals_recompute_partial.

(* the value tested against the split mask at length L (is_cut, first_cut_is_least) IS the Rabin
   fingerprint, under the repository polynomial, of the chunker's window at L *)
Theorem window_hash_is_fingerprint : forall p s L, Forall isbyte s ->
  8 <= N.log2 (c_poly p) -> N.log2 (c_poly p) <= 56 ->
  PREFILL_SLICE <= c_min p -> c_min p <= nlen s ->
  a_hash (win_at (tab_of p) p s L) = fp_direct (c_poly p) (a_fifo (win_at (tab_of p) p s L)).
Proof. exact window_hash_is_fingerprint_lemma. Qed.
Print Assumptions window_hash_is_fingerprint.

(* cut_local: from length min + 64 on, the window is exactly the most recent 64 bytes, so whether
   L is a cut is a function of (L >= max, L = |s|, s[L-64 .. L)) only.  (For min <= L < min + 64
   the window is 0 :: s[min-64 .. min-1) ++ s[min .. L), last 64 - see Spec.win_at.) *)
Theorem cut_local : forall p s L, Forall isbyte s ->
  8 <= N.log2 (c_poly p) -> N.log2 (c_poly p) <= 56 ->
  PREFILL_SLICE <= c_min p -> c_min p + 64 <= L -> L <= nlen s ->
  a_fifo (win_at (tab_of p) p s L) = ntake 64 (ndrop (L - 64) s) /\
  a_hash (win_at (tab_of p) p s L) = fp_direct (c_poly p) (ntake 64 (ndrop (L - 64) s)).
Proof. exact cut_local_lemma. Qed.
Print Assumptions cut_local.

(* EVERY degree >= 8 (also 57..63, where `hash <<= 8` and `b << k` lose bits in u64): the rolling
   hash is a function of the window alone - the from-scratch fold of the same one-byte step over
   the window bytes (wfold).  The chunker is therefore content-defined for every polynomial; what
   depends on the degree is only whether that function is the remainder modulo P. *)
Theorem rolling_hash_is_window_function : forall P bits, 8 <= N.log2 P ->
  forall bs xs, Forall isbyte bs -> Forall isbyte xs ->
    length bs = (N.to_nat (t_wsize (rabin_tab bits P)) - 1)%nat ->
    let w := fold_left (a_slide (rabin_tab bits P)) xs (a_init (rabin_tab bits P) bs) in
    a_hash w = wfold (rabin_tab bits P) (a_fifo w).
Proof. exact rolling_any_degree_lemma. Qed.
Print Assumptions rolling_hash_is_window_function.

Theorem cut_local_any_degree : forall p s L, Forall isbyte s ->
  8 <= N.log2 (c_poly p) -> PREFILL_SLICE <= c_min p -> c_min p + 64 <= L -> L <= nlen s ->
  a_hash (win_at (tab_of p) p s L) = wfold (tab_of p) (ntake 64 (ndrop (L - 64) s)).
Proof.
  intros p s L Hs Hlo H1 H2 H3. rewrite <- (win_fifo_far p s L H1 H2 H3).
  apply window_hash_is_wfold; try assumption. lia.
Qed.
Print Assumptions cut_local_any_degree.

(* ... and above degree 56 it is NOT the remainder: witness of degree 57 (the hash bits 56..k-1 are
   dropped by `hash <<= 8` instead of being reduced).  Replayed on the real chunker: with such a
   stored polynomial the unchanged tree cut at other positions than the Rabin fingerprint zeros. *)
Theorem rolling_not_fingerprint_above_56_refuted :
  exists P bs, N.log2 P = 57 /\ Forall isbyte bs /\ length bs = 63%nat /\
    let T := rabin_tab WINDOW_BITS P in
    let w := a_init T bs in
    a_hash w <> fp_direct P (a_fifo w) /\ a_hash w = wfold T (a_fifo w).
Proof.
  (* 0x3236eb02265b1f5 has degree 57 (it is irreducible; not needed here).  After the prefill with
     51 zero bytes and 12 bytes 0xff the hash already differs from the remainder modulo P of the
     window: `hash <<= 8` dropped the bit 56 of the hash instead of reducing it. *)
  exists 0x3236eb02265b1f5, (repeat 0 51 ++ repeat 255 12)%list.
  assert (Hb : Forall isbyte (repeat 0 51 ++ repeat 255 12)).
  { apply Forall_app. split; apply isbyte_repeat; unfold isbyte; lia. }
  split; [vm_compute; reflexivity|]. split; [exact Hb|]. split; [reflexivity|]. cbv zeta.
  split; [lazy; discriminate|].
  assert (Hlo : 8 <= N.log2 0x3236eb02265b1f5) by (vm_compute; discriminate).
  apply (rolling_any_degree_lemma _ WINDOW_BITS Hlo _ [] Hb (Forall_nil _)). reflexivity.
Qed.
Print Assumptions rolling_not_fingerprint_above_56_refuted.

(* The repaired tree uses a stored polynomial only if its degree is 8..56 (check_rabin_polynomial,
   regenerated into Extracted.poly_accepts_src) ... *)
Theorem accepted_poly_degree : forall P, poly_accepts P = true -> 8 <= N.log2 P /\ N.log2 P <= 56.
Proof. exact accepted_poly_degree_lemma. Qed.
Print Assumptions accepted_poly_degree.

(* ... so for EVERY accepted configuration (polynomial and sizes) and every byte stream the first
   chunk ends at the least L >= min at which L >= max, or the Rabin fingerprint modulo the
   repository polynomial of the chunker's window (win_at) has its low bits zero, or the stream ends. *)
Theorem accepted_cut_points_are_fingerprint_zeros : forall P avg mn mx s,
  poly_accepts P = true -> rabin_accepts avg mn mx = true -> Forall isbyte s -> mn <= nlen s ->
  let p := {| c_poly := P; c_avg := avg; c_min := mn; c_max := mx |} in
  let L := N.of_nat (first_len (tab_of p) p s) in
  mn <= L /\ L <= nlen s /\ is_cut_fp p s L = true /\
  forall L', mn <= L' -> L' < L -> is_cut_fp p s L' = false.
Proof.
  intros P avg mn mx s HP Ha Hs Hl p L.
  destruct (first_cut_is_least (tab_of p) p s Hl) as [B1 [B2 [B3 B4]]]. fold L in B1, B2, B3, B4.
  pose proof (fun L => accepted_is_cut_fp P avg mn mx s L HP Ha Hs Hl) as E. cbv zeta in E. fold p in E.
  repeat split; try assumption; [rewrite <- E; assumption|].
  intros L' H1 H2. rewrite <- E. apply B4; assumption.
Qed.
Print Assumptions accepted_cut_points_are_fingerprint_zeros.

(* The window, exactly.  From min + 64 on it is the most recent 64 bytes (cut_local).  For
   min <= L <= min + 64 it is the last 64 of  0 :: s[min-64 .. min-1) ++ s[min .. L):  the byte
   s[min-1] never enters it (reset_and_prefill_window consumes 63 of the 64 bytes it is given). *)
Theorem window_near_min : forall p (s : bytes) L,
  PREFILL_SLICE <= c_min p -> c_min p <= L -> L <= c_min p + 64 -> L <= nlen s ->
  a_fifo (win_at (tab_of p) p s L)
  = skipn (N.to_nat (L - c_min p)) (0 :: ntake 63 (ndrop (c_min p - 64) s))
    ++ ntake (L - c_min p) (ndrop (c_min p) s).
Proof.
  intros p s L H1 H2 H3 H4. rewrite win_fifo, skipn_app by assumption.
  cbn [length]. rewrite (prefill_length p s H1) by lia.
  replace (N.to_nat (L - c_min p) - 64)%nat with 0%nat by lia. reflexivity.
Qed.
Print Assumptions window_near_min.

(* OPEN FINDING (recorded, deliberately not repaired): the literal reading "the fingerprint of the
   most recent 64 bytes has its low bits zero" fails at the positions min <= L < min + 64 of a
   chunk.  Accepted parameters, a stream on which the code cuts at L = min although the last 64
   bytes have a fingerprint with non-zero low bits. *)
Theorem cut_is_fingerprint_of_last_64_bytes_refuted :
  exists p s L,
    rabin_accepts (c_avg p) (c_min p) (c_max p) = true /\
    8 <= N.log2 (c_poly p) /\ N.log2 (c_poly p) <= 56 /\ Forall isbyte s /\
    c_min p <= L /\ L < c_max p /\ L < nlen s /\
    N.of_nat (first_len (tab_of p) p s) = L /\
    N.land (a_hash (win_at (tab_of p) p s L)) (c_avg p - 1) = 0 /\
    N.land (fp_direct (c_poly p) (ntake 64 (ndrop (L - 64) s))) (c_avg p - 1) <> 0.
Proof.
  (* the stream is walked once per fact; `Hl` is stated with `c_min p` and the lemma taken apart by
     `pose proof` because `destruct`, `set` or a literal 4096 make the unifier evaluate the stream *)
  pose (p := prefill_witness_params). pose (s := prefill_witness_stream).
  assert (Hl : c_min p < nlen s) by (lazy; reflexivity).
  (* only the table entries the 63 prefill bytes touch are needed *)
  assert (Hz : N.land (a_hash (win_start (tab_of p) p s)) (c_avg p - 1) = 0) by (lazy; reflexivity).
  pose proof (first_len_at_min (tab_of p) p s eq_refl Hl) as [_ H2]. rewrite Hz in H2.
  exists p, s, 4096.
  split; [vm_compute; reflexivity|]. split; [vm_compute; discriminate|]. split; [vm_compute; discriminate|].
  split; [apply Forall_app; split; [apply isbyte_repeat; unfold isbyte; lia|repeat constructor]|].
  split; [vm_compute; discriminate|]. split; [vm_compute; reflexivity|]. split; [exact Hl|].
  split; [exact H2|]. split; [exact Hz|]. lazy. discriminate.
Qed.
Print Assumptions cut_is_fingerprint_of_last_64_bytes_refuted.

(* The property's last clause, literally: two streams that share a suffix t cut it identically
   after their first common cut (|a1| a cut of a1 ++ t, |a2| a cut of a2 ++ t). *)
Theorem shared_suffix_cut_identically : forall p t a1 a2 pre1 post1 pre2 post2, params_ok p = true ->
  cuts p (a1 ++ t) = pre1 ++ post1 -> concat pre1 = a1 ->
  cuts p (a2 ++ t) = pre2 ++ post2 -> concat pre2 = a2 ->
  post1 = post2 /\ post1 = cuts p t.
Proof.
  intros p t a1 a2 pre1 post1 pre2 post2 Hp C1 A1 C2 A2.
  rewrite (resync_after_common_cut p t pre1 a1 post1 Hp C1 A1), (resync_after_common_cut p t pre2 a2 post2 Hp C2 A2). auto.
Qed.
Print Assumptions shared_suffix_cut_identically.

(* ... and for the iterator itself, accepted parameters, any two read schedules / hints / modes *)
Theorem shared_suffix_cut_identically_impl :
  forall P avg mn mx t a1 a2 pre1 post1 pre2 post2 md1 md2 h1 h2 sc1 sc2,
  rabin_accepts avg mn mx = true ->
  let p := {| c_poly := P; c_avg := avg; c_min := mn; c_max := mx |} in
  chunks_impl md1 p h1 (a1 ++ t) sc1 = Ok (pre1 ++ post1) -> concat pre1 = a1 ->
  chunks_impl md2 p h2 (a2 ++ t) sc2 = Ok (pre2 ++ post2) -> concat pre2 = a2 ->
  post1 = post2.
Proof.
  intros P avg mn mx t a1 a2 pre1 post1 pre2 post2 md1 md2 h1 h2 sc1 sc2 Ha p C1 A1 C2 A2.
  pose proof (accepted_params_ok_lemma P avg mn mx Ha) as Hp. fold p in Hp.
  rewrite chunks_impl_is_cuts in C1, C2 by assumption. injection C1 as C1. injection C2 as C2.
  apply (shared_suffix_cut_identically p t a1 a2 pre1 post1 pre2 post2 Hp C1 A1 C2 A2).
Qed.
Print Assumptions shared_suffix_cut_identically_impl.

(* The converse of cut_is_fingerprint_of_last_64_bytes_refuted: the most recent 64 bytes have a
   fingerprint with zero low bits at L = min, yet the code does not cut there. *)
Theorem fingerprint_zero_of_last_64_bytes_not_cut_refuted :
  exists p s L,
    rabin_accepts (c_avg p) (c_min p) (c_max p) = true /\ poly_accepts (c_poly p) = true /\
    Forall isbyte s /\ c_min p <= L /\ L < c_max p /\ L < nlen s /\
    N.land (fp_direct (c_poly p) (ntake 64 (ndrop (L - 64) s))) (c_avg p - 1) = 0 /\
    is_cut (tab_of p) p s L = false /\ L < N.of_nat (first_len (tab_of p) p s).
Proof.
  pose (p := prefill_witness_params). pose (s := (repeat 0 4094 ++ [16; 0] ++ [1; 2; 3])%list).
  assert (Hl : c_min p < nlen s) by (lazy; reflexivity).
  assert (Hz : (N.land (a_hash (win_start (tab_of p) p s)) (c_avg p - 1) =? 0) = false) by (lazy; reflexivity).
  pose proof (first_len_at_min (tab_of p) p s eq_refl Hl) as [H1 H2]. rewrite Hz in H1, H2.
  exists p, s, 4096.
  split; [vm_compute; reflexivity|]. split; [vm_compute; reflexivity|].
  split; [apply Forall_app; split; [apply isbyte_repeat; unfold isbyte; lia|repeat constructor]|].
  split; [vm_compute; discriminate|]. split; [vm_compute; reflexivity|]. split; [exact Hl|].
  split; [lazy; reflexivity|]. split; assumption.
Qed.
Print Assumptions fingerprint_zero_of_last_64_bytes_not_cut_refuted.
