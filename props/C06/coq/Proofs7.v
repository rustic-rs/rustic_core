(* C06 — the rolling hash for EVERY polynomial of degree >= 8, including degrees 57..63 where
   `hash <<= 8` and `b << k` lose bits in u64.

   What the code computes is always a function of the window alone: the non-rolling fold of the
   same one-byte step over the 64 window bytes, starting from 0 (`wfold`).  The step is
   GF(2)-linear in the hash, which is all the out table needs.  For degree <= 56 no truncation
   occurs and the fold is the reduction modulo P (`wfold_fp`), so the two tables do what the
   single-step hypotheses of Proofs5.v demand (`append_ok`, `out_ok`,
   Props.rolling_equals_recompute); for degree >= 57 it is NOT in general
   (Props.rolling_not_fingerprint_above_56_refuted): the step drops the hash bits 56 .. k-1
   instead of reducing them.  Last: an equal table that is cheap to evaluate (`fast_tab`). *)
From Verif.Base Require Import Tactics.
From Verif.C06 Require Import Extracted Model Spec Gf2 Proofs5.
Local Open Scope N_scope.

(* the hash-only part of one step: hash <<= 8; hash ^= mod_table[(old hash >> shift) & 255] *)
Definition stepA (T : rtab) (h : N) : N :=
  N.lxor (shl64 h 8) (tbl (t_mod T) (N.land (N.shiftr h (t_shift T)) 255)).
(* recompute from scratch: push the window bytes, oldest first, into a zero hash *)
Definition wfold (T : rtab) (w : bytes) : N := fold_left (append_byte T) w 0.

Lemma tbl_map f i : i < 256 -> tbl (map f byte_values) i = f i.
Proof.
  intros H. unfold tbl, byte_values. rewrite map_map.
  set (g := fun x : nat => f (N.of_nat x)).
  rewrite (nth_indep _ 0 (g 0%nat)) by (rewrite map_length, seq_length; lia).
  rewrite (map_nth g). rewrite seq_nth by lia. unfold g. f_equal. lia.
Qed.
Lemma byte_below b : isbyte b -> below 8 b.
Proof. intros H. apply below_lt. exact H. Qed.

Lemma shl64_bit x j m : N.testbit (shl64 x j) m =
  if m <? 64 then (if m <? j then false else N.testbit x (m - j)) else false.
Proof.
  unfold shl64, U64. destruct (N.ltb_spec m 64); [|apply N.mod_pow2_bits_high; assumption].
  rewrite N.mod_pow2_bits_low by assumption. destruct (N.ltb_spec m j).
  - apply N.shiftl_spec_low. assumption.
  - apply N.shiftl_spec_high; lia.
Qed.
Lemma shl64_lxor x y j : shl64 (N.lxor x y) j = N.lxor (shl64 x j) (shl64 y j).
Proof.
  apply N.bits_inj. intro m. rewrite N.lxor_spec, !shl64_bit, N.lxor_spec.
  destruct (m <? 64), (m <? j); reflexivity.
Qed.
Lemma shl64_disjoint_below x j y : below j y -> forall m, N.testbit (shl64 x j) m && N.testbit y m = false.
Proof.
  intros H m. rewrite shl64_bit. destruct (N.ltb_spec m j); [destruct (m <? 64); reflexivity|].
  rewrite (H m) by assumption. apply andb_false_r.
Qed.

Lemma append_is_stepA T h b : isbyte b -> append_byte T h b = N.lxor (stepA T h) b.
Proof.
  intros Hb. unfold append_byte, stepA.
  rewrite (lor_lxor_disjoint (shl64 h 8) b) by (apply shl64_disjoint_below, byte_below, Hb).
  bitwise.
Qed.

Section Linear.
  Variable T : rtab.
  Hypothesis HA : forall x y, stepA T (N.lxor x y) = N.lxor (stepA T x) (stepA T y).
  Hypothesis Hout : forall o, isbyte o -> tbl (t_out T) o = iter (N.to_nat (t_wsize T) - 1) (stepA T) o.
  Hypothesis Hw : 0 < t_wsize T.

  Lemma stepA_0 : stepA T 0 = 0.
  Proof. pose proof (HA 0 0) as H. rewrite N.lxor_nilpotent in H. rewrite H. apply N.lxor_nilpotent. Qed.
  Lemma iter_lxor n : forall x y, iter n (stepA T) (N.lxor x y) = N.lxor (iter n (stepA T) x) (iter n (stepA T) y).
  Proof. induction n as [|n IH]; intros x y; cbn [iter]; [reflexivity|]. rewrite HA. apply IH. Qed.
  Lemma iter_S_out n x : iter (S n) (stepA T) x = iter n (stepA T) (stepA T x).
  Proof. reflexivity. Qed.

  Lemma append_0 b : isbyte b -> append_byte T 0 b = b.
  Proof. intros Hb. rewrite append_is_stepA, stepA_0 by assumption. apply N.lxor_0_l. Qed.

  Lemma fold_from t : Forall isbyte t -> forall h,
    fold_left (append_byte T) t h = N.lxor (iter (length t) (stepA T) h) (wfold T t).
  Proof.
    unfold wfold. induction 1 as [|x t Hx Ht IH]; intros h; cbn [fold_left length iter].
    - rewrite N.lxor_0_r. reflexivity.
    - rewrite (IH (append_byte T h x)), (IH (append_byte T 0 x)).
      rewrite append_0, append_is_stepA, iter_lxor by assumption. bitwise.
  Qed.

  Lemma lin_rolling bs xs : Forall isbyte bs -> Forall isbyte xs ->
    length bs = (N.to_nat (t_wsize T) - 1)%nat ->
    let w := fold_left (a_slide T) xs (a_init T bs) in a_hash w = wfold T (a_fifo w).
  Proof.
    intros Hb Hx Hl. apply rolling_function; try assumption; unfold wfold.
    - intros bs' _. cbn [fold_left]. rewrite append_0 by (unfold isbyte; lia). reflexivity.
    - intros o t b [Hlen Hf] Hbb. inversion Hf; subst. cbn [length] in Hlen.
      rewrite fold_left_app. cbn [fold_left]. f_equal.
      rewrite fold_from, append_0, Hout by assumption.
      replace (N.to_nat (t_wsize T) - 1)%nat with (length t) by lia. fold (wfold T t). bitwise.
  Qed.
End Linear.

Section AnyDegree.
  Variables (P bits : N).
  Hypothesis Hlo : 8 <= N.log2 P.
  Let k := N.log2 P.
  Let T := rabin_tab bits P.

  Lemma P_nz : P <> 0.
  Proof. intros E. rewrite E in Hlo. cbn in Hlo. lia. Qed.

  (* p | (p mod P): the two parts do not overlap *)
  Lemma mod_entry_split t : mod_entry P t = N.lxor (pmod (shl64 t k) P) (shl64 t k).
  Proof.
    unfold mod_entry, degree. fold k. apply lor_lxor_disjoint. intros m.
    rewrite andb_comm. apply shl64_disjoint_below, pmod_below, P_nz.
  Qed.

  Lemma mod_entry_lxor i j : mod_entry P (N.lxor i j) = N.lxor (mod_entry P i) (mod_entry P j).
  Proof. rewrite !mod_entry_split, shl64_lxor, (pmod_linear P P_nz). bitwise. Qed.

  Lemma stepA_linear x y : stepA T (N.lxor x y) = N.lxor (stepA T x) (stepA T y).
  Proof.
    unfold stepA. change (t_mod T) with (map (mod_entry P) byte_values).
    rewrite shl64_lxor, N.shiftr_lxor, land_lxor_l.
    rewrite !tbl_map by (try apply lxor_byte; apply land255_lt).
    rewrite mod_entry_lxor. bitwise.
  Qed.

  (* on reduced values the step is "shift (truncated to 64 bits), then reduce": the table entry
     removes the bits k .. k+7 of the shifted hash and adds their remainder *)
  Lemma stepA_reduced h : below k h -> stepA T h = pmod (shl64 h 8) P.
  Proof.
    intros Hh. pose proof P_nz as HP.
    unfold stepA. change (t_mod T) with (map (mod_entry P) byte_values).
    change (t_shift T) with (degree P - 8). unfold degree. fold k.
    rewrite (tbl_map _ _ (land255_lt _)), mod_entry_split.
    set (X := shl64 (N.land (N.shiftr h (k - 8)) 255) k).
    assert (Hlow : below k (N.lxor (shl64 h 8) X)).
    { intros m Hm. unfold X. rewrite N.lxor_spec, !shl64_bit, index_bits.
      destruct (m <? 64); [|reflexivity].
      destruct (N.ltb_spec m 8); [lia|]. destruct (N.ltb_spec m k); [lia|].
      destruct (N.ltb_spec (m - k) 8).
      - replace (m - k + (k - 8)) with (m - 8) by lia. apply xorb_nilpotent.
      - rewrite (Hh (m - 8)) by lia. reflexivity. }
    replace (shl64 h 8) with (N.lxor X (N.lxor (shl64 h 8) X)) at 2 by bitwise.
    rewrite (pmod_linear P HP), (pmod_small P HP _ Hlow). bitwise.
  Qed.

  Lemma out_is_iter o : isbyte o ->
    tbl (t_out T) o = iter (N.to_nat (t_wsize T) - 1) (stepA T) o.
  Proof.
    intros Ho. pose proof P_nz as HP.
    change (t_out T) with (map (out_entry (t_wsize T) P) byte_values).
    rewrite (tbl_map _ _ Ho). unfold out_entry.
    assert (Hob : below k o) by (apply (below_mono 8); [lia|apply byte_below; assumption]).
    rewrite (pmod_small P HP o Hob).
    replace (N.to_nat (t_wsize T - 1)) with (N.to_nat (t_wsize T) - 1)%nat by lia.
    clear Ho. revert o Hob. induction (N.to_nat (t_wsize T) - 1)%nat as [|n IH]; intros o Hob; cbn [iter]; [reflexivity|].
    rewrite <- (stepA_reduced o Hob). apply IH. rewrite stepA_reduced by assumption. apply pmod_below, HP.
  Qed.

  Lemma wsize_pos : 0 < t_wsize T.
  Proof. unfold T. cbn [rabin_tab t_wsize]. rewrite N.shiftl_1_l. apply N.neq_0_lt_0, N.pow_nonzero. lia. Qed.

  Lemma rolling_any_degree_lemma : forall bs xs, Forall isbyte bs -> Forall isbyte xs ->
    length bs = (N.to_nat (t_wsize T) - 1)%nat ->
    let w := fold_left (a_slide T) xs (a_init T bs) in a_hash w = wfold T (a_fifo w).
  Proof. exact (lin_rolling T stepA_linear out_is_iter wsize_pos). Qed.
End AnyDegree.

Lemma shl64_id n x j : below n x -> n + j <= 64 -> shl64 x j = N.shiftl x j.
Proof.
  intros H Hn. unfold shl64, U64. apply N.mod_small.
  apply N.lt_le_trans with (2 ^ (n + j)); [apply lt_below, below_shiftl; assumption|].
  apply N.pow_le_mono_r; lia.
Qed.

Lemma push8_lxor a b : isbyte b -> push8 a b = N.lxor (N.shiftl a 8) b.
Proof. intros H. unfold push8. apply lor_lxor_disjoint. apply shiftl_disjoint_below. apply byte_below. assumption. Qed.

(* the table of a GF(2)-linear function of the byte, from its values at the eight powers of two *)
Definition xtable (basis : list N) : list N :=
  map (fun b => match b with 0 => 0 | Npos q => xsel basis q end) byte_values.
Lemma xtable_ok (f : N -> N) basis : (forall x y, f (N.lxor x y) = N.lxor (f x) (f y)) ->
  basis = map (fun i => f (N.shiftl 1 (N.of_nat i))) (seq 0 8) -> map f byte_values = xtable basis.
Proof.
  intros Hf ->. apply map_ext_in. intros [|q] Hb.
  - rewrite <- (N.lxor_nilpotent 0), Hf. apply N.lxor_nilpotent.
  - change (f (Npos q)) with (f (N.shiftl (Npos q) (N.of_nat 0))). symmetry. apply xsel_linear; [assumption|].
    apply in_map_iff in Hb. destruct Hb as [i [<- Hi]]. apply in_seq in Hi. change (2 ^ N.of_nat 8) with 256. lia.
Qed.

Section Tables.
  Variables (P bits : N).
  Hypothesis Hlo : 8 <= N.log2 P.
  Hypothesis Hhi : N.log2 P <= 56.
  Let k := N.log2 P.
  Let T := rabin_tab bits P.
  Let HP : P <> 0 := P_nz P Hlo.

  Lemma append_ok : step_append_ok T P.
  Proof.
    intros a b Hb. pose proof (pmod_below P HP a) as Hh. unfold T.
    rewrite append_is_stepA, (stepA_reduced P bits Hlo _ Hh), (shl64_id k _ 8 Hh) by (assumption || lia).
    rewrite (pmod_shift_pmod P HP), (push8_lxor a b Hb), (pmod_linear P HP).
    rewrite (pmod_small P HP b) by (apply (below_mono 8); [lia|apply byte_below; assumption]).
    reflexivity.
  Qed.

  Lemma iter_out : forall n x,
    iter n (fun h => pmod (shl64 h 8) P) (pmod x P) = pmod (N.shiftl x (8 * N.of_nat n)) P.
  Proof.
    induction n as [|n IH]; intros x; cbn [iter].
    - rewrite N.shiftl_0_r. reflexivity.
    - rewrite (shl64_id k (pmod x P) 8) by (try apply pmod_below; try assumption; lia).
      rewrite (pmod_shift_pmod P HP x 8), IH, N.shiftl_shiftl. f_equal. f_equal. lia.
  Qed.

  Lemma wfold_fp w : Forall isbyte w -> wfold T w = fp_direct P w.
  Proof. intros Hw. unfold wfold. rewrite <- (pmod_0 P) at 1. exact (fold_append T P append_ok w 0 Hw). Qed.

  (* the out table cancels what the oldest byte has become after window_size - 1 further steps *)
  Lemma out_ok : step_out_ok T P.
  Proof.
    intros o t Ho Ht Hl. change (pmod (bytes_to_N ?w) P) with (fp_direct P w).
    rewrite <- !wfold_fp by (try constructor; assumption). unfold wfold at 1. cbn [fold_left].
    rewrite (append_0 T (stepA_linear P bits Hlo) o Ho), (fold_from T (stepA_linear P bits Hlo) t Ht o).
    rewrite (out_is_iter P bits Hlo o Ho : tbl (t_out T) o = iter (N.to_nat (t_wsize T) - 1) (stepA T) o), <- Hl.
    bitwise.
  Qed.

  Lemma rolling_lemma : forall bs xs, Forall isbyte bs -> Forall isbyte xs ->
    length bs = (N.to_nat (t_wsize T) - 1)%nat ->
    let w := fold_left (a_slide T) xs (a_init T bs) in a_hash w = fp_direct P (a_fifo w).
  Proof. exact (rolling_partial_lemma T P append_ok out_ok (wsize_pos P bits Hlo)). Qed.

  (* Both tables are linear in the byte: mod_entry P b = p | (p mod P) for p = b << k, and
     out_entry ws P b = (b << 8(ws-1)) mod P.  So each follows from its entries at the eight powers
     of two, and those of the out table from its entry at 1.  Evaluating an entry of `t_out` costs
     ws-1 reductions, one of `t_mod` one; these tables cost ws+7 and 8 reductions in all. *)
  Definition fast_tab : rtab :=
    let ws := N.shiftl 1 bits in
    let e0 := out_entry ws P 1 in
    {| t_shift := degree P - 8;
       t_out := xtable (map (fun i => pmod (N.shiftl e0 (N.of_nat i)) P) (seq 0 8));
       t_mod := xtable (map (fun i => mod_entry P (N.shiftl 1 (N.of_nat i))) (seq 0 8));
       t_wsize := ws; t_wmask := ws - 1 |}.

  Lemma rabin_tab_fast : rabin_tab bits P = fast_tab.
  Proof.
    unfold rabin_tab, fast_tab. cbv zeta. set (ws := N.shiftl 1 bits).
    set (f := fun x => pmod (N.shiftl x (8 * N.of_nat (N.to_nat (ws - 1)))) P).
    assert (Ho : forall x, out_entry ws P x = f x) by (intros x; apply iter_out).
    f_equal; [rewrite (map_ext _ _ Ho)|]; apply xtable_ok.
    - intros x y. unfold f. rewrite N.shiftl_lxor. apply pmod_linear, HP.
    - apply map_ext. intros i. rewrite Ho. unfold f.
      rewrite (pmod_shift_pmod P HP), !N.shiftl_shiftl. do 2 f_equal. lia.
    - apply (mod_entry_lxor P Hlo).
    - reflexivity.
  Qed.
End Tables.
