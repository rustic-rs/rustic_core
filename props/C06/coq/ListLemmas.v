(* C06 — list lemmas: ntake/ndrop are firstn/skipn; splitting; what read_to_end delivers;
   a circular buffer read from its index is a FIFO. *)
From Verif.Base Require Import Tactics Lists.
From Verif.C06 Require Import Extracted Model.
Local Open Scope N_scope.

Lemma ntake_firstn {A} (l : list A) : forall n, ntake n l = firstn (N.to_nat n) l.
Proof.
  induction l as [|x t IH]; intros n; cbn [ntake].
  - now rewrite firstn_nil.
  - destruct (N.eqb_spec n 0) as [->|Hn]; [reflexivity|].
    rewrite IH. replace (N.to_nat n) with (S (N.to_nat (n - 1))) by lia. reflexivity.
Qed.

Lemma ndrop_skipn {A} (l : list A) : forall n, ndrop n l = skipn (N.to_nat n) l.
Proof.
  induction l as [|x t IH]; intros n; cbn [ndrop].
  - now rewrite skipn_nil.
  - destruct (N.eqb_spec n 0) as [->|Hn]; [reflexivity|].
    rewrite IH. replace (N.to_nat n) with (S (N.to_nat (n - 1))) by lia. reflexivity.
Qed.

Lemma nlen_app {A} (a b : list A) : nlen (a ++ b) = nlen a + nlen b.
Proof. unfold nlen. rewrite app_length. lia. Qed.
Lemma nlen_cons {A} (x : A) l : nlen (x :: l) = 1 + nlen l.
Proof. unfold nlen. cbn [length]. lia. Qed.
Lemma nlen_nil {A} : nlen (@nil A) = 0.
Proof. reflexivity. Qed.
Lemma nlen_rev {A} (l : list A) : nlen (rev l) = nlen l.
Proof. unfold nlen. now rewrite rev_length. Qed.
Lemma nlen_0 {A} (l : list A) : nlen l = 0 -> l = [].
Proof. destruct l; [reflexivity|]. rewrite nlen_cons. lia. Qed.

Lemma nlen_ntake {A} n (l : list A) : nlen (ntake n l) = N.min n (nlen l).
Proof. rewrite ntake_firstn. unfold nlen. rewrite firstn_length. lia. Qed.
Lemma nlen_ndrop {A} n (l : list A) : nlen (ndrop n l) = nlen l - n.
Proof. rewrite ndrop_skipn. unfold nlen. rewrite skipn_length. lia. Qed.
Lemma ntake_ndrop {A} n (l : list A) : ntake n l ++ ndrop n l = l.
Proof. rewrite ntake_firstn, ndrop_skipn. apply firstn_skipn. Qed.
Lemma ntake_0 {A} (l : list A) : ntake 0 l = [].
Proof. now rewrite ntake_firstn. Qed.
Lemma ndrop_0 {A} (l : list A) : ndrop 0 l = l.
Proof. now rewrite ndrop_skipn. Qed.
Lemma ntake_all {A} n (l : list A) : nlen l <= n -> ntake n l = l.
Proof. intros H. rewrite ntake_firstn. apply firstn_all2. unfold nlen in H. lia. Qed.
Lemma ndrop_all {A} n (l : list A) : nlen l <= n -> ndrop n l = [].
Proof. intros H. rewrite ndrop_skipn. apply skipn_all2. unfold nlen in H. lia. Qed.
Lemma ntake_app {A} n (a b : list A) : ntake n (a ++ b) = ntake n a ++ ntake (n - nlen a) b.
Proof.
  rewrite !ntake_firstn, firstn_app. unfold nlen.
  replace (N.to_nat (n - N.of_nat (length a))) with (N.to_nat n - length a)%nat by lia. reflexivity.
Qed.
Lemma ndrop_app {A} n (a b : list A) : ndrop n (a ++ b) = ndrop n a ++ ndrop (n - nlen a) b.
Proof.
  rewrite !ndrop_skipn, skipn_app. unfold nlen.
  replace (N.to_nat (n - N.of_nat (length a))) with (N.to_nat n - length a)%nat by lia. reflexivity.
Qed.

Lemma firstn_plus {A} (a b : nat) (l : list A) : firstn (a + b) l = firstn a l ++ firstn b (skipn a l).
Proof.
  revert l. induction a as [|a IH]; intros l; [reflexivity|].
  destruct l as [|x t]; [rewrite skipn_nil, !firstn_nil; reflexivity|].
  cbn [plus firstn skipn app]. now rewrite IH.
Qed.
Lemma ntake_plus {A} a b (l : list A) : ntake (a + b) l = ntake a l ++ ntake b (ndrop a l).
Proof. rewrite !ntake_firstn, ndrop_skipn, N2Nat.inj_add. apply firstn_plus. Qed.
Lemma ndrop_plus {A} a b (l : list A) : ndrop (a + b) l = ndrop b (ndrop a l).
Proof. rewrite !ndrop_skipn, skipn_skipn, N2Nat.inj_add, Nat.add_comm. reflexivity. Qed.

Lemma ntake_nil_inv {A} n (l : list A) : ntake n l = [] -> n = 0 \/ l = [].
Proof.
  destruct l as [|x t]; [now right|]. cbn [ntake].
  destruct (N.eqb_spec n 0); [now left|discriminate].
Qed.

Lemma Forall_ntake {A} (Q : A -> Prop) n l : Forall Q l -> Forall Q (ntake n l).
Proof. intros H. rewrite <- (ntake_ndrop n l) in H. apply Forall_app in H. apply H. Qed.
Lemma Forall_ndrop {A} (Q : A -> Prop) n l : Forall Q l -> Forall Q (ndrop n l).
Proof. intros H. rewrite <- (ntake_ndrop n l) in H. apply Forall_app in H. apply H. Qed.

Lemma ndrop_nlen_ntake {A} n (l : list A) : ndrop (nlen (ntake n l)) l = ndrop n l.
Proof.
  rewrite nlen_ntake. destruct (N.le_gt_cases n (nlen l)).
  - now rewrite N.min_l.
  - rewrite N.min_r by lia. rewrite !ndrop_all by lia. reflexivity.
Qed.
Lemma ntake_nlen_ntake {A} n (l : list A) : ntake (nlen (ntake n l)) l = ntake n l.
Proof.
  rewrite nlen_ntake. destruct (N.le_gt_cases n (nlen l)).
  - now rewrite N.min_l.
  - rewrite N.min_r by lia. rewrite !ntake_all by lia. reflexivity.
Qed.

(* n bytes, then up to m bytes in all: nothing is left for the second part if l ends before n *)
Lemma ntake_ndrop_split {A} n m (l : list A) : n <= m ->
  ntake m l = ntake n l ++ ntake (m - nlen (ntake n l)) (ndrop n l) /\
  ndrop m l = ndrop (m - nlen (ntake n l)) (ndrop n l).
Proof.
  intros H. assert (Hk : nlen (ntake n l) <= m) by (rewrite nlen_ntake; lia).
  replace m with (nlen (ntake n l) + (m - nlen (ntake n l))) at 1 3 by lia.
  now rewrite ntake_plus, ndrop_plus, ntake_nlen_ntake, ndrop_nlen_ntake.
Qed.

Lemma read_to_end_spec : forall sched limit rest,
  exists sc', read_to_end limit rest sched = (ntake limit rest, ndrop limit rest, sc').
Proof.
  induction sched as [|ev sc IH]; intros limit rest; cbn [read_to_end].
  - eexists; reflexivity.
  - destruct (N.eqb_spec limit 0) as [->|Hl].
    { rewrite ntake_0, ndrop_0. eexists; reflexivity. }
    destruct ev as [k|]; [|apply IH].
    set (n := N.min (N.max 1 k) limit).
    destruct (ntake n rest) as [|d0 d] eqn:E.
    + apply ntake_nil_inv in E. destruct E as [E|E]; [lia|]. subst rest.
      eexists. rewrite ntake_firstn, ndrop_skipn, firstn_nil, skipn_nil. reflexivity.
    + rewrite <- E.
      destruct (IH (limit - nlen (ntake n rest)) (ndrop n rest)) as [sc' H]. rewrite H.
      destruct (ntake_ndrop_split n limit rest) as [Ht Hd]; [lia|].
      exists sc'. rewrite Ht, Hd. reflexivity.
Qed.

Lemma set_nth_length v : forall l i, length (set_nth i v l) = length l.
Proof. induction l as [|x t IH]; intros [|i]; cbn [set_nth length]; auto. Qed.

Lemma set_nth_app v x (a b : list N) : set_nth (length a) v (a ++ x :: b) = a ++ v :: b.
Proof. induction a as [|y a IH]; cbn [length app set_nth]; [reflexivity|now rewrite IH]. Qed.

(* the buffer read from index i onwards, wrapping around: oldest byte first *)
Definition rot (i : nat) (l : list N) : list N := skipn i l ++ firstn i l.
Definition fifo_push (f : list N) (b : N) : list N := tl f ++ [b].

Lemma rot_app (a b : list N) : rot (length a) (a ++ b) = b ++ a.
Proof.
  unfold rot. rewrite skipn_app, firstn_app, skipn_all, firstn_all, Nat.sub_diag.
  cbn [skipn firstn]. now rewrite app_nil_r.
Qed.

Lemma rot_nth l i : (i < length l)%nat -> rot i l = nth i l 0 :: tl (rot i l).
Proof.
  intros H. destruct (nth_split l 0 H) as [a [b [E <-]]].
  rewrite E at 1 3. rewrite rot_app. reflexivity.
Qed.
Lemma rot_set l i v : (i < length l)%nat -> rot i (set_nth i v l) = v :: tl (rot i l).
Proof.
  intros H. destruct (nth_split l 0 H) as [a [b [E <-]]].
  rewrite E, set_nth_app, !rot_app. reflexivity.
Qed.
Lemma rot_next l i v : (i < length l)%nat ->
  rot (if Nat.eqb (S i) (length l) then 0 else S i) (set_nth i v l) = fifo_push (rot i l) v.
Proof.
  intros H. destruct (nth_split l 0 H) as [a [b [E <-]]].
  rewrite E, set_nth_app, rot_app, app_length. unfold fifo_push. cbn [length tl].
  destruct (Nat.eqb_spec (S (length a)) (length a + S (length b))) as [Eb|Eb].
  - destruct b; [|cbn [length] in Eb; lia]. unfold rot. cbn [skipn firstn app]. now rewrite app_nil_r.
  - replace (S (length a)) with (length (a ++ [v])) by (rewrite app_length; cbn [length]; lia).
    change (a ++ v :: b) with (a ++ [v] ++ b). rewrite app_assoc, rot_app. now rewrite app_assoc.
Qed.

Lemma fifo_push_fold : forall bs f, (length bs <= length f)%nat ->
  fold_left fifo_push bs f = skipn (length bs) f ++ bs.
Proof.
  induction bs as [|b bs IH]; intros f H; cbn [fold_left length] in *.
  - cbn [skipn]. now rewrite app_nil_r.
  - destruct f as [|o t]; cbn [length] in H; [lia|].
    unfold fifo_push at 2. cbn [tl]. rewrite IH by (rewrite app_length; cbn [length]; lia).
    rewrite skipn_app. cbn [skipn].
    replace (length bs - length t)%nat with 0%nat by lia. cbn [skipn].
    rewrite <- app_assoc. reflexivity.
Qed.
