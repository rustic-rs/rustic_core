(* C06 — refinement, first half: the circular window with its index is the FIFO of the
   specification, and the main loop of next() stops where `scan` stops, for every read schedule. *)
From Verif.Base Require Import Tactics.
From Verif.C06 Require Import Extracted Model Spec ListLemmas.
Local Open Scope N_scope.

Definition wft (T : rtab) : Prop := exists bits, t_wsize T = 2 ^ bits /\ t_wmask T = 2 ^ bits - 1.
Definition wfr (T : rtab) (r : rstate) : Prop := nlen (r_win r) = t_wsize T /\ r_idx r < t_wsize T.
(* the window of the specification: the circular buffer read from its index, oldest byte first *)
Definition abs (r : rstate) : awin :=
  {| a_fifo := rot (N.to_nat (r_idx r)) (r_win r); a_hash := r_hash r |}.

Lemma wft_tab bits P : wft (rabin_tab bits P).
Proof. exists bits. cbn [rabin_tab t_wsize t_wmask]. rewrite N.shiftl_1_l. auto. Qed.

Lemma wfr_init T : wft T -> wfr T (rabin_init T).
Proof.
  intros [bits [Hs Hm]]. unfold wfr, rabin_init, nlen. cbn [r_win r_idx].
  rewrite repeat_length. split; [lia|]. rewrite Hs. apply N.neq_0_lt_0, N.pow_nonzero. lia.
Qed.

Lemma idx_next T r : wft T -> wfr T r ->
  N.land (r_idx r + 1) (t_wmask T) = if r_idx r + 1 =? t_wsize T then 0 else r_idx r + 1.
Proof.
  intros [bits [Hs Hm]] [_ Hi]. rewrite Hm, N.sub_1_r, <- N.ones_equiv, N.land_ones, <- Hs.
  destruct (N.eqb_spec (r_idx r + 1) (t_wsize T)) as [E|E].
  - rewrite E. apply N.mod_same. lia.
  - apply N.mod_small. lia.
Qed.

Lemma put_abs T r h b : wft T -> wfr T r ->
  abs (rb_put T r h b) = {| a_fifo := fifo_push (a_fifo (abs r)) b; a_hash := append_byte T h b |}
  /\ wfr T (rb_put T r h b).
Proof.
  intros HT Hr. pose proof (idx_next T r HT Hr) as Hn. destruct Hr as [Hl Hi]. unfold nlen in Hl.
  unfold abs, wfr, nlen, rb_put. cbn [r_win r_idx r_hash a_fifo]. rewrite set_nth_length, Hn.
  split; [f_equal|destruct (N.eqb_spec (r_idx r + 1) (t_wsize T)); lia].
  rewrite <- (rot_next _ _ b) by lia. f_equal.
  destruct (N.eqb_spec (r_idx r + 1) (t_wsize T)), (Nat.eqb_spec (S (N.to_nat (r_idx r))) (length (r_win r))); lia.
Qed.

Lemma slide_abs T r b : wft T -> wfr T r ->
  abs (rb_slide T r b) = a_slide T (abs r) b /\ wfr T (rb_slide T r b).
Proof.
  intros HT Hr. unfold rb_slide.
  rewrite (proj1 (put_abs T r _ b HT Hr)). split; [|apply put_abs; assumption].
  destruct Hr as [Hl Hi]. unfold nlen in Hl. unfold a_slide, tbl, abs. cbn [a_fifo a_hash].
  rewrite rot_nth by lia. reflexivity.
Qed.

Lemma abs_fifo_length T r : wfr T r -> length (a_fifo (abs r)) = N.to_nat (t_wsize T).
Proof.
  intros [Hl Hi]. unfold abs, rot, nlen in *. cbn [a_fifo].
  rewrite app_length, skipn_length, firstn_length. lia.
Qed.

Lemma prefill_fold_abs T : wft T -> forall bs r, wfr T r ->
  abs (fold_left (rb_prefill_step T) bs r)
  = {| a_fifo := fold_left fifo_push bs (a_fifo (abs r));
       a_hash := fold_left (append_byte T) bs (r_hash r) |}
  /\ wfr T (fold_left (rb_prefill_step T) bs r).
Proof.
  intros HT. induction bs as [|b bs IH]; intros r Hr; cbn [fold_left].
  - split; [reflexivity|assumption].
  - unfold rb_prefill_step at 2 4. destruct (put_abs T r (r_hash r) b HT Hr) as [H1 H2].
    destruct (IH _ H2) as [I1 I2]. split; [|assumption].
    rewrite I1, H1. reflexivity.
Qed.

(* whatever index and contents the previous chunk left: after the prefill the window is a zero
   followed by the window_size - 1 bytes put, and the hash is theirs alone *)
Lemma prefill_abs T r it : wft T -> wfr T r -> t_wsize T - 1 <= nlen it ->
  abs (rb_reset_prefill T r it) = a_init T (ntake (t_wsize T - 1) it)
  /\ wfr T (rb_reset_prefill T r it).
Proof.
  intros HT Hr Hit. unfold rb_reset_prefill.
  set (r0 := {| r_win := r_win r; r_idx := r_idx r; r_hash := 0 |}).
  set (bs := ntake (t_wsize T - 1) it).
  destruct (prefill_fold_abs T HT bs r0 Hr) as [F1 [Hl1 Hi1]].
  set (r1 := fold_left (rb_prefill_step T) bs r0) in *.
  pose proof (abs_fifo_length T r0 Hr) as L0.
  assert (Hbs : S (length bs) = N.to_nat (t_wsize T)).
  { assert (H := nlen_ntake (t_wsize T - 1) it). fold bs in H. destruct Hr. unfold nlen in *. lia. }
  unfold nlen in Hl1. split.
  - unfold abs at 1, a_init. cbn [r_win r_idx r_hash]. rewrite rot_set by lia. f_equal.
    + change (rot (N.to_nat (r_idx r1)) (r_win r1)) with (a_fifo (abs r1)).
      rewrite F1. cbn [a_fifo]. rewrite fifo_push_fold by lia.
      (* the FIFO held one byte more than was pushed: that byte is the head now *)
      destruct (skipn (length bs) (a_fifo (abs r0))) as [|x [|y t]] eqn:E;
        apply (f_equal (@length N)) in E; rewrite skipn_length in E; cbn [length] in E; try lia.
      reflexivity.
    + change (r_hash r1) with (a_hash (abs r1)). rewrite F1. reflexivity.
  - unfold wfr, nlen. cbn [r_win r_idx]. rewrite set_nth_length. split; [lia|assumption].
Qed.

Definition buf_inv (avail : bytes) (buflen : N) : Prop :=
  (avail = [] \/ nlen avail + 1 <= buflen) /\ 1 <= buflen /\ buflen <= BUF_SIZE.

Lemma scan_unfold T mask mx w len l :
  scan T mask mx w len l =
  if mx <=? len then O else if N.land (a_hash w) mask =? 0 then O
  else match l with [] => O | b :: l' => S (scan T mask mx (a_slide T w b) (len + 1) l') end.
Proof. destruct l; reflexivity. Qed.

(* the loop entered with vec = rev acc and the bytes t still to come (read buffer, then stream)
   leaves in state ls after taking k of them *)
Record loop_post (T : rtab) (k : nat) (acc : bytes) (len : N) (t : bytes) (ls : lstate) : Prop := {
  lp_acc : l_acc ls = rev (firstn k t) ++ acc;
  lp_rest : l_avail ls ++ l_rest ls = skipn k t;
  lp_len : l_len ls = len + N.of_nat k;
  lp_wfr : wfr T (l_r ls);
  lp_buf : buf_inv (l_avail ls) (l_buflen ls);
  lp_fin : l_fin ls = true -> l_avail ls = [] /\ l_rest ls = [] }.

Lemma loop_post_push T k b acc len t ls :
  loop_post T k (b :: acc) (len + 1) t ls -> loop_post T (S k) acc len (b :: t) ls.
Proof.
  intros [P1 P2 P3 P4 P5 P6]. constructor; cbn [firstn skipn rev]; try assumption.
  - rewrite P1, <- app_assoc. reflexivity.
  - lia.
Qed.

Lemma sread_cases cap rest sched : 1 <= cap ->
  (exists sc, sched = Interrupted :: sc /\ sread cap rest sched = RInt sc) \/
  (exists n sc, 1 <= n /\ n <= cap /\ (length sc <= length sched)%nat /\
                sread cap rest sched = RData (ntake n rest) (ndrop n rest) sc).
Proof.
  intros Hc. destruct sched as [|[k|] sc]; cbn [sread].
  - right. exists cap, []. repeat split; auto; lia.
  - right. exists (N.min (N.max 1 k) cap), sc. cbn [length]. repeat split; auto; lia.
  - left. exists sc. auto.
Qed.

(* Termination measure 2|rest| + |avail| + |sched|: a read that delivers data shortens the stream,
   an interrupted one the schedule, a byte taken from the buffer the buffer. *)
Lemma main_loop_spec T mask mx : wft T -> forall fuel acc len r avail buflen rest sched,
  wfr T r -> buf_inv avail buflen ->
  (2 * length rest + length avail + length sched < fuel)%nat ->
  exists ls, main_loop fuel T mask mx acc len r avail buflen rest sched = Some ls /\
             loop_post T (scan T mask mx (abs r) len (avail ++ rest)) acc len (avail ++ rest) ls.
Proof.
  intros HT. induction fuel as [|f IH]; intros acc len r avail buflen rest sched Hr Hb Hf; [lia|].
  cbn [main_loop]. rewrite scan_unfold. change (a_hash (abs r)) with (r_hash r).
  assert (Stop : exists ls, Some (Build_lstate acc len r avail buflen rest sched false) = Some ls /\
                            loop_post T 0 acc len (avail ++ rest) ls).
  { eexists. split; [reflexivity|]. constructor; cbn [l_acc l_avail l_rest l_len l_r l_buflen l_fin];
      auto; [lia|discriminate]. }
  destruct (mx <=? len) eqn:E1; [exact Stop|].
  destruct (N.land (r_hash r) mask =? 0) eqn:E2; [exact Stop|]. clear Stop.
  (* one more byte b is pushed and slid in; what is left to come is av ++ rest' *)
  assert (Push : forall b av bl rest' sc, buf_inv av bl ->
            (2 * length rest' + length av + length sc < f)%nat ->
            exists ls, main_loop f T mask mx (b :: acc) (len + 1) (rb_slide T r b) av bl rest' sc = Some ls /\
                       loop_post T (S (scan T mask mx (a_slide T (abs r) b) (len + 1) (av ++ rest')))
                                 acc len (b :: av ++ rest') ls).
  { intros b av bl rest' sc Hb' Hf'. destruct (slide_abs T r b HT Hr) as [Ha Hw].
    destruct (IH (b :: acc) (len + 1) _ av bl rest' sc Hw Hb' Hf') as [ls [Hm Hp]].
    exists ls. split; [assumption|]. rewrite <- Ha. apply loop_post_push. assumption. }
  destruct avail as [|b av]; cbn [app length] in *.
  - destruct Hb as [_ [Hb2 Hb3]].
    destruct (sread_cases buflen rest sched Hb2) as [[sc [-> Hrd]]|[n [sc [Hn1 [Hn2 [Hsc Hrd]]]]]]; rewrite Hrd.
    + (* Interrupted: continue *)
      cbn [length] in Hf.
      destruct (IH acc len r [] buflen rest sc Hr) as [ls [Hm Hp]];
        [unfold buf_inv; auto|cbn [length]; lia|].
      exists ls. split; [assumption|]. cbn [app] in Hp. rewrite scan_unfold, E1 in Hp.
      change (a_hash (abs r)) with (r_hash r) in Hp. rewrite E2 in Hp. exact Hp.
    + pose proof (ntake_ndrop n rest) as Hrest. pose proof (nlen_ntake n rest) as Hlen.
      set (rest' := ndrop n rest) in *. clearbody rest'. revert Hrest Hlen.
      destruct (ntake n rest) as [|d0 d]; cbn [app]; intros <- Hlen.
      * (* Ok(0): the stream is exhausted *)
        assert (rest' = []) as -> by (apply nlen_0; cbn in Hlen; lia).
        eexists. split; [reflexivity|].
        constructor; cbn [l_acc l_avail l_rest l_len l_r l_buflen l_fin firstn skipn rev app];
          auto; [lia|unfold buf_inv; auto].
      * (* Ok(n) *)
        rewrite nlen_cons in Hlen. cbn [length] in Hf. rewrite app_length in Hf. apply Push.
        -- unfold buf_inv. split; [right; lia|lia].
        -- lia.
  - (* a byte is available in the buffer *)
    apply Push; [|lia].
    destruct Hb as [[Hb1|Hb1] [Hb2 Hb3]]; [discriminate|]. rewrite nlen_cons in Hb1.
    unfold buf_inv. split; [right; lia|lia].
Qed.
