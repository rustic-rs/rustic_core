(* C06 — concrete parameters and streams: the witnesses of the refuted statements of Props.v and
   an example of two streams that share a suffix.

   How they are evaluated.  `vm_compute` builds both tables of `tab_of p` completely (256 entries
   of 63 reductions each) whether or not they are used, and an independent checker re-evaluates by
   lazy reduction, where every entry that IS used costs those 63 reductions.  Hence: where few
   entries are needed `lazy` is used; where many are, `tab_of p` is first replaced by the equal
   `fast_tab` (Proofs7.v). *)
From Verif.Base Require Import Tactics.
From Verif.C06 Require Import Extracted Model Spec ListLemmas Proofs2 Proofs4 Proofs5 Proofs7 Proofs6.
Local Open Scope N_scope.

(* restic's default polynomial *)
Lemma fast_tab_of p : c_poly p = 0x3DA3358B4DC173 -> tab_of p = fast_tab (c_poly p) WINDOW_BITS.
Proof. intros E. unfold tab_of. rewrite E. apply rabin_tab_fast; apply default_poly_degree. Qed.

(* avg 64 / min 64 / max 128 passes the three original checks of check_rabin_params.  The first
   chunk leaves more than min bytes in the read buffer: the overflow-checked build panics at
   `min_size -= open_buf_len`, the wrapping build emits one chunk far above max. *)
Definition tiny_params : cparams := {| c_poly := 0x3DA3358B4DC173; c_avg := 64; c_min := 64; c_max := 128 |}.

(* accepted parameters (restic's default polynomial, avg 4096, min 4096, max 8192); the stream is
   4093 zero bytes, then 16 0 1, then 1 2 3.  The code cuts at L = min = 4096: its window there is
   0 :: s[4032..4095) - it omits s[4095] - with fingerprint 0x1000.  The last 64 bytes
   s[4032..4096) have fingerprint 0x100001, whose low 12 bits are not zero. *)
Definition prefill_witness_params : cparams :=
  {| c_poly := 0x3DA3358B4DC173; c_avg := 4096; c_min := 4096; c_max := 8192 |}.
Definition prefill_witness_stream : bytes := repeat 0 4093 ++ [16; 0; 1] ++ [1; 2; 3].

(* Example on real parameters (restic's default polynomial, avg 4096 / min 4096 / max 8192):
   s1 = 14500 pseudo-random bytes whose chunks are 4334 4208 4265 1693; a1 = its first two chunks,
   t = the rest; a2 = the first chunk (4173 bytes) of another pseudo-random stream.  Both a1 ++ t and
   a2 ++ t cut t as t alone is cut. *)
Fixpoint lcg (n : nat) (x : N) : bytes :=
  match n with
  | O => []
  | S k => (x / 65536) mod 256 :: lcg k ((x * 1103515245 + 12345) mod 2147483648)
  end.
Definition ss_p : cparams := {| c_poly := 0x3DA3358B4DC173; c_avg := 4096; c_min := 4096; c_max := 8192 |}.
Definition ss_s1 : bytes := lcg 14500 4652.
Definition ss_a1 : bytes := firstn 8542 ss_s1.
Definition ss_t : bytes := skipn 8542 ss_s1.
Definition ss_a2 : bytes := firstn 4173 (lcg 4300 25).

(* Evaluating the generator.  With masks and shifts for the divisions a step takes a tenth of the
   reductions.  A step is x -> (x * a + c) mod 2^31, so k steps are one such map as well, with (a, c)
   found by repeated squaring: `lcg_segs` starts each segment of the stream from the state reached
   by such a jump, and lazy evaluation computes the states of those bytes only that are looked at. *)
Definition lstep (f : N * N) (x : N) : N := N.land (x * fst f + snd f) (N.ones 31).
Definition lcg_ac : N * N := (1103515245, 12345).
Fixpoint lcg_bits (n : nat) (x : N) : bytes :=
  match n with
  | O => []
  | S k => N.land (N.shiftr x 16) 255 :: lcg_bits k (lstep lcg_ac x)
  end.
Lemma lcg_bits_eq n : forall x, lcg n x = lcg_bits n x.
Proof.
  induction n as [|n IH]; intros x; cbn [lcg lcg_bits]; [reflexivity|].
  rewrite IH. unfold lstep. change 255 with (N.ones 8). rewrite !N.land_ones, N.shiftr_div_pow2. reflexivity.
Qed.

(* first f, then g *)
Definition lcomp (f g : N * N) : N * N := (N.land (fst f * fst g) (N.ones 31), lstep g (snd f)).
Fixpoint lpow (f : N * N) (k : positive) : N * N :=
  match k with
  | xH => f
  | xO k' => let g := lpow f k' in lcomp g g
  | xI k' => let g := lpow f k' in lcomp f (lcomp g g)
  end.
Fixpoint lcg_segs (ks : list positive) (x : N) : bytes :=
  match ks with
  | [] => []
  | k :: ks' => lcg_bits (Pos.to_nat k) x ++ lcg_segs ks' (lstep (lpow lcg_ac k) x)
  end.

Lemma lcomp_ok f g x : lstep g (lstep f x) = lstep (lcomp f g) x.
Proof.
  destruct f as [a c], g as [a' c']. unfold lcomp, lstep. cbn [fst snd]. rewrite !N.land_ones.
  assert (M : 2 ^ 31 <> 0) by discriminate.
  rewrite <- (N.add_mod_idemp_l (_ * a')), N.mul_mod_idemp_l, N.add_mod_idemp_l by exact M.
  rewrite N.add_mod_idemp_r, <- (N.add_mod_idemp_l (x * _)), N.mul_mod_idemp_r, N.add_mod_idemp_l by exact M.
  f_equal. ring.
Qed.
Lemma iter_add {A} (f : A -> A) a b : forall x, iter (a + b) f x = iter b f (iter a f x).
Proof. induction a as [|a IH]; intros x; cbn [plus iter]; auto. Qed.
Lemma lpow_ok f : forall k x, iter (Pos.to_nat k) (lstep f) x = lstep (lpow f k) x.
Proof.
  induction k as [k IH|k IH|]; intros x; cbn [lpow]; [| |reflexivity].
  - rewrite Pos2Nat.inj_xI. cbn [iter]. replace (2 * Pos.to_nat k)%nat with (Pos.to_nat k + Pos.to_nat k)%nat by lia.
    rewrite iter_add, !IH, !lcomp_ok. reflexivity.
  - rewrite Pos2Nat.inj_xO. replace (2 * Pos.to_nat k)%nat with (Pos.to_nat k + Pos.to_nat k)%nat by lia.
    rewrite iter_add, !IH, lcomp_ok. reflexivity.
Qed.
Lemma lcg_bits_app a n : forall x, lcg_bits (a + n) x = lcg_bits a x ++ lcg_bits n (iter a (lstep lcg_ac) x).
Proof. induction a as [|a IH]; intros x; cbn [plus lcg_bits iter app]; [reflexivity|]. now rewrite IH. Qed.
Lemma lcg_segs_ok ks : forall x, lcg_segs ks x = lcg_bits (fold_right (fun k n => Pos.to_nat k + n)%nat O ks) x.
Proof. induction ks as [|k ks IH]; intros x; cbn [lcg_segs fold_right]; [reflexivity|]. now rewrite IH, <- lpow_ok, <- lcg_bits_app. Qed.

(* The lengths of the first chunk of s1, of what follows it, and of a2 ++ t.  Only the bytes up to
   each cut are looked at, so the chunks of t are never computed; the three are evaluated as one
   term so that the stream and the table are built once.  The segments begin 64 bytes before the
   minimum length of each chunk: at the first byte its window needs. *)
Lemma ss_first_lens_bits :
  let T := fast_tab (c_poly ss_p) WINDOW_BITS in let s := lcg_segs [4032; 4334; 6134]%positive 4652 in
  (N.of_nat (first_len T ss_p s) =? 4334) &&
  ((N.of_nat (first_len T ss_p (ndrop 4334 s)) =? 4208) &&
   (N.of_nat (first_len T ss_p (firstn 4173 (lcg_segs [4032; 268]%positive 25) ++ skipn 8542 s)) =? 4173)) = true.
Proof. vm_compute. reflexivity. Qed.

Lemma ss_first_lens :
  N.of_nat (first_len (tab_of ss_p) ss_p ss_s1) = 4334 /\
  N.of_nat (first_len (tab_of ss_p) ss_p (ndrop 4334 ss_s1)) = 4208 /\
  N.of_nat (first_len (tab_of ss_p) ss_p (ss_a2 ++ ss_t)) = 4173.
Proof.
  pose proof ss_first_lens_bits as H. cbv zeta in H. rewrite !lcg_segs_ok in H.
  change (fold_right _ _ [4032; 4334; 6134]%positive) with 14500%nat in H.
  change (fold_right _ _ [4032; 268]%positive) with 4300%nat in H.
  rewrite <- !lcg_bits_eq, <- (fast_tab_of ss_p eq_refl) in H.
  apply andb_prop in H. destruct H as [H1 H]. apply andb_prop in H. destruct H as [H2 H3].
  apply N.eqb_eq in H1, H2, H3. auto.
Qed.

Example shared_suffix_example :
  exists pre1 pre2 post,
    rabin_accepts (c_avg ss_p) (c_min ss_p) (c_max ss_p) = true /\ ss_a1 <> ss_a2 /\ post <> [] /\
    cuts ss_p (ss_a1 ++ ss_t) = pre1 ++ post /\ concat pre1 = ss_a1 /\
    cuts ss_p (ss_a2 ++ ss_t) = pre2 ++ post /\ concat pre2 = ss_a2 /\
    post = cuts ss_p ss_t.
Proof.
  assert (Ha : rabin_accepts (c_avg ss_p) (c_min ss_p) (c_max ss_p) = true) by (vm_compute; reflexivity).
  pose proof (h_min1 _ _ (params_ok_hyps ss_p (accepted_params_ok_lemma _ _ _ _ Ha))) as Hm.
  destruct ss_first_lens as [E1 [E2 E3]].
  (* lengths need the spine of the streams only: lazy *)
  assert (L1 : nlen ss_a1 = 8542) by (lazy; reflexivity).
  assert (L2 : nlen ss_a2 = 4173) by (lazy; reflexivity).
  assert (Lt : nlen ss_t = 5958) by (lazy; reflexivity).
  exists [ntake 4334 ss_s1; ntake 4208 (ndrop 4334 ss_s1)], [ss_a2], (cuts ss_p ss_t).
  split; [exact Ha|]. split; [intros E; rewrite E, L2 in L1; discriminate L1|].
  split; [rewrite cuts_unfold by (assumption || (intros E; rewrite E in Lt; discriminate Lt)); discriminate|].
  split; [|split; [|split; [|split; [|reflexivity]]]].
  - unfold ss_a1, ss_t. rewrite firstn_skipn.
    rewrite (cuts_at ss_p ss_s1 4334 Hm eq_refl E1), (cuts_at ss_p _ 4208 Hm eq_refl E2), <- ndrop_plus.
    rewrite (ndrop_skipn _ (4334 + 4208)). change (N.to_nat (4334 + 4208)) with 8542%nat. reflexivity.
  - unfold ss_a1. cbn [concat]. rewrite app_nil_r, <- ntake_plus, ntake_firstn.
    change (N.to_nat (4334 + 4208)) with 8542%nat. reflexivity.
  - apply cuts_app_first; [assumption|intros E; rewrite E in L2; discriminate L2|].
    apply Nat2N.inj. rewrite E3. symmetry. exact L2.
  - apply app_nil_r.
Qed.
