(* C06 — what the rolling hash maintains.  A function F of the window contents equals the hash of
   every window the chunker ever has as soon as it agrees with the prefill and survives one slide
   (`rolling_function`).  First instance: F = the remainder modulo P, from two single-step facts
   about the tables (`rolling_partial_lemma`); Proofs7.v proves the two facts of Rabin64's
   tables for degree 8..56 and has the instance that holds for every degree. *)
From Verif.Base Require Import Tactics.
From Verif.C06 Require Import Extracted Model Spec.
Local Open Scope N_scope.

Definition isbyte (x : N) : Prop := x < 256.
Definition push8 (a b : N) : N := N.lor (N.shiftl a 8) b.

Lemma isbyte_repeat b n : isbyte b -> Forall isbyte (repeat b n).
Proof. intros Hb. apply Forall_forall. intros x Hx. apply repeat_spec in Hx. now subst. Qed.

(* appending a byte to a reduced value with the mod table = reducing the number extended by it *)
Definition step_append_ok (T : rtab) (P : N) : Prop :=
  forall a b, isbyte b -> append_byte T (pmod a P) b = pmod (push8 a b) P.
(* xor-ing the out-table entry of the oldest window byte = reducing the window without it *)
Definition step_out_ok (T : rtab) (P : N) : Prop :=
  forall o t, isbyte o -> Forall isbyte t -> length t = (N.to_nat (t_wsize T) - 1)%nat ->
    N.lxor (pmod (bytes_to_N (o :: t)) P) (tbl (t_out T) o) = pmod (bytes_to_N t) P.

Section WindowFunction.
  Variables (T : rtab) (F : bytes -> N).
  Definition full (w : bytes) : Prop := length w = N.to_nat (t_wsize T) /\ Forall isbyte w.
  Hypothesis F_init : forall bs, full (0 :: bs) -> fold_left (append_byte T) bs 0 = F (0 :: bs).
  Hypothesis F_slide : forall o t b, full (o :: t) -> isbyte b ->
    append_byte T (N.lxor (F (o :: t)) (tbl (t_out T) o)) b = F (t ++ [b]).

  Lemma rolling_function bs xs : Forall isbyte bs -> Forall isbyte xs ->
    length bs = (N.to_nat (t_wsize T) - 1)%nat -> 0 < t_wsize T ->
    let w := fold_left (a_slide T) xs (a_init T bs) in a_hash w = F (a_fifo w).
  Proof.
    intros Hb Hx Hl Hw.
    assert (G : forall w, a_hash w = F (a_fifo w) /\ full (a_fifo w) ->
                let w' := fold_left (a_slide T) xs w in a_hash w' = F (a_fifo w') /\ full (a_fifo w')).
    { induction Hx as [|x xs Hx Hxs IH]; intros w [Hh Hf]; cbn [fold_left]; [auto|].
      apply IH. unfold a_slide. destruct (a_fifo w) as [|o t]; [destruct Hf; cbn [length] in *; lia|].
      cbn [a_fifo a_hash]. rewrite Hh. split; [apply F_slide; assumption|].
      destruct Hf as [Hlen Hall]. inversion Hall; subst. split.
      - rewrite app_length. cbn [length] in *. lia.
      - apply Forall_app. auto. }
    apply G. assert (Hf : full (0 :: bs)).
    { split; [cbn [length]; lia|constructor; [unfold isbyte; lia|assumption]]. }
    split; [apply F_init|]; exact Hf.
  Qed.
End WindowFunction.

Lemma bytes_to_N_snoc t b : bytes_to_N (t ++ [b]) = push8 (bytes_to_N t) b.
Proof. unfold bytes_to_N. rewrite fold_left_app. reflexivity. Qed.

Lemma pmod_0 P : pmod 0 P = 0.
Proof. reflexivity. Qed.

Lemma fold_append T P : step_append_ok T P -> forall bs a, Forall isbyte bs ->
  fold_left (append_byte T) bs (pmod a P) = pmod (fold_left push8 bs a) P.
Proof.
  intros H. induction bs as [|b bs IH]; intros a Hb; cbn [fold_left]; [reflexivity|].
  inversion Hb; subst. rewrite H by assumption. apply IH. assumption.
Qed.

Lemma rolling_partial_lemma : forall T P, step_append_ok T P -> step_out_ok T P -> 0 < t_wsize T ->
  forall bs xs, Forall isbyte bs -> Forall isbyte xs -> length bs = (N.to_nat (t_wsize T) - 1)%nat ->
    let w := fold_left (a_slide T) xs (a_init T bs) in a_hash w = fp_direct P (a_fifo w).
Proof.
  intros T P H1 H2 Hw bs xs Hb Hx Hl. apply rolling_function; try assumption; unfold fp_direct.
  - intros bs' [_ Hf]. inversion Hf; subst.
    rewrite <- (pmod_0 P) at 1. apply (fold_append T P H1). assumption.
  - intros o t b [Hlen Hf] Hbb. inversion Hf; subst. cbn [length] in Hlen.
    rewrite H2, H1, bytes_to_N_snoc by (assumption || lia). reflexivity.
Qed.
