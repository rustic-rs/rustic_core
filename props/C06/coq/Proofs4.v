(* C06 — fixed-size chunker; accepted parameters satisfy the hypotheses. *)
From Verif.Base Require Import Tactics.
From Verif.C06 Require Import Extracted Model Spec ListLemmas Proofs Proofs2.
Local Open Scope N_scope.

Lemma fixed_cuts_fuel_greedy size : forall n s,
  fixed_cuts_fuel n size s = greedy (fun _ => N.to_nat size) n s.
Proof.
  induction n as [|n IH]; intros [|x t]; cbn [fixed_cuts_fuel greedy]; [reflexivity..|].
  now rewrite IH, ntake_firstn, ndrop_skipn.
Qed.

Lemma fixed_greedy size s : fixed_cuts size s = greedy (fun _ => N.to_nat size) (length s) s.
Proof. apply fixed_cuts_fuel_greedy. Qed.

Lemma fixed_len_pos size : 0 < size -> forall s : bytes, s <> [] -> (1 <= N.to_nat size)%nat.
Proof. lia. Qed.

Lemma fixed_cuts_unfold size (s : bytes) : 0 < size -> s <> [] ->
  fixed_cuts size s = ntake size s :: fixed_cuts size (ndrop size s).
Proof.
  intros Hs Hne. rewrite ntake_firstn, ndrop_skipn.
  apply (greedy_unfold _ _ (fixed_len_pos size Hs) (fixed_greedy size) s Hne).
Qed.

Lemma ndrop_shorter size (s : bytes) : 0 < size -> s <> [] -> (length (ndrop size s) < length s)%nat.
Proof.
  intros Hs Hne. pose proof (nlen_ndrop size s) as H. unfold nlen in H.
  destruct s; [congruence|]. cbn [length] in *. lia.
Qed.

Lemma fixed_loop_spec size : 0 < size -> forall n st rest sched,
  (f_finished st = true -> rest = []) -> (length rest < n)%nat ->
  fixed_loop n size st rest sched = Some (fixed_cuts size rest).
Proof.
  intros Hs. induction n as [|n IH]; intros st rest sched Hfin Hn; [lia|].
  cbn [fixed_loop]. unfold fixed_next.
  destruct (f_finished st) eqn:Ef.
  { rewrite (Hfin eq_refl). reflexivity. }
  destruct (read_to_end_spec sched size rest) as [sc' Hr]. rewrite Hr.
  destruct (ntake size rest) as [|d0 d] eqn:Ed.
  - apply ntake_nil_inv in Ed. destruct Ed as [Ed|Ed]; [lia|]. subst rest. reflexivity.
  - assert (Hne : rest <> []) by (intros ->; discriminate Ed).
    rewrite <- Ed.
    pose proof (ndrop_shorter size rest Hs Hne) as Hsh.
    rewrite IH, (fixed_cuts_unfold size rest Hs Hne); try lia; [reflexivity|].
    cbn [f_finished]. intros Hf. apply N.ltb_lt in Hf. rewrite nlen_ntake in Hf.
    apply ndrop_all. lia.
Qed.

Lemma fixed_size_partition_lemma : forall size hint s sched, 0 < size ->
  fixed_impl size hint s sched = Some (fixed_cuts size s) /\
  concat (fixed_cuts size s) = s /\ fixed_bounds_ok size (fixed_cuts size s) = true.
Proof.
  intros size hint s sched Hs. pose proof (fixed_len_pos size Hs) as Hlen.
  split; [apply fixed_loop_spec; [assumption|discriminate|lia]|].
  rewrite fixed_greedy. split; [apply greedy_concat; [assumption|lia]|].
  apply (greedy_ind _ Hlen (fun s cs => (s = [] -> cs = []) /\ fixed_bounds_ok size cs = true)); [auto| |lia].
  intros s' cs Hne [Hnil IH]. split; [congruence|].
  rewrite <- ntake_firstn, <- ndrop_skipn in *.
  assert (Hpos : 0 < nlen s') by (destruct s'; [congruence|rewrite nlen_cons; lia]).
  cbn [fixed_bounds_ok]. rewrite IH, andb_true_r, nlen_ntake.
  destruct (N.le_gt_cases (nlen s') size) as [Hshort|Hlong].
  - rewrite Hnil by (apply ndrop_all; assumption).
    apply andb_true_intro. split; [apply N.ltb_lt|apply N.leb_le]; lia.
  - destruct cs; [apply andb_true_intro; split; [apply N.ltb_lt|apply N.leb_le]|apply N.eqb_eq]; lia.
Qed.
Example fixed_size_example : fixed_impl 3 0 [1;2;3;4;5;6;7] [Short 1; Interrupted; Short 2] = Some [[1;2;3];[4;5;6];[7]].
Proof. vm_compute. reflexivity. Qed.

Lemma accepted_params_ok_lemma : forall P avg mn mx,
  rabin_accepts avg mn mx = true ->
  params_ok {| c_poly := P; c_avg := avg; c_min := mn; c_max := mx |} = true.
Proof.
  intros P avg mn mx H. unfold rabin_accepts, rabin_param_errors in H. cbn [existsb] in H.
  apply negb_true_iff in H.
  repeat (apply orb_false_elim in H; destruct H as [?H H]).
  assert (B1 : PREFILL_SLICE <= MIN_CHUNK_MIN_SIZE) by (apply N.leb_le; vm_compute; reflexivity).
  assert (B2 : BUF_SIZE - 1 <= MIN_CHUNK_MIN_SIZE) by (apply N.leb_le; vm_compute; reflexivity).
  assert (B3 : 1 <= MIN_CHUNK_MIN_SIZE) by (apply N.leb_le; vm_compute; reflexivity).
  (* the power-of-two test, whichever way the source writes it
     (`(cs & (cs - 1)) != 0` or `!cs.is_power_of_two()`) *)
  assert (L : (N.land avg (avg - 1) =? 0) = true).
  { destruct (N.land avg (avg - 1) =? 0) eqn:E; [reflexivity|].
    rewrite ?andb_false_r in H0. cbn in H0. discriminate. }
  apply N.ltb_ge in H1, H2, H3.
  unfold params_ok, pow2. cbn [c_avg c_min c_max]. rewrite L.
  repeat (apply andb_true_intro; split); try apply N.leb_le; try apply N.ltb_lt; try reflexivity; lia.
Qed.

Lemma accepted_fixed_size_pos size : fixed_accepts size = true -> 0 < size.
Proof.
  unfold fixed_accepts. intros H. apply N.leb_le in H.
  assert (1 <= FIXED_SIZE_MIN) by (apply N.leb_le; vm_compute; reflexivity). lia.
Qed.

Lemma accepted_rabin_partition_lemma : forall md P avg mn mx hint s sched,
  rabin_accepts avg mn mx = true ->
  let p := {| c_poly := P; c_avg := avg; c_min := mn; c_max := mx |} in
  chunks_impl md p hint s sched = Ok (cuts p s) /\ concat (cuts p s) = s /\ bounds_ok mn mx (cuts p s) = true.
Proof.
  intros md P avg mn mx hint s sched H p.
  pose proof (accepted_params_ok_lemma P avg mn mx H) as Hp. fold p in Hp.
  split; [apply chunks_impl_is_cuts; assumption|]. split.
  - apply cuts_concat, (h_min1 _ _ (params_ok_hyps p Hp)).
  - apply (cuts_bounds_ok p s Hp).
Qed.

Lemma accepted_fixed_partition_lemma : forall size hint s sched, fixed_accepts size = true ->
  fixed_impl size hint s sched = Some (fixed_cuts size s) /\
  concat (fixed_cuts size s) = s /\ fixed_bounds_ok size (fixed_cuts size s) = true.
Proof. intros. apply fixed_size_partition_lemma. apply accepted_fixed_size_pos. assumption. Qed.
