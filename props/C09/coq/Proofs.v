(* C09 — the counter-decrementing loop of the model computes the declarative count-based
   reading (Spec.v), for every option record and every list.

   A counter that started at n and has seen m events of its period stands at
   `cnt_after n m`; that is the loop invariant `inv_cs`.  Under it the reasons `matches`
   reports are `all_reasons` filtered by `reason_holds`, in that order, so the loop `go` is
   `walk L_adj`: the reading of Spec.v returning whole entries.  What is said of the result
   of `apply_sorted` is said of the walk (`apply_sorted_walk`). *)
From Verif.Base Require Import Tactics Lists.
From Verif.C09 Require Import Calendar ModelBase Extracted Model Spec Lists.
Local Open Scope Z_scope.

Lemma period_eqb_refl p : period_eqb p p = true.
Proof. destruct p; reflexivity. Qed.
Lemma period_eqb_eq p q : period_eqb p q = true <-> p = q.
Proof. split; [destruct p, q; (reflexivity || discriminate) | intros ->; apply period_eqb_refl]. Qed.
Lemma period_eqb_neq p q : period_eqb p q = false <-> p <> q.
Proof. rewrite <- period_eqb_eq. symmetry. apply not_true_iff_false. Qed.

Lemma all_periods_nodup : NoDup all_periods.
Proof. repeat (constructor; [simpl; intuition discriminate|]). constructor. Qed.
Lemma all_periods_complete q : existsb (period_eqb q) all_periods = true.
Proof. destruct q; reflexivity. Qed.
Lemma all_periods_in p : In p all_periods.
Proof. destruct p; cbn; auto 10. Qed.

Lemma all_reasons_in L k latest seen prev sn rest x :
  reason_holds L k latest seen prev sn rest x = true -> In x all_reasons.
Proof.
  destruct x as [| |p|p| |]; try discriminate; intros _; unfold all_reasons; cbn [app In]; auto;
    do 2 right; apply in_flat_map; exists p; (split; [apply all_periods_in | cbn; auto]).
Qed.

(* what one event does to a counter; 0 is exhausted, a negative count is unlimited *)
Definition dec (c : option Z) : option Z :=
  match c with Some n => if 0 <? n then Some (n - 1) else Some n | None => None end.

Definition cnt_after (n0 : option Z) (m : Z) : option Z :=
  match n0 with None => None | Some n => if n <=? 0 then Some n else Some (Z.max 0 (n - m)) end.

Lemma dec_cnt_after n0 m : dec (cnt_after n0 m) = cnt_after n0 (m + 1).
Proof.
  destruct n0 as [n|]; simpl; [|reflexivity].
  destruct (n <=? 0) eqn:E; simpl.
  - destruct (0 <? n) eqn:E2; [lia | reflexivity].
  - destruct (0 <? Z.max 0 (n - m)) eqn:E2; f_equal; lia.
Qed.

Definition live (c : option Z) : bool := match c with Some n => negb (n =? 0) | None => false end.

Lemma live_cnt_after n0 m : 0 <= m ->
  live (cnt_after n0 m) = match n0 with Some n => (n <? 0) || (m <? n) | None => false end.
Proof.
  intros Hm. destruct n0 as [n|]; simpl; [|reflexivity].
  destruct (n <=? 0) eqn:E; simpl; lia.
Qed.

Definition within_b (k : keep) (w : period) (sn : snap) (latest : Z) : bool :=
  match k_within k w with
  | Some sp => latest <? add_span (s_inst sn) (s_offs sn) sp
  | None => false end.

Section Rows.
  Variables (k : keep) (sn : snap) (last : option snap) (hn : bool) (latest : Z).

  Lemma row_step_fst r cs :
    fst (row_step k r cs sn last hn latest) =
    if cond (rd_eq r) sn last hn
    then (if live (cs (rd_p r)) then [RCount (rd_p r)] else []) ++
         (if within_b k (rd_w r) sn latest then [RWithin (rd_w r)] else [])
    else [].
  Proof.
    unfold row_step, within_b, live.
    destruct (cond (rd_eq r) sn last hn); [|reflexivity].
    destruct (cs (rd_p r)) as [n|]; [destruct (n =? 0)|]; destruct (k_within k (rd_w r)); reflexivity.
  Qed.

  Lemma row_step_snd r cs q :
    snd (row_step k r cs sn last hn latest) q =
    if cond (rd_eq r) sn last hn && period_eqb q (rd_p r) then dec (cs q) else cs q.
  Proof.
    unfold row_step. destruct (cond (rd_eq r) sn last hn); [|reflexivity]. cbn [andb].
    destruct (period_eqb q (rd_p r)) eqn:E.
    - apply period_eqb_eq in E. subst q.
      destruct (cs (rd_p r)) as [n|] eqn:C; [|exact C].
      unfold dec, upd. destruct (0 <? n) eqn:E1, (n =? 0) eqn:E0; cbn [snd];
        rewrite ?period_eqb_refl, ?C; reflexivity || lia.
    - destruct (cs (rd_p r)) as [n|]; [destruct (n =? 0), (0 <? n)|];
        cbn [snd]; unfold upd; rewrite ?E; reflexivity.
  Qed.

  Lemma rows_step_cons r tbl cs :
    rows_step k (r :: tbl) cs sn last hn latest =
    (fst (row_step k r cs sn last hn latest)
       ++ fst (rows_step k tbl (snd (row_step k r cs sn last hn latest)) sn last hn latest),
     snd (rows_step k tbl (snd (row_step k r cs sn last hn latest)) sn last hn latest)).
  Proof.
    cbn [rows_step]. destruct (row_step k r cs sn last hn latest) as [rs cs1]. cbn [fst snd].
    destruct (rows_step k tbl cs1 sn last hn latest). reflexivity.
  Qed.
End Rows.

Lemma rows_step_snd_notin k tbl : forall cs sn last hn latest q,
  ~ In q (map rd_p tbl) -> snd (rows_step k tbl cs sn last hn latest) q = cs q.
Proof.
  induction tbl as [|r tbl IH]; intros cs sn last hn latest q Hq; [reflexivity|].
  rewrite rows_step_cons. cbn [snd]. rewrite IH by (intro H; apply Hq; right; exact H). rewrite row_step_snd.
  destruct (period_eqb q (rd_p r)) eqn:E; [|rewrite andb_false_r; reflexivity].
  apply period_eqb_eq in E. contradiction Hq. left. symmetry. exact E.
Qed.

(* In a table no two rows of which share a counter, every row sees the counters as they were
   on entry: its own counter has not been touched, and it touches no other. *)
Lemma rows_step_fst k tbl : forall cs sn last hn latest,
  NoDup (map rd_p tbl) ->
  fst (rows_step k tbl cs sn last hn latest) =
  flat_map (fun r => fst (row_step k r cs sn last hn latest)) tbl.
Proof.
  induction tbl as [|r tbl IH]; intros cs sn last hn latest ND; [reflexivity|].
  inversion ND as [|? ? Hr ND']; subst. rewrite rows_step_cons. cbn [fst flat_map]. f_equal.
  rewrite IH by assumption. apply flat_map_ext_In. intros r' Hin. rewrite !row_step_fst, row_step_snd.
  destruct (period_eqb (rd_p r') (rd_p r)) eqn:E; [|rewrite andb_false_r; reflexivity].
  apply period_eqb_eq in E. contradiction Hr. rewrite <- E. apply in_map. assumption.
Qed.

Lemma rows_step_snd_in k tbl : forall cs sn last hn latest r,
  NoDup (map rd_p tbl) -> In r tbl ->
  snd (rows_step k tbl cs sn last hn latest) (rd_p r) = snd (row_step k r cs sn last hn latest) (rd_p r).
Proof.
  induction tbl as [|r0 tbl IH]; intros cs sn last hn latest r ND Hin; [inversion Hin|].
  inversion ND as [|? ? Hr ND']; subst. rewrite rows_step_cons. cbn [snd]. destruct Hin as [->|Hin].
  - apply rows_step_snd_notin, Hr.
  - rewrite (IH _ _ _ _ _ r ND' Hin), !(row_step_snd _ _ _ _ _ r), (row_step_snd _ _ _ _ _ r0).
    destruct (period_eqb (rd_p r) (rd_p r0)) eqn:E; [|rewrite andb_false_r; reflexivity].
    apply period_eqb_eq in E. contradiction Hr. rewrite <- E. apply in_map, Hin.
Qed.

Definition row_of (e : period -> civil -> civil -> bool) (p : period) : rowdef := mkrow (e p) p p.

(* The table of the source has one row per period, in the documented order, the row of p
   with the predicate the specification looks up (`eq_of`), decrementing counter p and testing
   the keep-within option of p.  Extracted.v is regenerated on every run, so this is
   re-checked against the source each time. *)
Lemma row_table_eq : row_table = map (row_of eq_of) all_periods.
Proof. reflexivity. Qed.

Lemma matches_eq k cs sn last hn latest :
  matches k cs sn last hn latest =
  ((if existsb (fun p => prefix_of p (s_id sn)) (k_ids k) then [RId] else [])
     ++ (if negb (is_nil (k_tags k)) && tags_match (s_tags sn) (k_tags k) then [RTags] else [])
     ++ fst (rows_step k row_table cs sn last hn latest),
   snd (rows_step k row_table cs sn last hn latest)).
Proof. unfold matches. destruct (rows_step k row_table cs sn last hn latest). reflexivity. Qed.

Definition inv_cs (k : keep) (cs : period -> option Z) (seen : period -> Z) : Prop :=
  forall p, 0 <= seen p /\ cs p = cnt_after (k_count k p) (seen p).

Lemma inv_cs_ext k cs seen seen' : (forall p, seen p = seen' p) -> inv_cs k cs seen -> inv_cs k cs seen'.
Proof. intros E I p. rewrite <- E. apply I. Qed.

Lemma matches_fst k cs seen sn prev rest latest :
  inv_cs k cs seen ->
  fst (matches k cs sn (hd_error prev) (negb (is_nil rest)) latest) =
  filter (reason_holds L_adj k latest seen prev sn rest) all_reasons.
Proof.
  intro I. rewrite matches_eq. cbn [fst].
  (* the counters of the rows of row_table are all_periods, by computation *)
  rewrite rows_step_fst by exact all_periods_nodup.
  rewrite row_table_eq, flat_map_concat_map, map_map, <- flat_map_concat_map.
  unfold all_reasons. rewrite filter_app, filter_flat_map.
  rewrite (flat_map_ext _ (fun p => filter (reason_holds L_adj k latest seen prev sn rest) [RCount p; RWithin p])).
  - cbn [filter reason_holds]. destruct (existsb _ (k_ids k)), (negb _ && tags_match _ _); reflexivity.
  - intro p. rewrite row_step_fst. cbn [filter reason_holds row_of rd_eq rd_p rd_w]. unfold L_adj.
    destruct (cond (eq_of p) sn (hd_error prev) (negb (is_nil rest))); [cbn [andb]|reflexivity].
    destruct (I p) as [Hs ->]. rewrite live_cnt_after by assumption. fold (within_b k p sn latest).
    destruct (match k_count k p with Some n => _ | None => false end), (within_b k p sn latest); reflexivity.
Qed.

Lemma matches_snd k cs seen sn prev rest latest now :
  inv_cs k cs seen -> stage_of k now sn rest = SRules ->
  inv_cs k (snd (matches k cs sn (hd_error prev) (negb (is_nil rest)) latest))
         (bump L_adj k now seen prev sn rest).
Proof.
  intros I St p. rewrite matches_eq. cbn [snd].
  assert (R : In (row_of eq_of p) row_table) by (rewrite row_table_eq; apply in_map, all_periods_in).
  apply (rows_step_snd_in k row_table cs sn (hd_error prev) (negb (is_nil rest)) latest _ all_periods_nodup) in R.
  cbn [row_of rd_p] in R. rewrite R, row_step_snd. cbn [row_of rd_p rd_eq]. rewrite period_eqb_refl, andb_true_r.
  unfold bump, L_adj. rewrite St. cbn [is_rules andb]. destruct (I p) as [Hs Hc].
  destruct (cond (eq_of p) sn (hd_error prev) (negb (is_nil rest))); [|auto].
  split; [lia|]. rewrite Hc. apply dec_cnt_after.
Qed.

Definition flag (e : snap * bool * list reason) : bool := snd (fst e).
Definition reasons (e : snap * bool * list reason) : list reason := snd e.
Definition snap_of (e : snap * bool * list reason) : snap := fst (fst e).

Definition entry (L : leader) k now latest seen prev sn rest : snap * bool * list reason :=
  (sn, spec_keep L k now latest seen prev sn rest,
   match stage_of k now sn rest with
   | SKeep | SDelete => [RSnapshot]
   | SUnchanged => [RUnchanged]
   | SRules => filter (reason_holds L k latest seen prev sn rest) all_reasons
   end).

Fixpoint walk (L : leader) k now latest seen prev l : list (snap * bool * list reason) :=
  match l with
  | [] => []
  | sn :: rest => entry L k now latest seen prev sn rest
                  :: walk L k now latest (bump L k now seen prev sn rest) (sn :: prev) rest
  end.

Lemma walk_snaps L k now latest : forall l seen prev, map snap_of (walk L k now latest seen prev l) = l.
Proof. induction l as [|sn rest IH]; intros; cbn [walk map]; [|rewrite IH]; reflexivity. Qed.

Lemma walk_flags L k now latest : forall l seen prev,
  map flag (walk L k now latest seen prev l) = spec_go L k now latest seen prev l.
Proof. induction l as [|sn rest IH]; intros; cbn [walk map spec_go]; [|rewrite IH]; reflexivity. Qed.

Lemma go_snaps k now latest : forall l cs last, map snap_of (go k now latest cs last l) = l.
Proof.
  induction l as [|sn rest IH]; intros cs last; [reflexivity|]. cbn [go].
  destruct (stage_of k now sn rest); try (cbn [map snap_of fst]; rewrite IH; reflexivity).
  destruct (matches k cs sn last (negb (is_nil rest)) latest) as [rs cs']. cbn [map snap_of fst]. rewrite IH. reflexivity.
Qed.

Lemma go_walk k now latest : forall l cs seen prev,
  inv_cs k cs seen ->
  go k now latest cs (hd_error prev) l = walk L_adj k now latest seen prev l.
Proof.
  induction l as [|sn rest IH]; intros cs seen prev I; [reflexivity|].
  cbn [go walk]. unfold entry, spec_keep.
  (* outside the rule stage neither the counters nor the events change *)
  assert (B : stage_of k now sn rest <> SRules -> inv_cs k cs (bump L_adj k now seen prev sn rest)).
  { intros N p. unfold bump. destruct (stage_of k now sn rest); try apply I. contradiction. }
  pose proof (matches_fst k cs seen sn prev rest latest I) as MF.
  pose proof (matches_snd k cs seen sn prev rest latest now I) as MS.
  destruct (stage_of k now sn rest).
  1-3: f_equal; apply (IH cs _ (sn :: prev)), B; discriminate.
  destruct (matches k cs sn (hd_error prev) (negb (is_nil rest)) latest) as [rs cs'].
  cbn [fst snd] in *. subst rs. unfold rules_keep. rewrite filter_nil_existsb.
  f_equal. apply (IH cs' _ (sn :: prev)), MS. reflexivity.
Qed.

Lemma inv_init k : inv_cs k (k_count k) (fun _ => 0).
Proof.
  intro p. split; [lia|]. unfold cnt_after. destruct (k_count k p) as [n|]; [|reflexivity].
  destruct (n <=? 0) eqn:E; [reflexivity|]. f_equal. lia.
Qed.

(* `latest_time = snapshots[0].time`; on the empty list the value is never looked at *)
Definition latest_of (l : list snap) : Z := match l with s0 :: _ => s_inst s0 | [] => 0 end.

Definition entries (k : keep) (now : Z) (l : list snap) : list (snap * bool * list reason) :=
  walk L_adj k now (latest_of l) (fun _ => 0) [] l.

Theorem apply_sorted_walk k now l :
  apply_sorted k now l = if is_valid k then Some (entries k now l) else None.
Proof.
  unfold apply_sorted, entries. destruct (is_valid k); [|reflexivity]. destruct l as [|s0 l']; [reflexivity|].
  cbn [negb latest_of]. f_equal. exact (go_walk k now (s_inst s0) (s0 :: l') _ _ [] (inv_init k)).
Qed.

Lemma adj_apply_walk k now l : adj_apply k now l = map flag (entries k now l).
Proof. unfold entries. rewrite walk_flags. destruct l; reflexivity. Qed.

Theorem apply_meets_spec_lemma k now l res :
  apply_sorted k now l = Some res ->
  map snap_of res = l /\ map flag res = adj_apply k now l.
Proof.
  rewrite apply_sorted_walk, adj_apply_walk. destruct (is_valid k); [|discriminate].
  intro H. injection H as <-. split; [apply walk_snaps | reflexivity].
Qed.
