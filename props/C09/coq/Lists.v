(* C09 — facts about lists that do not depend on the retention model. *)
From Verif.Base Require Import Tactics.
From Verif.C09 Require Import ModelBase Groups.

Lemma filter_nil_existsb {A} (f : A -> bool) l : negb (is_nil (filter f l)) = existsb f l.
Proof. induction l as [|a l IH]; [reflexivity|]. cbn [filter existsb]. destruct (f a); [reflexivity | exact IH]. Qed.

Lemma Permutation_split {A} (f : A -> bool) l :
  Permutation (filter f l ++ filter (fun x => negb (f x)) l) l.
Proof.
  induction l as [|a l IH]; simpl; [constructor|].
  destruct (f a); simpl; [apply perm_skip; assumption|].
  apply Permutation_sym, Permutation_cons_app, Permutation_sym. assumption.
Qed.

Lemma Permutation_map_inj {A B} (f : A -> B) : forall l1 l2,
  Permutation l1 l2 -> map f l1 = map f l2 -> NoDup (map f l1) -> l1 = l2.
Proof.
  induction l1 as [|a l1 IH]; intros l2 P E ND.
  - apply Permutation_nil in P. subst. reflexivity.
  - destruct l2 as [|b l2]; [discriminate|]. simpl in E. injection E as E1 E2.
    inversion ND as [|? ? Hn ND']; subst.
    assert (a = b).
    { assert (H1 : In a (b :: l2)) by (eapply Permutation_in; [exact P | left; reflexivity]).
      destruct H1 as [H1|H1]; [auto|]. exfalso. apply Hn. rewrite E2. apply in_map. assumption. }
    subst b. f_equal. apply IH; [eapply Permutation_cons_inv; exact P | assumption | assumption].
Qed.

Lemma filter_map_in {A B} (f : A -> option B) l y :
  In y (filter_map f l) <-> exists x, In x l /\ f x = Some y.
Proof.
  induction l as [|a l IH]; simpl.
  - split; [tauto | intros [x [[] _]]].
  - destruct (f a) as [b|] eqn:E; simpl; rewrite IH; split.
    + intros [<-|[x [H1 H2]]]; [exists a; auto | exists x; auto].
    + intros [x [[<-|H1] H2]]; [left; congruence | right; exists x; auto].
    + intros [x [H1 H2]]. exists x. auto.
    + intros [x [[<-|H1] H2]]; [congruence | exists x; auto].
Qed.

Lemma traverse_some {A B} (f : A -> option B) l : forall r,
  traverse f l = Some r -> Forall2 (fun x y => f x = Some y) l r.
Proof.
  induction l as [|a l IH]; simpl; intros r H.
  - injection H as <-. constructor.
  - destruct (f a) as [b|] eqn:E; [|discriminate].
    destruct (traverse f l) as [r'|]; [|discriminate]. injection H as <-. constructor; auto.
Qed.

Lemma traverse_none {A B} (f : A -> option B) l :
  traverse f l = None <-> exists x, In x l /\ f x = None.
Proof.
  induction l as [|a l IH]; simpl.
  - split; [discriminate | intros [x [[] _]]].
  - destruct (f a) as [b|] eqn:E.
    + destruct (traverse f l) as [r'|].
      * split; [discriminate|]. intros [x [[<-|H1] H2]]; [congruence|].
        assert (HH : exists x, In x l /\ f x = None) by (exists x; auto). apply IH in HH. discriminate.
      * split; [|reflexivity]. intros _. destruct (proj1 IH eq_refl) as [x [H1 H2]]. exists x. auto.
    + split; [|reflexivity]. intros _. exists a. auto.
Qed.

Lemma traverse_ext {A B} (f g : A -> option B) l :
  (forall x, In x l -> f x = g x) -> traverse f l = traverse g l.
Proof.
  induction l as [|a l IH]; intro H; simpl; [reflexivity|].
  rewrite (H a (or_introl eq_refl)), IH by (intros; apply H; right; assumption). reflexivity.
Qed.

Lemma traverse_map {A B C} (h : A -> B) (f : B -> option C) l :
  traverse f (map h l) = traverse (fun x => f (h x)) l.
Proof. induction l as [|a l IH]; simpl; [reflexivity|]. rewrite IH. reflexivity. Qed.

Lemma traverse_tag {A B} (h : A -> option B) l r :
  traverse (fun g => match h g with Some y => Some (g, y) | None => None end) l = Some r ->
  map fst r = l /\ forall g y, In (g, y) r <-> In g l /\ h g = Some y.
Proof.
  intro H. apply traverse_some in H.
  induction H as [|g [g' y'] l r H _ [IH1 IH2]]; [split; [reflexivity | intros g y; split; [intros [] | intros [[] _]]]|].
  destruct (h g) as [y0|] eqn:E; [|discriminate]. injection H as <- <-.
  split; [cbn [map fst]; rewrite IH1; reflexivity|]. intros g1 y. cbn [In]. rewrite IH2. split.
  - intros [X|X]; [injection X as <- <-; auto | tauto].
  - intros [[<-|X] Y]; [left; congruence | right; auto].
Qed.
