(* C09 — chunk_by on a key-sorted list; the forget pipeline (from_items, apply with its
   own sort, from_grouped_snapshots_with_retention, into_forget_ids, from_snapshots) for
   every pair of sort functions that meet their specification.

   The pipeline is brought into one normal form, `forget_groups_canonical`: per key of
   `group_keys` (ascending), `apply_sorted` on that key's `arrangement`.  Since `apply_sorted`
   fails or not by the options alone, the form closes to `forget_groups_closed`: every key
   with its `entries`, or failure at once.  Everything said about the command is read off
   these two. *)
From Verif.Base Require Import Tactics Lists Sorting.
Require Import Coq.Sorting.Permutation.
From Verif.C09 Require Import Calendar ModelBase Extracted Model Lists Proofs Groups Proofs3.
Local Open Scope Z_scope.

Definition group_ok (c : crit) (g : group) : Prop :=
  snd g <> [] /\ Forall (fun s => gkey c s = fst g) (snd g).

Lemma group_ok_cons c s items : Forall (fun x => gkey c x = gkey c s) items -> group_ok c (gkey c s, s :: items).
Proof. split; [discriminate | constructor; auto]. Qed.

Lemma chunk_by_concat c l : concat (map snd (chunk_by c l)) = l.
Proof.
  induction l as [|s t IH]; [reflexivity|].
  cbn [chunk_by]. destruct (chunk_by c t) as [|[g items] gs]; [simpl in *; subst; reflexivity|].
  destruct (gkey_eqb (gkey c s) g); simpl in *; rewrite IH; reflexivity.
Qed.

Lemma chunk_by_ok c l : Forall (group_ok c) (chunk_by c l).
Proof.
  induction l as [|s t IH]; [constructor|].
  cbn [chunk_by]. destruct (chunk_by c t) as [|[g items] gs].
  - constructor; [apply group_ok_cons|]; constructor.
  - inversion IH as [|? ? [_ H2] H3]; subst. cbn [fst snd] in H2.
    destruct (gkey_eqb (gkey c s) g) eqn:E.
    + apply gkey_eqb_eq in E. subst g. constructor; [apply group_ok_cons|]; assumption.
    + constructor; [apply group_ok_cons; constructor | assumption].
Qed.

Lemma chunk_by_keys c l g : In g (map fst (chunk_by c l)) <-> exists s, In s l /\ gkey c s = g.
Proof.
  induction l as [|s t IH]; [split; [intros [] | intros [s [[] _]]]|].
  (* a snapshot opens a group under its key or joins the group that already has it *)
  assert (E : In g (map fst (chunk_by c (s :: t))) <-> gkey c s = g \/ In g (map fst (chunk_by c t))).
  { cbn [chunk_by]. destruct (chunk_by c t) as [|[g0 items] gs]; [reflexivity|].
    destruct (gkey_eqb (gkey c s) g0) eqn:Q; [|reflexivity].
    apply gkey_eqb_eq in Q. cbn [map fst In]. rewrite Q. tauto. }
  rewrite E, IH. split.
  - intros [H|[x [H1 H2]]]; [exists s | exists x]; cbn [In]; auto.
  - intros [x [[<-|H1] H2]]; [left | right; exists x]; auto.
Qed.

Lemma chunk_by_head c s t : exists items gs, chunk_by c (s :: t) = (gkey c s, s :: items) :: gs.
Proof.
  cbn [chunk_by]. destruct (chunk_by c t) as [|[g items] gs]; [exists [], []; reflexivity|].
  destruct (gkey_eqb (gkey c s) g) eqn:E.
  - apply gkey_eqb_eq in E. subst g. exists items, gs. reflexivity.
  - exists [], ((g, items) :: gs). reflexivity.
Qed.

Lemma chunk_by_ascending c l : key_sorted c l = true -> keys_ascending (chunk_by c l) = true.
Proof.
  induction l as [|s t IH]; intro H; [reflexivity|].
  cbn [chunk_by]. destruct t as [|s2 t']; [reflexivity|].
  unfold key_sorted in H. cbn [sorted_by] in H. apply andb_true_iff in H. destruct H as [H1 H2].
  specialize (IH H2).
  destruct (chunk_by_head c s2 t') as [items [gs E]]. rewrite E in *.
  destruct (gkey_eqb (gkey c s) (gkey c s2)) eqn:Q.
  - destruct gs; exact IH.
  - cbn [keys_ascending fst]. unfold key_order in H1.
    destruct (gkey_cmp (gkey c s) (gkey c s2)) eqn:C; try discriminate; [|assumption].
    apply (ok_eq _ ord_gkey) in C. apply gkey_eqb_false in Q. contradiction.
Qed.

Lemma keys_ascending_nodup gs : keys_ascending gs = true -> NoDup (map fst gs).
Proof. rewrite keys_ascending_chain. apply (chain_nodup _ key_ltb_trans key_ltb_irrefl). Qed.

Lemma filter_group c g g0 items :
  group_ok c (g0, items) -> filter (keyis c g) items = if gkey_eqb g0 g then items else [].
Proof.
  intros [_ F]. apply filter_const. intros s Hs. unfold keyis.
  rewrite (proj1 (Forall_forall _ _) F s Hs). reflexivity.
Qed.

Lemma filter_other_groups c g gs :
  Forall (group_ok c) gs -> ~ In g (map fst gs) -> filter (keyis c g) (concat (map snd gs)) = [].
Proof.
  induction 1 as [|[g0 it0] gs H1 _ IH]; intro Hn; [reflexivity|].
  cbn [map concat fst snd In] in *. rewrite filter_app, (filter_group c g g0 it0 H1), IH by tauto.
  rewrite (proj2 (gkey_eqb_false g0 g)) by tauto. reflexivity.
Qed.

(* groups that hold their own keys only, under distinct keys, are the key classes of their
   concatenation *)
Lemma groups_as_map c gs :
  Forall (group_ok c) gs -> NoDup (map fst gs) ->
  gs = map (fun g => (g, filter (keyis c g) (concat (map snd gs)))) (map fst gs).
Proof.
  induction 1 as [|[g0 it0] gs H1 H2 IH]; intro ND; [reflexivity|].
  cbn [map concat fst snd] in *. inversion ND as [|? ? Hn ND']; subst. f_equal.
  - rewrite filter_app, (filter_group c g0 g0 it0 H1), gkey_eqb_refl, (filter_other_groups c g0 gs H2 Hn).
    rewrite app_nil_r. reflexivity.
  - etransitivity; [exact (IH ND')|]. apply map_ext_in. intros g Hg.
    rewrite filter_app, (filter_group c g g0 it0 H1), (proj2 (gkey_eqb_false g0 g)); [reflexivity|].
    intros ->. exact (Hn Hg).
Qed.

Lemma chunk_by_as_map c l :
  key_sorted c l = true ->
  chunk_by c l = map (fun g => (g, filter (keyis c g) l)) (map fst (chunk_by c l)).
Proof.
  intro KS. pose proof (groups_as_map c _ (chunk_by_ok c l) (keys_ascending_nodup _ (chunk_by_ascending c l KS))) as H.
  rewrite chunk_by_concat in H. exact H.
Qed.

Lemma chunk_by_perm_keys c l l' g :
  Permutation l l' -> In g (map fst (chunk_by c l')) <-> exists s, In s l /\ gkey c s = g.
Proof.
  intro P. rewrite chunk_by_keys.
  split; intros [s [Hs E]]; exists s; (split; [|exact E]); [apply Permutation_sym in P|]; exact (Permutation_in s P Hs).
Qed.

Lemma group_keys_in c l g : In g (group_keys c l) <-> exists s, In s l /\ gkey c s = g.
Proof. apply chunk_by_perm_keys, ksort_stable_ok. Qed.

Lemma retention_closed k now (arr : gkeyT -> list snap) gs :
  traverse (fun g => match apply_sorted k now (arr g) with Some r => Some (g, r) | None => None end) gs =
  if is_valid k then Some (map (fun g => (g, entries k now (arr g))) gs)
  else if is_nil gs then Some [] else None.
Proof.
  induction gs as [|g gs IH]; cbn [traverse map is_nil]; [destruct (is_valid k); reflexivity|].
  rewrite IH, apply_sorted_walk. destruct (is_valid k); reflexivity.
Qed.

Lemma apply_sorted_snaps k now l res : apply_sorted k now l = Some res -> map snap_of res = l.
Proof. intro H. apply (apply_meets_spec_lemma k now l res H). Qed.

Lemma forget_pick_spec kp id : forget_pick kp id = if kp then None else Some id.
Proof. destruct kp; reflexivity. Qed.

Definition removed_of {R} (res : list (snap * bool * R)) : list snap :=
  map (fun e => fst (fst e)) (filter (fun e => negb (snd (fst e))) res).
Definition kept_of {R} (res : list (snap * bool * R)) : list snap :=
  map (fun e => fst (fst e)) (filter (fun e => negb (negb (snd (fst e)))) res).

Lemma into_forget_ids_removed {R} (fgs : list (gkeyT * list (snap * bool * R))) :
  into_forget_ids fgs = map s_id (flat_map (fun fg => removed_of (snd fg)) fgs).
Proof.
  unfold into_forget_ids. induction fgs as [|fg fgs IH]; [reflexivity|].
  cbn [flat_map]. rewrite map_app, IH. f_equal.
  unfold removed_of. induction (snd fg) as [|[[s kp] r] res IHr]; [reflexivity|].
  simpl. rewrite forget_pick_spec. destruct kp; simpl; rewrite IHr; reflexivity.
Qed.

Lemma into_forget_ids_in {R} (fgs : list (gkeyT * list (snap * bool * R))) i :
  In i (into_forget_ids fgs) <-> exists g res s r, In (g, res) fgs /\ In (s, false, r) res /\ s_id s = i.
Proof.
  unfold into_forget_ids. rewrite in_flat_map. split.
  - intros [[g res] [H1 H2]]. simpl in H2. apply filter_map_in in H2. destruct H2 as [[[s kp] r] [H2 H3]].
    simpl in H3. rewrite forget_pick_spec in H3. destruct kp; [discriminate|]. injection H3 as <-.
    exists g, res, s, r. auto.
  - intros (g & res & s & r & H1 & H2 & <-). exists (g, res). split; [assumption|]. simpl.
    apply filter_map_in. exists (s, false, r). split; [assumption|]. simpl. rewrite forget_pick_spec. reflexivity.
Qed.

Lemma removed_kept_perm {R} (res : list (snap * bool * R)) :
  Permutation (removed_of res ++ kept_of res) (map (fun e => fst (fst e)) res).
Proof.
  unfold removed_of, kept_of. rewrite <- map_app. apply Permutation_map.
  apply (Permutation_split (fun e : snap * bool * R => negb (snd (fst e)))).
Qed.

Section PipelineProofs.
  Variable ksort : crit -> list snap -> list snap.
  Variable tsort : list snap -> list snap.
  Hypothesis ksort_ok : forall c l, Permutation l (ksort c l) /\ key_sorted c (ksort c l) = true.
  Hypothesis tsort_ok : forall l, Permutation l (tsort l) /\ sorted_desc (tsort l) = true.

  (* the keys do not depend on the sort: ascending lists with the same elements *)
  Lemma from_items_keys c l : map fst (from_items ksort c l) = group_keys c l.
  Proof.
    unfold group_keys, from_items.
    apply (chain_ext key_ltb key_ltb_trans key_ltb_irrefl); rewrite <- ?keys_ascending_chain.
    - apply chunk_by_ascending, ksort_ok.
    - apply chunk_by_ascending, ksort_stable_ok.
    - intro g. etransitivity; [apply chunk_by_perm_keys, ksort_ok | symmetry; apply chunk_by_perm_keys, ksort_stable_ok].
  Qed.

  Lemma from_items_eq c l :
    from_items ksort c l = map (fun g => (g, filter (keyis c g) (ksort c l))) (group_keys c l).
  Proof. rewrite <- from_items_keys. apply chunk_by_as_map, ksort_ok. Qed.

  Lemma from_items_covers c l s :
    In s l -> exists items, In (gkey c s, items) (from_items ksort c l) /\ In s items.
  Proof.
    intro Hs. rewrite from_items_eq. exists (filter (keyis c (gkey c s)) (ksort c l)). split.
    - apply in_map_iff. exists (gkey c s). split; [reflexivity|]. apply group_keys_in. eauto.
    - apply filter_In. split; [apply (Permutation_in s (proj1 (ksort_ok c l)) Hs) | apply gkey_eqb_refl].
  Qed.

  Lemma from_items_groups c l g items :
    In (g, items) (from_items ksort c l) ->
    items <> [] /\ items = filter (keyis c g) (ksort c l) /\ Permutation items (own_group c l g).
  Proof.
    intro Hin. pose proof Hin as Hg. rewrite from_items_eq in Hin. apply in_map_iff in Hin.
    destruct Hin as [g' [E _]]. injection E as <- <-.
    split; [|split; [reflexivity | apply Permutation_sym, Permutation_filter, ksort_ok]].
    pose proof (chunk_by_ok c (ksort c l)) as OK. rewrite Forall_forall in OK. apply (OK _ Hg).
  Qed.

  (* the order in which the loop of `apply` sees the snapshots of group g *)
  Definition arrangement (c : crit) (l : list snap) (g : gkeyT) : list snap :=
    tsort (filter (keyis c g) (ksort c l)).

  Lemma arrangement_spec c l g :
    Permutation (own_group c l g) (arrangement c l g) /\ sorted_desc (arrangement c l g) = true.
  Proof.
    unfold arrangement, own_group. destruct (tsort_ok (filter (keyis c g) (ksort c l))) as [P S].
    split; [|assumption]. eapply perm_trans; [|exact P]. apply Permutation_filter. apply ksort_ok.
  Qed.

  Lemma arrangement_in c l g s : In s (arrangement c l g) <-> In s l /\ gkey c s = g.
  Proof.
    destruct (arrangement_spec c l g) as [P _]. unfold own_group in P. rewrite <- keyis_iff, <- filter_In.
    split; apply Permutation_in; [apply Permutation_sym|]; exact P.
  Qed.

  Lemma arrangement_distinct c l g :
    NoDup (map s_inst (own_group c l g)) -> arrangement c l g = tsort_stable (own_group c l g).
  Proof.
    intro ND. destruct (arrangement_spec c l g) as [P S]. destruct (tsort_stable_ok (own_group c l g)) as [P2 S2].
    symmetry. apply sorted_desc_unique; [|assumption|assumption|].
    - eapply perm_trans; [apply Permutation_sym; exact P2 | exact P].
    - eapply Permutation_NoDup; [|exact ND]. apply Permutation_map. assumption.
  Qed.

  Lemma forget_groups_canonical c k now l :
    forget_groups ksort tsort c k now l =
    traverse (fun g => match apply_sorted k now (arrangement c l g) with
                       | Some r => Some (g, r) | None => None end) (group_keys c l).
  Proof. unfold forget_groups, with_retention, apply. rewrite from_items_eq, traverse_map. reflexivity. Qed.

  Lemma forget_groups_entries c k now l fgs :
    forget_groups ksort tsort c k now l = Some fgs ->
    map fst fgs = group_keys c l /\
    (forall g res, In (g, res) fgs <-> In g (group_keys c l) /\ apply_sorted k now (arrangement c l g) = Some res).
  Proof. rewrite forget_groups_canonical. apply traverse_tag. Qed.

  Lemma group_keys_nil c l : is_nil (group_keys c l) = is_nil l.
  Proof.
    destruct l as [|s t]; [reflexivity|]. pose proof (proj2 (group_keys_in c (s :: t) (gkey c s))) as H.
    destruct (group_keys c (s :: t)); [|reflexivity]. destruct H. exists s. split; [left|]; reflexivity.
  Qed.

  Lemma forget_groups_closed c k now l :
    forget_groups ksort tsort c k now l =
    if is_valid k then Some (map (fun g => (g, entries k now (arrangement c l g))) (group_keys c l))
    else if is_nil l then Some [] else None.
  Proof. rewrite forget_groups_canonical, retention_closed, group_keys_nil. reflexivity. Qed.

  Lemma forget_groups_none c k now l :
    forget_groups ksort tsort c k now l = None <-> is_valid k = false /\ l <> [].
  Proof.
    rewrite forget_groups_closed. destruct (is_valid k); [split; [|intros [V _]]; discriminate|].
    destruct l; cbn [is_nil].
    - split; [discriminate | intros [_ N]; contradiction N; reflexivity].
    - split; [intros _; split; [reflexivity | discriminate] | reflexivity].
  Qed.

  (* a command that succeeds on a non-empty input has a keep option: apply never fails *)
  Lemma forget_some_apply c k now l ids s l' :
    forget ksort tsort c k now l = Some ids -> In s l -> exists res, apply_sorted k now l' = Some res.
  Proof.
    unfold forget. rewrite forget_groups_closed, apply_sorted_walk.
    destruct (is_valid k); [eauto|]. destruct l; [contradiction | discriminate].
  Qed.

  Lemma forget_ids_exact_lemma c k now l ids :
    forget ksort tsort c k now l = Some ids ->
    forall i, In i ids <->
      exists s res rs, In s l /\ s_id s = i /\
        apply_sorted k now (arrangement c l (gkey c s)) = Some res /\ In (s, false, rs) res.
  Proof.
    unfold forget. destruct (forget_groups ksort tsort c k now l) as [fgs|] eqn:F; [|discriminate].
    intro H. injection H as <-. destruct (forget_groups_entries c k now l fgs F) as [_ EN].
    intro i. rewrite into_forget_ids_in. split.
    - intros (g & res & s & r & H1 & H2 & H3). apply EN in H1. destruct H1 as [H1 H4].
      assert (Hs : In s (arrangement c l g)).
      { rewrite <- (apply_sorted_snaps _ _ _ _ H4). apply (in_map snap_of _ _ H2). }
      apply arrangement_in in Hs. destruct Hs as [Hs <-]. exists s, res, r. auto.
    - intros (s & res & rs & H1 & H2 & H3 & H4). exists (gkey c s), res, s, rs.
      split; [|auto]. apply EN. split; [|assumption]. apply group_keys_in. exists s. auto.
  Qed.

  Lemma all_snaps_perm c k now l fgs :
    forget_groups ksort tsort c k now l = Some fgs ->
    Permutation (flat_map (fun fg : fgroup => map snap_of (snd fg)) fgs) l.
  Proof.
    intro F. unfold forget_groups, with_retention in F. apply traverse_some in F.
    apply perm_trans with (ksort c l); [|apply Permutation_sym, ksort_ok].
    rewrite <- (chunk_by_concat c (ksort c l)), <- flat_map_concat_map. fold (from_items ksort c l).
    induction F as [|g [g' r] gs fs H1 H2 IH]; [constructor|].
    simpl. apply Permutation_app; [|exact IH].
    unfold apply in H1. destruct (apply_sorted k now (tsort (snd g))) eqn:E; [|discriminate].
    injection H1 as _ <-. rewrite (apply_sorted_snaps _ _ _ _ E). apply Permutation_sym. apply tsort_ok.
  Qed.

  Lemma forget_removed_kept_perm c k now l fgs :
    forget_groups ksort tsort c k now l = Some fgs ->
    Permutation (flat_map (fun fg : fgroup => removed_of (snd fg)) fgs ++
                 flat_map (fun fg : fgroup => kept_of (snd fg)) fgs) l.
  Proof.
    intro F. eapply perm_trans; [|apply (all_snaps_perm c k now l fgs F)].
    (* removed, kept and all snapshots as images of the one list of all entries *)
    unfold removed_of, kept_of. rewrite <- !map_flat_map, <- !filter_flat_map.
    apply (removed_kept_perm (flat_map snd fgs)).
  Qed.

  Lemma forget_ids_nodup c k now l fgs :
    forget_groups ksort tsort c k now l = Some fgs -> NoDup (map s_id l) -> NoDup (into_forget_ids fgs).
  Proof.
    intros F ND. pose proof (forget_removed_kept_perm c k now l fgs F) as P.
    rewrite into_forget_ids_removed. apply (Permutation_map s_id), Permutation_sym in P.
    rewrite map_app in P. apply (Permutation_NoDup P), NoDup_app_iff in ND. exact (proj1 ND).
  Qed.

  Lemma forget_groups_deterministic c k now l :
    (forall g, NoDup (map s_inst (own_group c l g))) ->
    forget_groups ksort tsort c k now l = forget_groups_spec c k now l.
  Proof.
    intro ND. rewrite forget_groups_canonical. unfold forget_groups_spec.
    apply traverse_ext. intros g _. rewrite arrangement_distinct by apply ND. reflexivity.
  Qed.
End PipelineProofs.

Lemma forget_groups_spec_entries c k now l fgs :
  forget_groups_spec c k now l = Some fgs ->
  forall g res, In (g, res) fgs <->
    In g (group_keys c l) /\ apply_sorted k now (tsort_stable (own_group c l g)) = Some res.
Proof. intro H. apply (traverse_tag _ _ _ H). Qed.

Lemma from_snapshots_ids now l :
  from_snapshots_forget_ids now l = map s_id (filter (fun s => negb (must_keep s now)) l).
Proof.
  unfold from_snapshots_forget_ids, from_snapshots, into_forget_ids. simpl. rewrite app_nil_r.
  induction l as [|s l IH]; [reflexivity|].
  simpl. rewrite forget_pick_spec. unfold from_snapshots_keep at 1.
  destruct (must_keep s now); simpl; rewrite IH; reflexivity.
Qed.
