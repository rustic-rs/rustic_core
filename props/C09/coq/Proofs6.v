(* C09 — the command level in terms of the documented rules; raising a count at the
   command level; locality (a snapshot's decision depends on its own group only); examples. *)
From Verif.Base Require Import Tactics Lists.
Require Import Coq.Sorting.Permutation.
From Verif.C09 Require Import Calendar ModelBase Extracted Model Spec Lists Proofs Proofs2 Groups Proofs3 Proofs4 Proofs5.
Local Open Scope Z_scope.

(* what is known of the two unstable sorts of the code *)
Definition ksort_spec (ksort : crit -> list snap -> list snap) : Prop :=
  forall c l, Permutation l (ksort c l) /\ key_sorted c (ksort c l) = true.
Definition tsort_spec (tsort : list snap -> list snap) : Prop :=
  forall l, Permutation l (tsort l) /\ sorted_desc (tsort l) = true.

Lemma in_combine_res (res : list fsnap) s b :
  In (s, b) (combine (map snap_of res) (map flag res)) <-> exists rs, In (s, b, rs) res.
Proof.
  induction res as [|[[s' b'] rs'] res IH]; cbn [map combine In snap_of flag fst snd].
  - split; [tauto | intros [rs []]].
  - rewrite IH. split.
    + intros [H|[rs H]]; [injection H as <- <-; eauto | eauto].
    + intros [rs [H|H]]; [injection H as <- <- _; auto | eauto].
Qed.

Lemma flags_le_false {A} (xs : list A) a b x :
  flags_le a b -> In (x, false) (combine xs b) -> In (x, false) (combine xs a).
Proof.
  intro L. revert xs. induction L as [|fa fb a b Hf _ IH]; intros [|x0 xs]; cbn [combine In]; auto.
  intros [H|H]; [left | right; auto]. injection H as -> ->.
  destruct fa; [discriminate (Hf eq_refl) | reflexivity].
Qed.

Section Documented.
  Variable ksort : crit -> list snap -> list snap.
  Variable tsort : list snap -> list snap.
  Hypothesis ksort_ok : ksort_spec ksort.
  Hypothesis tsort_ok : tsort_spec tsort.

  Lemma arrangement_monotone c l g :
    (forall a b, In a l -> In b l -> gkey c a = gkey c b -> s_offs a = s_offs b) ->
    keys_monotone (arrangement ksort tsort c l g) = true.
  Proof.
    intro OFF. apply sorted_keys_monotone; [apply (arrangement_spec ksort tsort ksort_ok tsort_ok)|].
    apply same_offset_all. intros a b Ha Hb.
    apply (arrangement_in ksort tsort ksort_ok tsort_ok) in Ha, Hb. apply OFF; intuition congruence.
  Qed.

  (* apply_meets_spec at the command level: the ids returned are those of the snapshots that the
     count-based reading, on the arrangement of the snapshot's own group, does not keep *)
  Lemma forget_ids_adj c k now l ids :
    forget ksort tsort c k now l = Some ids ->
    forall i, In i ids <->
      exists s, In s l /\ s_id s = i /\
        In (s, false) (combine (arrangement ksort tsort c l (gkey c s))
                               (adj_apply k now (arrangement ksort tsort c l (gkey c s)))).
  Proof.
    intros F i. rewrite (forget_ids_exact_lemma ksort tsort ksort_ok tsort_ok c k now l ids F i). split.
    - intros (s & res & rs & H1 & H2 & H3 & H4). exists s. split; [assumption|]. split; [assumption|].
      destruct (apply_meets_spec_lemma k now _ res H3) as [<- <-]. apply in_combine_res. eauto.
    - intros (s & H1 & H2 & H3).
      destruct (forget_some_apply ksort tsort ksort_ok c k now l ids s (arrangement ksort tsort c l (gkey c s)) F H1) as [res A].
      destruct (apply_meets_spec_lemma k now _ res A) as [E1 E2]. rewrite <- E2, <- E1 in H3.
      apply in_combine_res in H3. destruct H3 as [rs H3]. exists s, res, rs. auto.
  Qed.

  Lemma forget_ids_documented_lemma c k now l ids :
    forget ksort tsort c k now l = Some ids ->
    (forall a b, In a l -> In b l -> gkey c a = gkey c b -> s_offs a = s_offs b) ->
    forall i, In i ids <->
      exists s, In s l /\ s_id s = i /\
        In (s, false) (combine (arrangement ksort tsort c l (gkey c s))
                               (doc_apply k now (arrangement ksort tsort c l (gkey c s)))).
  Proof.
    intros F OFF i. rewrite (forget_ids_adj c k now l ids F i).
    assert (E : forall g, adj_apply k now (arrangement ksort tsort c l g) = doc_apply k now (arrangement ksort tsort c l g))
      by (intro g; apply runs_are_periods_lemma, arrangement_monotone, OFF).
    split; intros (s & H1 & H2 & H3); exists s; rewrite E in *; auto.
  Qed.

  Lemma forget_raising_count_lemma c k k' now l ids ids' :
    same_but_counts k k' ->
    forget ksort tsort c k now l = Some ids -> forget ksort tsort c k' now l = Some ids' ->
    forall i, In i ids' -> In i ids.
  Proof.
    intros S F F' i. rewrite (forget_ids_adj c k now l ids F i), (forget_ids_adj c k' now l ids' F' i).
    intros (s & H1 & H2 & H3). exists s. split; [assumption|]. split; [assumption|].
    exact (flags_le_false _ _ _ _ (adj_apply_raise k k' now _ S) H3).
  Qed.
End Documented.

Lemma group_keys_in_own c l g : In g (group_keys c l) <-> own_group c l g <> [].
Proof.
  rewrite group_keys_in. unfold own_group. transitivity (existsb (keyis c g) l = true).
  - rewrite existsb_exists. split; intros [s [H K]]; exists s; (split; [exact H | apply keyis_iff; exact K]).
  - rewrite <- filter_nil_existsb. destruct (filter (keyis c g) l); cbn [is_nil negb].
    + split; [discriminate | intro N; contradiction N; reflexivity].
    + split; [discriminate | reflexivity].
Qed.

Lemma forget_spec_entry_local c k now l1 l2 f1 f2 g :
  forget_groups_spec c k now l1 = Some f1 -> forget_groups_spec c k now l2 = Some f2 ->
  own_group c l1 g = own_group c l2 g ->
  forall res, In (g, res) f1 <-> In (g, res) f2.
Proof.
  intros F1 F2 E res.
  rewrite (forget_groups_spec_entries c k now l1 f1 F1), (forget_groups_spec_entries c k now l2 f2 F2).
  rewrite !group_keys_in_own, E. tauto.
Qed.

Lemma own_group_app_other c l extra g :
  Forall (fun s => gkey c s <> g) extra -> own_group c (l ++ extra) g = own_group c l g.
Proof.
  intro H. unfold own_group. rewrite filter_app, (filter_const _ false extra); [apply app_nil_r|].
  intros s Hs. apply not_true_is_false. intro K. apply keyis_iff in K. exact (proj1 (Forall_forall _ _) H s Hs K).
Qed.

(* The premises of the command-level theorems are inhabited. *)
Definition mk_gsnap (inst : Z) (id host : N) (tags : list N) : snap :=
  {| s_inst := inst; s_offs := 0; s_id := [id]; s_tags := tags; s_del := DNotSet; s_tree := id;
     s_host := host; s_label := 0%N; s_paths := [1%N] |}.
Definition ex_crit : crit := {| cr_host := true; cr_label := true; cr_paths := true; cr_tags := false |}.
Definition ex_keep_last1 : keep :=
  {| k_count := fun p => match p with PLast => Some 1 | _ => None end;
     k_within := fun _ => None; k_tags := []; k_ids := []; k_none := false; k_delete_unchanged := false |}.
(* two hosts; host 2 has two snapshots, host 1 one *)
Definition ex_snaps := [mk_gsnap 100 1 2 [1; 2]%N; mk_gsnap 300 2 1 []; mk_gsnap 200 3 2 [2; 1; 2]%N].

Example ex_forget :
  forget_exec ex_crit ex_keep_last1 1000 ex_snaps = Some [[1%N]]
  /\ map fst (from_items ksort_stable ex_crit ex_snaps) = group_keys ex_crit ex_snaps
  /\ length (group_keys ex_crit ex_snaps) = 2%nat
  /\ (forall g, NoDup (map s_inst (own_group ex_crit ex_snaps g)))
  /\ NoDup (map s_id ex_snaps).
Proof.
  split; [vm_compute; reflexivity|]. split; [vm_compute; reflexivity|]. split; [vm_compute; reflexivity|]. split.
  - intro g. apply NoDup_map_filter. vm_compute. repeat constructor; simpl; intuition discriminate.
  - vm_compute. repeat constructor; simpl; intuition discriminate.
Qed.

(* tag lists that are equal as sets give the same key when grouping by tags *)
Example ex_same_tags :
  gkey {| cr_host := false; cr_label := false; cr_paths := false; cr_tags := true |} (mk_gsnap 100 1 2 [1; 2]%N)
  = gkey {| cr_host := false; cr_label := false; cr_paths := false; cr_tags := true |} (mk_gsnap 200 3 1 [2; 1; 2]%N).
Proof. vm_compute. reflexivity. Qed.

Example ex_from_snapshots :
  from_snapshots_forget_ids 1000
    [mk_gsnap 100 1 1 []; {| s_inst := 5; s_offs := 0; s_id := [7%N]; s_tags := []; s_del := DAfter 1000; s_tree := 1%N;
                             s_host := 0%N; s_label := 0%N; s_paths := [] |};
     {| s_inst := 6; s_offs := 0; s_id := [8%N]; s_tags := []; s_del := DAfter 999; s_tree := 1%N;
        s_host := 0%N; s_label := 0%N; s_paths := [] |}] = [[1%N]; [8%N]].
Proof. vm_compute. reflexivity. Qed.
