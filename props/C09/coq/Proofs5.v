(* C09 — the civil-calendar keys are monotone in the instant, for ALL instants (no range
   bound), analytically from Hinnant's era / day-of-era / year-of-era arithmetic.  Hence
   `keys_monotone` holds for every list that is sorted by time and whose snapshots share
   one UTC offset, and the premise of runs_are_periods / apply_is_documented is derived.

   The one calendar fact needed is that (year, month) never decreases with the day number.
   It holds because civil_from_days computes a count of months since March of year 0
   (`months_of`) that is monotone in the day number, and reads year and month off it as
   quotient and remainder by 12. *)
From Verif.Base Require Import Tactics.
From Verif.C09 Require Import Calendar ModelBase Extracted Model Spec Proofs2.
Local Open Scope Z_scope.

(* as in civil_from_days: the year of era of a day of era, and the day of era on which a
   year of era begins (1 March) *)
Definition yoe_of (doe : Z) : Z := (doe - doe / 1460 + doe / 36524 - doe / 146096) / 365.
Definition year_start (yoe : Z) : Z := 365 * yoe + yoe / 4 - yoe / 100.

Lemma yoe_range doe : 0 <= doe <= 146096 -> 0 <= yoe_of doe <= 399.
Proof. intros. unfold yoe_of. lia. Qed.

(* the year of era found by the formula is the one whose days contain doe *)
Lemma doy_range doe : 0 <= doe <= 146096 -> 0 <= doe - year_start (yoe_of doe) <= 365.
Proof. intros. unfold yoe_of, year_start. lia. Qed.

Lemma year_start_mono a b : a < b -> year_start a + 365 <= year_start b.
Proof. intros. unfold year_start. lia. Qed.

Definition months_of (z0 : Z) : Z :=
  let z := z0 + 719468 in
  let era := z / 146097 in
  let doe := z - era * 146097 in
  let yoe := yoe_of doe in
  12 * (yoe + era * 400) + (5 * (doe - year_start yoe) + 2) / 153.

(* Both sides are unfolded to the same term before they are compared: left to itself the
   conversion test unfolds the integer arithmetic of one side and takes seconds. *)
Lemma cfd_months z :
  fst (civil_from_days z) = ((months_of z + 2) / 12, (months_of z + 2) mod 12 + 1).
Proof.
  unfold civil_from_days, months_of, yoe_of, year_start. cbv zeta. cbn [fst].
  set (doe := z + 719468 - (z + 719468) / 146097 * 146097).
  assert (R : 0 <= doe <= 146096) by (subst doe; lia).
  pose proof (doy_range doe R) as D. unfold yoe_of, year_start in D.
  set (yoe := (doe - doe / 1460 + doe / 36524 - doe / 146096) / 365) in *.
  set (mp := (5 * (doe - (365 * yoe + yoe / 4 - yoe / 100)) + 2) / 153).
  assert (M : 0 <= mp <= 11) by (subst mp; lia).
  set (y := yoe + (z + 719468) / 146097 * 400). clearbody y mp. clear - M.
  (* March-based month mp of March-based year y: January and February belong to y + 1 *)
  destruct (mp <? 10) eqn:A; cbv iota; destruct (_ <=? 2) eqn:B; f_equal; lia.
Qed.

Lemma months_mono z1 z2 : z1 <= z2 -> months_of z1 <= months_of z2.
Proof.
  intro H. unfold months_of. cbv zeta.
  set (e1 := (z1 + 719468) / 146097). set (e2 := (z2 + 719468) / 146097).
  set (d1 := z1 + 719468 - e1 * 146097). set (d2 := z2 + 719468 - e2 * 146097).
  assert (R1 : 0 <= d1 <= 146096) by (subst d1 e1; lia).
  assert (R2 : 0 <= d2 <= 146096) by (subst d2 e2; lia).
  assert (E : e1 < e2 \/ e1 = e2 /\ d1 <= d2) by (subst d1 d2 e1 e2; lia).
  pose proof (yoe_range d1 R1) as Y1. pose proof (yoe_range d2 R2) as Y2.
  pose proof (doy_range d1 R1) as D1. pose proof (doy_range d2 R2) as D2.
  clearbody d1 d2 e1 e2.
  (* a later era outweighs the rest; within an era a later day lies in the same or a later
     year of era, year starts being at least 365 days apart, and within a year the day of
     year decides *)
  destruct E as [E|[-> L]]; [lia|].
  destruct (Z.eq_dec d1 d2) as [->|D]; [lia|].
  destruct (Z.lt_trichotomy (yoe_of d1) (yoe_of d2)) as [Y|[Y|Y]];
    [|rewrite Y in *|apply year_start_mono in Y]; lia.
Qed.

Definition year_of (z : Z) : Z := fst (fst (civil_from_days z)).
Definition month_of (z : Z) : Z := snd (fst (civil_from_days z)).

Lemma year_mono z1 z2 : z1 <= z2 -> year_of z1 <= year_of z2.
Proof. intro H. apply months_mono in H. unfold year_of. rewrite !cfd_months. cbn [fst]. lia. Qed.

Lemma month_mono z1 z2 : z1 <= z2 -> year_of z1 = year_of z2 -> month_of z1 <= month_of z2.
Proof.
  intro H. apply months_mono in H. unfold year_of, month_of. rewrite !cfd_months. cbn [fst snd]. lia.
Qed.

Definition thursday (days : Z) : Z := days - ((days + 3) mod 7 + 1 - 1) + 3.

Definition civil_at (days sod : Z) : civil :=
  {| c_year := year_of days; c_month := month_of days; c_day := snd (civil_from_days days);
     c_doy := days - days_from_civil (year_of days) 1 1 + 1;
     c_hour := sod / 3600; c_minute := (sod mod 3600) / 60;
     c_iso_year := year_of (thursday days);
     c_iso_week := (thursday days - days_from_civil (year_of (thursday days)) 1 1) / 7 + 1 |}.

Lemma civil_of_at i o : civil_of i o = civil_at ((i + o) / 86400) ((i + o) mod 86400).
Proof.
  unfold civil_of, civil_at, year_of, month_of, thursday.
  destruct (civil_from_days ((i + o) / 86400)) as [[y m] d].
  destruct (civil_from_days _) as [[iy im] id]. reflexivity.
Qed.

Lemma lex_leb_refl_eq a : lex_leb a a = true.
Proof. induction a as [|x a IH]; [reflexivity|]. cbn [lex_leb]. rewrite IH. lia. Qed.

Lemma lex_leb_firstn n : forall a b, lex_leb a b = true -> lex_leb (firstn n a) (firstn n b) = true.
Proof.
  induction n as [|n IH]; intros [|x a] [|y b] H; try reflexivity; try discriminate.
  cbn [firstn lex_leb] in *. specialize (IH a b).
  destruct (lex_leb a b), (lex_leb (firstn n a) (firstn n b)); lia.
Qed.

(* Day of year and ISO week are differences from the first of January of the (ISO) year, so
   within one year they are ordered like the day number; the hour, day and year keys are
   prefixes of the minute key. *)
Lemma key_at_mono p d1 s1 d2 s2 : d1 <= d2 -> (d1 = d2 -> s1 <= s2) ->
  lex_leb (key p (civil_at d1 s1)) (key p (civil_at d2 s2)) = true.
Proof.
  intros DM SM.
  pose proof (year_mono d1 d2 DM) as YM. pose proof (month_mono d1 d2 DM) as MM.
  assert (TM : thursday d1 <= thursday d2) by (unfold thursday; lia).
  pose proof (year_mono _ _ TM) as IY.
  assert (DFC : year_of d1 = year_of d2 ->
                days_from_civil (year_of d1) 1 1 = days_from_civil (year_of d2) 1 1) by (intros ->; reflexivity).
  assert (TFC : year_of (thursday d1) = year_of (thursday d2) ->
                days_from_civil (year_of (thursday d1)) 1 1 = days_from_civil (year_of (thursday d2)) 1 1)
    by (intros ->; reflexivity).
  assert (MIN : lex_leb (key PMinute (civil_at d1 s1)) (key PMinute (civil_at d2 s2)) = true)
    by (cbn [key civil_at c_year c_doy c_hour c_minute lex_leb]; lia).
  destruct p;
    [reflexivity | exact MIN | exact (lex_leb_firstn 3 _ _ MIN) | exact (lex_leb_firstn 2 _ _ MIN) | ..];
    cbn [key civil_at c_year c_month c_iso_year c_iso_week lex_leb]; lia.
Qed.

Lemma key_mono p i1 i2 o : i1 <= i2 ->
  lex_leb (key p (civil_of i1 o)) (key p (civil_of i2 o)) = true.
Proof. intro H. rewrite !civil_of_at. apply key_at_mono; lia. Qed.

Fixpoint same_offset (l : list snap) : bool :=
  match l with
  | a :: (b :: _) as t => (s_offs a =? s_offs b) && same_offset t
  | _ => true
  end.

Lemma sorted_keys_monotone_p p : forall l,
  sorted_desc l = true -> same_offset l = true -> keys_monotone_p p l = true.
Proof.
  induction l as [|a [|b l] IH]; intros S O; try reflexivity.
  cbn [sorted_desc same_offset keys_monotone_p] in *.
  apply andb_true_iff in S. destruct S as [S1 S2]. apply andb_true_iff in O. destruct O as [O1 O2].
  rewrite (IH S2 O2), andb_true_r. unfold civ.
  replace (s_offs a) with (s_offs b) by lia. apply key_mono. lia.
Qed.

Lemma sorted_keys_monotone l : sorted_desc l = true -> same_offset l = true -> keys_monotone l = true.
Proof.
  intros S O. unfold keys_monotone. apply forallb_forall. intros p _. apply sorted_keys_monotone_p; assumption.
Qed.

Lemma same_offset_all l : (forall a b, In a l -> In b l -> s_offs a = s_offs b) -> same_offset l = true.
Proof.
  induction l as [|a [|b l] IH]; intro H; try reflexivity.
  change (same_offset (a :: b :: l)) with ((s_offs a =? s_offs b) && same_offset (b :: l)).
  rewrite IH by (intros; apply H; right; assumption).
  rewrite (H a b) by (simpl; auto). lia.
Qed.

(* non-vacuity: 2015-12-31 23:59:59 / 2016-01-01 00:00:00 at +05:30; the year goes up while day
   of year, hour and minute go down, and the ISO week (2015-W53) stays *)
Example ex_key_mono :
  forallb (fun p => lex_leb (key p (civil_of 1451586599 19800)) (key p (civil_of 1451586600 19800))) all_periods = true
  /\ same_offset ex_list = true /\ sorted_desc ex_list = true.
Proof. repeat split; vm_compute; reflexivity. Qed.
