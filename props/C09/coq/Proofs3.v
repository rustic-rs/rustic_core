(* C09 — orders and sorting: the order and the equality of group keys found in the
   source, string lists as sets, the stable sorts that instantiate the two sort
   specifications; a newest-first sort is determined up to snapshots of equal time. *)
From Verif.Base Require Import Tactics Sorting.
Require Import Coq.Sorting.Permutation.
From Verif.C09 Require Import Calendar ModelBase Extracted Model Groups Lists.
Local Open Scope Z_scope.

Record ord_ok {A} (c : A -> A -> comparison) : Prop := {
  ok_eq : forall a b, c a b = Eq <-> a = b;
  ok_sym : forall a b, c b a = CompOpp (c a b);
  ok_trans : forall a b d, c a b = Lt -> c b d = Lt -> c a d = Lt }.

Lemma ord_N : ord_ok N.compare.
Proof.
  constructor.
  - intros a b. apply N.compare_eq_iff.
  - intros a b. apply N.compare_antisym.
  - intros a b d H1 H2. rewrite N.compare_lt_iff in *. lia.
Qed.

Lemma then_cmp_eq p q : then_cmp p q = Eq <-> p = Eq /\ q = Eq.
Proof. destruct p, q; simpl; intuition discriminate. Qed.
Lemma then_cmp_lt p q : then_cmp p q = Lt <-> p = Lt \/ (p = Eq /\ q = Lt).
Proof. destruct p, q; simpl; intuition discriminate. Qed.
Lemma then_cmp_opp p q : CompOpp (then_cmp p q) = then_cmp (CompOpp p) (CompOpp q).
Proof. destruct p, q; reflexivity. Qed.

Lemma ord_opt {A} (c : A -> A -> comparison) : ord_ok c -> ord_ok (cmp_opt c).
Proof.
  intros [E S T]. constructor.
  - intros [a|] [b|]; simpl; try (split; intro H; discriminate); [|tauto].
    rewrite E. split; intro H; [subst; reflexivity | injection H; auto].
  - intros [a|] [b|]; simpl; auto.
  - intros [a|] [b|] [d|]; simpl; try discriminate; auto. apply T.
Qed.

Definition cmp_pair {A B} (c1 : A -> A -> comparison) (c2 : B -> B -> comparison) (x y : A * B) : comparison :=
  then_cmp (c1 (fst x) (fst y)) (c2 (snd x) (snd y)).

(* transitivity of a lexicographic step, from the first component's order and the
   second's transitivity at the three points concerned *)
Lemma then_cmp_trans {A} (c : A -> A -> comparison) (O : ord_ok c) a b d q1 q2 q3 :
  (q1 = Lt -> q2 = Lt -> q3 = Lt) ->
  then_cmp (c a b) q1 = Lt -> then_cmp (c b d) q2 = Lt -> then_cmp (c a d) q3 = Lt.
Proof.
  destruct O as [E _ T]. rewrite !then_cmp_lt. intros Tq [H1|[H1 H1']] [H2|[H2 H2']].
  - left. eapply T; eassumption.
  - apply E in H2. subst. auto.
  - apply E in H1. subst. auto.
  - right. apply E in H1. apply E in H2. subst. split; [apply E; reflexivity | auto].
Qed.

Lemma ord_pair {A B} (c1 : A -> A -> comparison) (c2 : B -> B -> comparison) :
  ord_ok c1 -> ord_ok c2 -> ord_ok (cmp_pair c1 c2).
Proof.
  intros O1 O2. pose proof O1 as [E1 S1 _]. destruct O2 as [E2 S2 T2]. unfold cmp_pair. constructor.
  - intros [a1 a2] [b1 b2]. simpl. rewrite then_cmp_eq, E1, E2.
    split; [intros [-> ->]; reflexivity | intro H; injection H; auto].
  - intros [a1 a2] [b1 b2]. simpl. rewrite then_cmp_opp, <- S1, <- S2. reflexivity.
  - intros a b d. apply (then_cmp_trans c1 O1), T2.
Qed.

Lemma ord_list {A} (c : A -> A -> comparison) : ord_ok c -> ord_ok (cmp_list c).
Proof.
  intros O. pose proof O as [E S _]. constructor.
  - induction a as [|x a IH]; destruct b as [|y b]; simpl; try (split; intro H; discriminate); [tauto|].
    rewrite then_cmp_eq, E, IH. split; [intros [-> ->]; reflexivity | intro H; injection H; auto].
  - induction a as [|x a IH]; destruct b as [|y b]; simpl; auto.
    rewrite then_cmp_opp, <- S, <- IH. reflexivity.
  - induction a as [|x a IH]; destruct b as [|y b]; destruct d as [|z d]; simpl; try discriminate; auto.
    apply (then_cmp_trans c O), IH.
Qed.

Lemma ord_inj {A B} (f : A -> B) (c : B -> B -> comparison) :
  (forall a b, f a = f b -> a = b) -> ord_ok c -> ord_ok (fun a b => c (f a) (f b)).
Proof.
  intros Inj [E S T]. constructor.
  - intros a b. rewrite E. split; [apply Inj | intros ->; reflexivity].
  - intros a b. apply S.
  - intros a b d. apply T.
Qed.

Section OrdFacts.
  Context {A} (c : A -> A -> comparison) (O : ord_ok c).
  Lemma ok_refl a : c a a = Eq.
  Proof. apply (ok_eq c O). reflexivity. Qed.
  Lemma ok_gt_lt a b : c a b = Gt <-> c b a = Lt.
  Proof. rewrite (ok_sym c O a b). destruct (c a b); simpl; intuition discriminate. Qed.
  Lemma ok_lt_le_trans a b d : c a b = Lt -> not_gt (c b d) = true -> c a d = Lt.
  Proof.
    intros H1 H2. destruct (c b d) eqn:E2; try discriminate.
    - apply (ok_eq c O) in E2. subst. assumption.
    - eapply (ok_trans c O); eassumption.
  Qed.
  Lemma ok_le_trans a b d : not_gt (c a b) = true -> not_gt (c b d) = true -> not_gt (c a d) = true.
  Proof.
    intros H1 H2. destruct (c a b) eqn:E1; try discriminate.
    - apply (ok_eq c O) in E1. subst. assumption.
    - rewrite (ok_lt_le_trans a b d E1 H2). reflexivity.
  Qed.
  Lemma ok_lt_neq a b : c a b = Lt -> a <> b.
  Proof. intros H E. subst. rewrite ok_refl in H. discriminate. Qed.
  Lemma ok_antisym a b : not_gt (c a b) = true -> not_gt (c b a) = true -> a = b.
  Proof.
    intros H1 H2. destruct (c a b) eqn:E1; try discriminate.
    - apply (ok_eq c O). assumption.
    - rewrite (ok_sym c O a b), E1 in H2. discriminate.
  Qed.
End OrdFacts.

Definition key_tuple (g : gkeyT) := (gk_host g, gk_label g, gk_paths g, gk_tags g).

Lemma key_tuple_inj a b : key_tuple a = key_tuple b -> a = b.
Proof. destruct a, b. unfold key_tuple. simpl. intro H. injection H. intros. subst. reflexivity. Qed.

(* the order found in the source is the lexicographic order of (hostname, label, paths, tags) *)
Lemma ord_gkey : ord_ok gkey_cmp.
Proof.
  exact (ord_inj key_tuple _ key_tuple_inj
    (ord_pair _ _ (ord_pair _ _ (ord_pair _ _ (ord_opt _ ord_N) (ord_opt _ ord_N)) (ord_opt _ (ord_list _ ord_N)))
                  (ord_opt _ (ord_list _ ord_N)))).
Qed.

Lemma list_eqb_N a : forall b, list_eqb N.eqb a b = true <-> a = b.
Proof.
  induction a as [|x a IH]; destruct b as [|y b]; simpl; try (split; intro H; discriminate); [tauto|].
  rewrite andb_true_iff, N.eqb_eq, IH. split; [intros [-> ->]; reflexivity | intro H; injection H; auto].
Qed.

Lemma opt_eqb_eq {A} (e : A -> A -> bool) : (forall a b, e a b = true <-> a = b) ->
  forall x y, opt_eqb e x y = true <-> x = y.
Proof.
  intros H [a|] [b|]; simpl; try (split; intro H'; discriminate); [|tauto].
  rewrite H. split; [intros ->; reflexivity | intro H'; injection H'; auto].
Qed.

Lemma gkey_eqb_eq a b : gkey_eqb a b = true <-> a = b.
Proof.
  unfold gkey_eqb, eqb_str, eqb_strlist. rewrite !andb_true_iff.
  rewrite !(opt_eqb_eq N.eqb N.eqb_eq), !(opt_eqb_eq (list_eqb N.eqb) list_eqb_N).
  split.
  - intros [[[H1 H2] H3] H4]. destruct a, b. simpl in *. subst. reflexivity.
  - intros ->. auto.
Qed.

Lemma gkey_eqb_refl a : gkey_eqb a a = true.
Proof. apply gkey_eqb_eq. reflexivity. Qed.

Lemma gkey_eqb_false a b : gkey_eqb a b = false <-> a <> b.
Proof. rewrite <- gkey_eqb_eq. symmetry. apply not_true_iff_false. Qed.

Lemma keyis_iff c g s : keyis c g s = true <-> gkey c s = g.
Proof. apply gkey_eqb_eq. Qed.

Definition key_ltb (a b : gkeyT) : bool := match gkey_cmp a b with Lt => true | _ => false end.

Lemma key_ltb_trans a b d : key_ltb a b = true -> key_ltb b d = true -> key_ltb a d = true.
Proof.
  unfold key_ltb. destruct (gkey_cmp a b) eqn:E1, (gkey_cmp b d) eqn:E2; try discriminate.
  rewrite (ok_trans _ ord_gkey a b d E1 E2). reflexivity.
Qed.
Lemma key_ltb_irrefl a : key_ltb a a = false.
Proof. unfold key_ltb. rewrite (ok_refl _ ord_gkey). reflexivity. Qed.

Lemma keys_ascending_chain gs : keys_ascending gs = chain key_ltb (map fst gs).
Proof.
  induction gs as [|a [|b gs] IH]; try reflexivity.
  cbn [keys_ascending map chain] in *. rewrite <- IH. unfold key_ltb.
  destruct (gkey_cmp (fst a) (fst b)); reflexivity.
Qed.

Lemma N_ltb_trans a b d : (a <? b)%N = true -> (b <? d)%N = true -> (a <? d)%N = true.
Proof. lia. Qed.

Lemma ins_in x l y : In y (ins x l) <-> y = x \/ In y l.
Proof.
  induction l as [|z l IH]; simpl; [intuition|].
  destruct (N.compare x z) eqn:E; simpl.
  - apply N.compare_eq_iff in E. subst. intuition.
  - intuition.
  - rewrite IH. intuition.
Qed.

Lemma ins_asc x l : chain N.ltb l = true -> chain N.ltb (ins x l) = true.
Proof.
  induction l as [|z l IH]; intro H; [reflexivity|]. cbn [ins].
  destruct (N.compare_spec x z) as [E|E|E].
  - assumption.
  - rewrite chain_cons, H. lia.
  - specialize (IH (chain_tail _ _ _ H)).
    destruct (ins x l) as [|w r] eqn:EI; [reflexivity|]. rewrite chain_cons, IH, andb_true_r.
    assert (Hw : In w (ins x l)) by (rewrite EI; left; reflexivity).
    apply ins_in in Hw. destruct Hw as [->|Hw]; [lia | exact (chain_head _ N_ltb_trans _ _ H _ Hw)].
Qed.

Lemma canon_in l y : In y (canon l) <-> In y l.
Proof.
  induction l as [|x l IH]; simpl; [tauto|]. rewrite ins_in, IH. intuition.
Qed.

Lemma canon_asc l : chain N.ltb (canon l) = true.
Proof. induction l as [|x l IH]; [reflexivity | apply ins_asc; assumption]. Qed.

Lemma canon_eq_iff a b : canon a = canon b <-> (forall x, In x a <-> In x b).
Proof.
  split.
  - intros H x. rewrite <- (canon_in a), <- (canon_in b), H. tauto.
  - intro H. apply (chain_ext N.ltb N_ltb_trans N.ltb_irrefl); try apply canon_asc.
    intro x. rewrite !canon_in. apply H.
Qed.

Section SortBy.
  Context {A} (cmp : A -> A -> comparison).
  Hypothesis le_total : forall a b, not_gt (cmp a b) = false -> not_gt (cmp b a) = true.
  Hypothesis le_trans : forall a b d, not_gt (cmp a b) = true -> not_gt (cmp b d) = true -> not_gt (cmp a d) = true.

  Lemma sorted_by_chain l : sorted_by cmp l = chain (fun a b => not_gt (cmp a b)) l.
  Proof. induction l as [|a [|b l] IH]; try reflexivity. cbn [sorted_by chain] in *. rewrite IH. reflexivity. Qed.

  Lemma sorted_by_head a l : sorted_by cmp (a :: l) = true -> forall b, In b l -> not_gt (cmp a b) = true.
  Proof. rewrite sorted_by_chain. exact (chain_head _ le_trans l a). Qed.

  (* insert_by and sort_by carry cmp inside their own fix, so they equal Sorting.insert and Sorting.isort
     by induction, not by conversion *)
  Lemma insert_by_insert x l : insert_by cmp x l = insert (fun a b => not_gt (cmp a b)) x l.
  Proof. induction l as [|y l IH]; [reflexivity|]. cbn [insert_by insert]. rewrite IH. reflexivity. Qed.

  Lemma sort_by_isort l : sort_by cmp l = isort (fun a b => not_gt (cmp a b)) l.
  Proof.
    induction l as [|x l IH]; [reflexivity|]. unfold sort_by, isort in *. cbn [fold_right].
    rewrite IH. apply insert_by_insert.
  Qed.

  Lemma sort_by_perm l : Permutation l (sort_by cmp l).
  Proof. rewrite sort_by_isort. apply isort_perm. Qed.

  Lemma sort_by_sorted l : sorted_by cmp (sort_by cmp l) = true.
  Proof. rewrite sorted_by_chain, sort_by_isort. apply isort_chain. exact le_total. Qed.

  (* stability, in the form needed: the elements that satisfy a predicate closed under
     "equivalent" keep their input order *)
  Lemma sort_by_filter (f : A -> bool) l :
    (forall x y, f x = true -> not_gt (cmp x y) = false -> f y = false) ->
    filter f (sort_by cmp l) = filter f l.
  Proof. rewrite sort_by_isort. apply isort_filter. Qed.
End SortBy.

Lemma key_order_total c a b : not_gt (key_order c a b) = false -> not_gt (key_order c b a) = true.
Proof.
  unfold key_order. intro H. destruct (gkey_cmp (gkey c a) (gkey c b)) eqn:E; try discriminate.
  apply (ok_gt_lt _ ord_gkey) in E. rewrite E. reflexivity.
Qed.
Lemma key_order_trans c a b d :
  not_gt (key_order c a b) = true -> not_gt (key_order c b d) = true -> not_gt (key_order c a d) = true.
Proof. unfold key_order. apply (ok_le_trans _ ord_gkey). Qed.

Lemma apply_order_le a b : not_gt (apply_order a b) = (s_inst b <=? s_inst a).
Proof.
  unfold apply_order, snap_cmp. destruct (Z.compare_spec (s_inst a) (s_inst b)); simpl; lia.
Qed.
Lemma apply_order_total a b : not_gt (apply_order a b) = false -> not_gt (apply_order b a) = true.
Proof. rewrite !apply_order_le. lia. Qed.
Lemma apply_order_trans a b d :
  not_gt (apply_order a b) = true -> not_gt (apply_order b d) = true -> not_gt (apply_order a d) = true.
Proof. rewrite !apply_order_le. lia. Qed.

Lemma sorted_apply_order l : sorted_by apply_order l = sorted_desc l.
Proof.
  induction l as [|a [|b l] IH]; try reflexivity.
  cbn [sorted_by sorted_desc] in *. rewrite IH, apply_order_le. reflexivity.
Qed.

Lemma ksort_stable_ok c l : Permutation l (ksort_stable c l) /\ key_sorted c (ksort_stable c l) = true.
Proof.
  split; [apply sort_by_perm|]. apply sort_by_sorted. apply key_order_total.
Qed.
Lemma tsort_stable_ok l : Permutation l (tsort_stable l) /\ sorted_desc (tsort_stable l) = true.
Proof.
  split; [apply sort_by_perm|]. rewrite <- sorted_apply_order.
  apply sort_by_sorted. apply apply_order_total.
Qed.

Lemma ksort_stable_filter c g l : filter (keyis c g) (ksort_stable c l) = filter (keyis c g) l.
Proof.
  apply sort_by_filter. intros x y Hx Hxy. apply keyis_iff in Hx.
  apply not_true_is_false. intro Hy. apply keyis_iff in Hy.
  unfold key_order in Hxy. rewrite Hx, Hy, (ok_refl _ ord_gkey) in Hxy. discriminate.
Qed.

Lemma sorted_desc_chain l : sorted_desc l = chain (fun a b => b <=? a) (map s_inst l).
Proof. induction l as [|a [|b l] IH]; try reflexivity. cbn [sorted_desc map chain] in *. rewrite IH. reflexivity. Qed.

Lemma sorted_insts_unique l1 l2 :
  Permutation l1 l2 -> sorted_desc l1 = true -> sorted_desc l2 = true -> map s_inst l1 = map s_inst l2.
Proof.
  rewrite !sorted_desc_chain. intro P.
  apply (chain_unique (fun a b => b <=? a)); [| |apply Permutation_map, P]; intros; lia.
Qed.

Lemma sorted_desc_unique l1 l2 :
  Permutation l1 l2 -> sorted_desc l1 = true -> sorted_desc l2 = true -> NoDup (map s_inst l1) -> l1 = l2.
Proof.
  intros P H1 H2 ND. apply (Permutation_map_inj s_inst); [assumption | apply sorted_insts_unique; assumption | assumption].
Qed.
