(* C09 — the source's period predicates are the documented periods; on lists whose
   period keys are monotone the adjacency test finds exactly the newest snapshot of each
   period; raising a count never removes; delete marks override. *)
From Verif.Base Require Import Tactics Lists Sorting.
From Verif.C09 Require Import Calendar ModelBase Extracted Model Spec Proofs.
Local Open Scope Z_scope.

Lemma preds_are_periods p a b : eq_of p a b = same_period p a b.
Proof.
  destruct p; cbv [eq_of find row_table rd_p rd_eq period_eqb same_period key zlist_eqb
                   always_false equal_year equal_half_year equal_quarter_year equal_month equal_week
                   equal_day equal_hour equal_minute];
    try reflexivity;
    repeat match goal with |- context [?x =? ?y] => destruct (x =? y) end; reflexivity.
Qed.

Lemma same_period_key p a b : p <> PLast -> same_period p a b = zlist_eqb (key p a) (key p b).
Proof. destruct p; intro H; try reflexivity. contradiction. Qed.

Lemma lex_leb_trans : forall a b c, lex_leb a b = true -> lex_leb b c = true -> lex_leb a c = true.
Proof.
  induction a as [|x a IH]; intros b c H1 H2; [reflexivity|].
  destruct b as [|y b]; [discriminate|]. destruct c as [|z c]; [discriminate|].
  cbn [lex_leb] in *. specialize (IH b c).
  destruct (lex_leb a b), (lex_leb b c), (lex_leb a c); lia.
Qed.

Lemma lex_sandwich : forall a b c,
  lex_leb a b = true -> lex_leb b c = true -> zlist_eqb a c = true -> zlist_eqb a b = true.
Proof.
  induction a as [|x a IH]; intros b c H1 H2 H3.
  - destruct c; [|discriminate]. destruct b; [reflexivity|discriminate].
  - destruct c as [|z c]; [discriminate|]. destruct b as [|y b]; [discriminate|].
    cbn [lex_leb zlist_eqb] in *. specialize (IH b c).
    destruct (lex_leb a b), (lex_leb b c), (zlist_eqb a c), (zlist_eqb a b); lia.
Qed.

(* stated for arbitrary civil fields: with `civ s` in their place the case analysis on p
   would let the kernel evaluate calendar arithmetic *)
Lemma same_period_sandwich p a b c :
  lex_leb (key p a) (key p b) = true -> lex_leb (key p b) (key p c) = true ->
  same_period p a c = true -> same_period p a b = true.
Proof. destruct p; cbn [same_period]; [discriminate 3 | apply lex_sandwich ..]. Qed.

(* prev is the walked part, nearest first: keys never decrease going back *)
Definition mono_prev (p : period) (x : snap) (prev : list snap) : bool :=
  chain (fun a b => lex_leb (key p (civ a)) (key p (civ b))) (x :: prev).

(* The previous snapshot lies between the current one and every older-walked one, so if any
   walked snapshot shares the period, the previous one does. *)
Lemma leaders_agree p prev sn rest :
  mono_prev p sn prev = true -> L_adj p prev sn rest = L_doc p prev sn rest.
Proof.
  intro M. unfold L_adj, L_doc, cond. rewrite negb_involutive. f_equal.
  destruct prev as [|o prev']; [reflexivity|].
  cbn [hd_error existsb]. rewrite preds_are_periods.
  destruct (same_period p (civ sn) (civ o)) eqn:S; [reflexivity|].
  cbn [orb negb]. symmetry. apply negb_true_iff, not_true_is_false. intro H.
  apply existsb_exists in H. destruct H as [o2 [Hin Ho2]].
  unfold mono_prev in M. cbn [chain] in M. apply andb_true_iff in M. destruct M as [M1 M2].
  pose proof (chain_head _ (fun a b c => lex_leb_trans _ _ _) _ _ M2 _ Hin) as M3.
  rewrite (same_period_sandwich p _ _ _ M1 M3 Ho2) in S. discriminate.
Qed.

Lemma spec_keep_ext L L' k now latest seen seen' prev sn rest :
  (forall p, seen p = seen' p) -> (forall p, L p prev sn rest = L' p prev sn rest) ->
  spec_keep L k now latest seen prev sn rest = spec_keep L' k now latest seen' prev sn rest.
Proof.
  intros Hs HL. unfold spec_keep. destruct (stage_of k now sn rest); try reflexivity.
  unfold rules_keep. apply existsb_ext_local. intros r _.
  destruct r as [| |p|p| |]; cbn [reason_holds]; rewrite ?HL, ?Hs; reflexivity.
Qed.

(* what the walk knows when it stands before l with prev behind it *)
Definition mono_walk (p : period) (prev l : list snap) : Prop :=
  keys_monotone_p p l = true /\
  match l with sn :: _ => mono_prev p sn prev = true | [] => True end.

Lemma mono_walk_step p prev sn rest :
  mono_walk p prev (sn :: rest) -> mono_prev p sn prev = true /\ mono_walk p (sn :: prev) rest.
Proof.
  intros [HM HP]. split; [exact HP|]. destruct rest as [|b rest']; [split; trivial|].
  cbn [keys_monotone_p] in HM. apply andb_true_iff in HM. split; [apply HM|].
  unfold mono_prev. cbn [chain]. rewrite (proj1 HM). exact HP.
Qed.

Lemma spec_go_adj_doc k now latest : forall l seen seen' prev,
  (forall p, seen p = seen' p) -> (forall p, mono_walk p prev l) ->
  spec_go L_adj k now latest seen prev l = spec_go L_doc k now latest seen' prev l.
Proof.
  induction l as [|sn rest IH]; intros seen seen' prev Hs HW; [reflexivity|].
  assert (HP : forall p, mono_prev p sn prev = true) by (intro p; apply (mono_walk_step p prev sn rest (HW p))).
  cbn [spec_go]. f_equal.
  - apply spec_keep_ext; [assumption|]. intro p. apply leaders_agree, HP.
  - apply IH; intro p; [|apply (mono_walk_step p prev sn rest (HW p))].
    unfold bump. rewrite Hs, (leaders_agree p prev sn rest (HP p)). reflexivity.
Qed.

Lemma keys_monotone_all l : keys_monotone l = true -> forall p, keys_monotone_p p l = true.
Proof. intros H p. exact (forallb_In H (all_periods_in p)). Qed.

Theorem runs_are_periods_lemma k now l :
  keys_monotone l = true -> adj_apply k now l = doc_apply k now l.
Proof.
  intro H. unfold adj_apply, doc_apply. destruct l as [|s0 l']; [reflexivity|].
  apply spec_go_adj_doc; [reflexivity|]. intro p. split; [apply keys_monotone_all; assumption | reflexivity].
Qed.

Theorem apply_is_documented_lemma k now l res :
  keys_monotone l = true -> apply_sorted k now l = Some res ->
  map snap_of res = l /\ map flag res = doc_apply k now l.
Proof.
  intros M H. apply apply_meets_spec_lemma in H. destruct H as [H1 H2].
  split; [assumption|]. rewrite H2. apply runs_are_periods_lemma. assumption.
Qed.

Definition raised (c c' : option Z) : Prop :=
  match c, c' with
  | None, _ => True
  | Some n, Some n' => n' < 0 \/ (0 <= n /\ n <= n')
  | Some _, None => False
  end.

Definition same_but_counts (k k' : keep) : Prop :=
  k_within k' = k_within k /\ k_tags k' = k_tags k /\ k_ids k' = k_ids k /\
  k_delete_unchanged k' = k_delete_unchanged k /\ forall p, raised (k_count k p) (k_count k' p).

Definition flags_le (a b : list bool) : Prop := Forall2 (fun x y => x = true -> y = true) a b.

Lemma stage_of_same k k' now sn rest :
  k_delete_unchanged k' = k_delete_unchanged k -> stage_of k' now sn rest = stage_of k now sn rest.
Proof. intro H. unfold stage_of. rewrite H. reflexivity. Qed.

Lemma reason_holds_raise L k k' latest seen prev sn rest r :
  same_but_counts k k' ->
  reason_holds L k latest seen prev sn rest r = true -> reason_holds L k' latest seen prev sn rest r = true.
Proof.
  intros (Hw & Ht & Hi & _ & Hc). destruct r as [| |p|p| |]; cbn [reason_holds]; rewrite ?Hi, ?Ht, ?Hw; auto.
  specialize (Hc p). unfold raised in Hc.
  destruct (L p prev sn rest), (k_count k p) as [n|], (k_count k' p) as [n'|]; try discriminate; try contradiction.
  cbn [andb]. lia.
Qed.

Lemma spec_go_raise L k k' now latest : same_but_counts k k' -> forall l seen prev,
  flags_le (spec_go L k now latest seen prev l) (spec_go L k' now latest seen prev l).
Proof.
  intros S. pose proof S as (_ & _ & _ & Hd & _).
  induction l as [|sn rest IH]; intros seen prev; [constructor|].
  cbn [spec_go]. unfold spec_keep, bump. rewrite (stage_of_same k k') by assumption. constructor; [|apply IH].
  destruct (stage_of k now sn rest); auto.
  unfold rules_keep. rewrite !existsb_exists. intros [r [Hin Hr]]. exists r.
  split; [assumption | eapply reason_holds_raise; eauto].
Qed.

Lemma adj_apply_raise k k' now l : same_but_counts k k' -> flags_le (adj_apply k now l) (adj_apply k' now l).
Proof. intro S. unfold adj_apply. destruct l as [|s0 l']; [constructor | apply spec_go_raise, S]. Qed.

Theorem raising_count_monotone_lemma k k' now l res res' :
  same_but_counts k k' ->
  apply_sorted k now l = Some res -> apply_sorted k' now l = Some res' ->
  flags_le (map flag res) (map flag res').
Proof.
  intros S H H'. apply apply_meets_spec_lemma in H. apply apply_meets_spec_lemma in H'.
  destruct H as [_ ->]. destruct H' as [_ ->]. apply adj_apply_raise, S.
Qed.

Lemma must_keep_src_eq s now : must_keep s now = must_keep_src (s_del s) now.
Proof. unfold must_keep, must_keep_src. destruct (s_del s); try reflexivity. lia. Qed.

Lemma must_delete_src_eq s now : must_delete s now = must_delete_src (s_del s) now.
Proof. reflexivity. Qed.

Lemma must_keep_iff s now :
  must_keep s now = true <-> s_del s = DNever \/ exists t, s_del s = DAfter t /\ now <= t.
Proof.
  unfold must_keep. destruct (s_del s) as [| |t].
  - split; [discriminate | intros [H|[t [H _]]]; discriminate].
  - split; auto.
  - rewrite Z.leb_le. split; [intro H; right; exists t; auto | intros [H|[t' [H H']]]; [discriminate | injection H as ->; assumption]].
Qed.

Lemma stage_of_marks k now sn rest :
  (must_keep sn now = true -> stage_of k now sn rest = SKeep) /\
  (must_keep sn now = false -> must_delete sn now = true -> stage_of k now sn rest = SDelete).
Proof. unfold stage_of. split; [intros -> | intros -> ->]; reflexivity. Qed.

Lemma walk_marks L k now latest : forall l seen prev sn kp rs,
  In (sn, kp, rs) (walk L k now latest seen prev l) ->
  (must_keep sn now = true -> kp = true) /\
  (must_keep sn now = false -> must_delete sn now = true -> kp = false).
Proof.
  induction l as [|a rest IH]; intros seen prev sn kp rs Hin; [inversion Hin|].
  destruct Hin as [Hin|Hin]; [|eapply IH; exact Hin].
  (* only the first two components are compared: taking the entry apart whole lets the
     conversion test evaluate the reasons *)
  apply (f_equal fst) in Hin. unfold entry in Hin. cbn [fst] in Hin. injection Hin as <- <-.
  unfold spec_keep. destruct (stage_of_marks k now a rest) as [MK MD].
  split; [intro H; rewrite (MK H) | intros H H'; rewrite (MD H H')]; reflexivity.
Qed.

(* the loop's entry at a position is the entry of the snapshot at that position *)
Lemma go_reasons k now latest : forall l cs seen prev pre sn rest e,
  inv_cs k cs seen ->
  l = pre ++ sn :: rest ->
  nth_error (go k now latest cs (hd_error prev) l) (length pre) = Some e ->
  snap_of e = sn.
Proof.
  intros l cs seen prev pre sn rest e _ -> H.
  pose proof (go_snaps k now latest (pre ++ sn :: rest) cs (hd_error prev)) as G.
  apply (f_equal (fun x => nth_error x (length pre))) in G.
  rewrite nth_error_map, H in G. cbn in G.
  rewrite nth_error_app2 in G by lia. rewrite Nat.sub_diag in G. cbn in G. congruence.
Qed.

(* The premises of the theorems are inhabited. *)
Definition mk_snap (inst : Z) (id : N) : snap :=
  {| s_inst := inst; s_offs := 0; s_id := [id]; s_tags := []; s_del := DNotSet; s_tree := id; s_host := 0; s_label := 0; s_paths := [] |}.
Definition ex_keep : keep :=
  {| k_count := fun p => match p with PMinute => Some 2 | PWeek => Some 2 | _ => None end;
     k_within := fun _ => None; k_tags := []; k_ids := []; k_none := false; k_delete_unchanged := false |}.
(* 2014-09-03/02/01 10:20:30 UTC, newest first: three different minutes *)
Definition ex_list := [mk_snap 1409739630 3; mk_snap 1409653230 2; mk_snap 1409566830 1].
Example ex_premises : keys_monotone ex_list = true /\ sorted_desc ex_list = true /\
  exists res, apply_sorted ex_keep 1500000000 ex_list = Some res /\ map flag res = [true; true; true].
Proof. split; [vm_compute; reflexivity|]. split; [vm_compute; reflexivity|]. eexists. split; vm_compute; reflexivity. Qed.
(* 2016-01-01, 2015-12-31 (same ISO week 2015-W53), 2015-12-20 *)
Definition ex_week := [mk_snap 1451606400 3; mk_snap 1451520000 2; mk_snap 1450569600 1].
Definition ex_keep_w : keep :=
  {| k_count := fun p => match p with PWeek => Some 2 | _ => None end;
     k_within := fun _ => None; k_tags := []; k_ids := []; k_none := false; k_delete_unchanged := false |}.
Example ex_week_ok : doc_apply ex_keep_w 1500000000 ex_week = [true; false; true]
  /\ exists res, apply_sorted ex_keep_w 1500000000 ex_week = Some res /\ map flag res = [true; false; true].
Proof. split; [vm_compute; reflexivity|]. eexists. split; vm_compute; reflexivity. Qed.
