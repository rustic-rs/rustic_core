(* C14 — the merge-walk of collect_and_prepare over a destination that holds nothing at a snapshot
   path (fresh destination or extras only): the invariant KInv and what the two moves of the walk,
   process_existing on an extra and process_node on a node, do to it. *)
From Verif.Base Require Import Tactics Lists.
From Verif.C14 Require Import Model Proofs Exact1 Exact2 Exact3 Exact4 Plan2.

Fixpoint files_of (ns : list nodeT) : list fileT :=
  match ns with
  | [] => []
  | (l, IFile bl _ _ _) :: t => (l, bl) :: files_of t
  | _ :: t => files_of t
  end.
Lemma files_of_app a b : files_of (a ++ b) = files_of a ++ files_of b.
Proof. induction a as [|[l [| |]] a IH]; simpl; rewrite ?IH; reflexivity. Qed.
Lemma files_of_in ns l bl : In (l, bl) (files_of ns) -> exists sz mt mo, In (l, IFile bl sz mt mo) ns.
Proof.
  induction ns as [|[l' it] t IH]; simpl; intros H; [destruct H|].
  assert (Ht : In (l, bl) (files_of t) -> exists sz mt mo, In (l, IFile bl sz mt mo) ((l', it) :: t))
    by (intros H0; destruct (IH H0) as (a & b & c & X); exists a, b, c; right; exact X).
  destruct it as [bl' sz mt mo| |]; auto.
  destruct H as [H|H]; [inv H; exists sz, mt, mo; left; reflexivity|auto].
Qed.
Lemma in_files_of ns l bl sz mt mo : In (l, IFile bl sz mt mo) ns -> In (l, bl) (files_of ns).
Proof.
  induction ns as [|[l' it] t IH]; simpl; intros H; [destruct H|].
  destruct H as [H|H].
  - inv H. left. reflexivity.
  - destruct it; simpl; auto.
Qed.
Lemma files_of_nodup ns : NoDup (map fst ns) -> NoDup (map fst (files_of ns)).
Proof.
  induction ns as [|[l it] t IH]; simpl; intros H; [constructor|]. inv H.
  destruct it; auto. simpl. constructor; [|auto].
  intros Hin. apply in_map_iff in Hin as ([l' bl'] & E & Hin). simpl in E. subst l'.
  apply files_of_in in Hin as (a & b & c & Hin). apply H2. apply in_map_iff. exists (l, IFile bl' a b c). auto.
Qed.

Lemma drop_under_in p : forall l d, In d l -> In d (drop_under p l) \/ is_prefix p (fst d) = true.
Proof.
  induction l as [|x t IH]; intros d H; [destruct H|]. simpl.
  destruct (is_prefix p (fst x)) eqn:E.
  - destruct H as [<-|H]; [right; assumption|auto].
  - left. assumption.
Qed.

Definition prefix_closed (nodes : list nodeT) : Prop :=
  forall x j, In x nodes -> 0 < j < length (fst x) -> exists mt mo, In (firstn j (fst x), IDir mt mo) nodes.

(* a path strictly below the root with a node path below it is that node's path or the path of a
   directory node *)
Lemma node_prefix droot (nodes : list nodeT) :
  prefix_closed nodes ->
  forall p y, strictly_under droot p = true -> In y nodes -> is_prefix p (Pn droot y) = true ->
  exists l, p = droot ++ l /\ (l = fst y \/ exists mt mo, In (l, IDir mt mo) nodes).
Proof.
  intros N3 p y Hsu Hy E. apply su_inv in Hsu as (l & Hl & ->). exists l. split; [reflexivity|].
  apply is_prefix_inv in E as [r E]. unfold Pn in E. rewrite <- app_assoc in E. apply app_inv_head in E.
  destruct r as [|a r]; [left; rewrite E; symmetry; apply app_nil_r|right].
  destruct (N3 y (length l) Hy) as (m & mo & Hz).
  { rewrite E, app_length. simpl. destruct l; [congruence|simpl; lia]. }
  rewrite E, firstn_app_exact in Hz by reflexivity. eauto.
Qed.
Lemma no_node_below droot (nodes : list nodeT) :
  prefix_closed nodes ->
  forall p, strictly_under droot p = true -> (forall y, In y nodes -> p <> Pn droot y) ->
  forall y, In y nodes -> is_prefix p (Pn droot y) = false.
Proof.
  intros N3 p Hsu Hn y Hy. destruct (is_prefix p (Pn droot y)) eqn:E; [exfalso|reflexivity].
  destruct (node_prefix droot nodes N3 p y Hsu Hy E) as (l & -> & [->|(m & mo & Hz)]); [apply (Hn y Hy)|apply (Hn _ Hz)]; reflexivity.
Qed.

Section Fresh.
Variables (o : opts) (droot : apath) (nodes : list nodeT).
Hypothesis N1 : NoDup (map fst nodes).
Hypothesis N2 : forall x, In x nodes -> fst x <> [].
Hypothesis N3 : prefix_closed nodes.

Definition nodepath (q : apath) : Prop := exists x, In x nodes /\ q = Pn droot x.
Definition extra_entry (d : apath * entry) : Prop :=
  strictly_under droot (fst d) = true /\ forall x, In x nodes -> is_prefix (fst d) (Pn droot x) = false.
Definition cov (dst : list (apath * entry)) (q : apath) : Prop :=
  exists d, In d dst /\ (q = fst d \/ (is_dir_entry (snd d) = true /\ is_prefix (fst d) q = true)).

Record KInv (done : list nodeT) (s : fs) (pl : plan) : Prop := mkK {
  k_dirs : dirs_ok droot s;
  k_nondir : forall x, In x nodes -> is_idir (snd x) = false -> fs_get s (Pn droot x) = None;
  k_dirish : forall x, In x nodes -> is_idir (snd x) = true -> fs_get s (Pn droot x) = None \/ isdir s (Pn droot x);
  k_done : forall x, In x done -> is_idir (snd x) = true -> isdir s (Pn droot x);
  k_plan : PlanInv pl (files_of done);
  k_sub : forall x, In x done -> In x nodes }.

(* with delete, a path that is no node path and is absent or still covered by a remaining walker
   entry (the entry itself, or a directory entry above it) stays so: at the end (dst' = []) absent *)
Definition Estep (s : fs) (dst : list (apath * entry)) (s' : fs) (dst' : list (apath * entry)) : Prop :=
  (o_delete o = false -> forall q, fs_get s q <> None -> fs_get s' q = fs_get s q) /\
  (o_delete o = true -> forall q, ~ nodepath q -> (fs_get s q = None \/ cov dst q) -> (fs_get s' q = None \/ cov dst' q)).

Lemma Estep_refl s dst : Estep s dst s dst.
Proof. split; auto. Qed.
Lemma Estep_comp s dst s' dst' s1 : Estep s dst s' dst' -> Estep s' dst' s1 [] -> Estep s dst s1 [].
Proof.
  intros [A1 A2] [B1 B2]. split.
  - intros Hd q Hq. rewrite B1; [apply A1; assumption|assumption|]. rewrite A1; assumption.
  - intros Hd q Hn Hq. apply B2; auto.
Qed.

Lemma pe_step done s pl d ds : KInv done s pl -> extra_entry d ->
  KInv done (fst (process_existing o s d ds)) pl /\
  Estep s (d :: ds) (fst (process_existing o s d ds)) (snd (process_existing o s d ds)).
Proof.
  intros [K1 K2 K3 K4 K5 K6] [Hsu Hnp]. unfold process_existing. cbn [fst snd].
  set (s' := if o_delete o then if is_dir_entry (snd d) then fs_del_tree s (fst d) else fs_del s (fst d) else s).
  set (ds' := if is_dir_entry (snd d) then drop_under (fst d) ds else ds).
  assert (Hnode : forall x, In x nodes -> fs_get s' (Pn droot x) = fs_get s (Pn droot x)).
  { intros x Hx. unfold s'. destruct (o_delete o); [|reflexivity]. destruct (is_dir_entry (snd d)).
    - apply fs_get_del_tree_other. apply Hnp. assumption.
    - apply fs_get_del_other. intros E. specialize (Hnp x Hx). rewrite E, is_prefix_refl in Hnp. discriminate. }
  assert (Hfr : frame droot s s').
  { unfold s'. destruct (o_delete o); [|apply frame_refl]. destruct (is_dir_entry (snd d)); [apply frame_del_tree|apply frame_del]; assumption. }
  assert (Hdir : forall x, In x nodes -> isdir s (Pn droot x) -> isdir s' (Pn droot x)).
  { intros x Hx (m & mo & H). exists m, mo. rewrite Hnode; assumption. }
  split.
  - constructor.
    + eapply dirs_ok_frame; eassumption.
    + intros x Hx Hi. rewrite Hnode by assumption. auto.
    + intros x Hx Hi. rewrite Hnode by assumption. destruct (K3 x Hx Hi); auto.
    + intros x Hx Hi. apply Hdir; [apply K6; assumption|auto].
    + assumption.
    + assumption.
  - split.
    + intros Hd q Hq. unfold s'. rewrite Hd. reflexivity.
    + intros Hd q Hn [Hq|(d0 & Hin & Hc)].
      * left. unfold s'. rewrite Hd. destruct (is_dir_entry (snd d)); apply fs_get_filter_keep_none; assumption.
      * unfold s', ds'. rewrite Hd. destruct Hin as [<-|Hin].
        -- left. destruct Hc as [->|[Hisd Hp]].
           ++ destruct (is_dir_entry (snd d)); [apply fs_get_del_tree_under, is_prefix_refl|apply fs_get_del_same].
           ++ rewrite Hisd. apply fs_get_del_tree_under. assumption.
        -- destruct (is_dir_entry (snd d)) eqn:Ed; [|right; exists d0; auto].
           destruct (drop_under_in (fst d) ds d0 Hin) as [H|H]; [right; exists d0; auto|].
           left. apply fs_get_del_tree_under. destruct Hc as [->|[_ Hp]]; [assumption|eapply is_prefix_trans; eassumption].
Qed.
Lemma pn_step done y rem s pl dst : nodes = done ++ y :: rem -> KInv done s pl ->
  exists s' pl', process_node o droot s pl (np (fst y)) (snd y) false = (OOk, s', pl') /\
    KInv (done ++ [y]) s' pl' /\ Estep s dst s' dst.
Proof.
  intros Hn [K1 K2 K3 K4 K5 K6].
  assert (Hy : In y nodes) by (rewrite Hn; apply in_or_app; right; left; reflexivity).
  assert (Hsub : forall x, In x (done ++ [y]) -> In x nodes).
  { intros x Hx. apply in_app_or in Hx as [Hx|[<-|[]]]; auto. }
  (* a node that is no directory leaves the file system as it is *)
  assert (Hstay : forall pl', is_idir (snd y) = false -> PlanInv pl' (files_of (done ++ [y])) -> KInv (done ++ [y]) s pl').
  { intros pl' Hi HP. constructor; auto. intros x Hx Hd. apply in_app_or in Hx as [Hx|[<-|[]]]; [auto|congruence]. }
  destruct y as [l it]. cbn [fst snd] in *. destruct it as [bl sz mt mo|mt mo|t].
  - exists s, (add_file o droot s pl (np l) bl sz mt). split; [reflexivity|]. split; [|apply Estep_refl].
    apply Hstay; [reflexivity|]. rewrite files_of_app. simpl.
    apply add_file_fresh; [assumption|]. apply (K2 (l, IFile bl sz mt mo) Hy eq_refl).
  - (* the directories create_dir_all may create are directory nodes *)
    assert (Hdn : forall q, ext_by droot l q -> exists z, In z nodes /\ q = Pn droot z /\ is_idir (snd z) = true).
    { intros q (j & Hj & ->). destruct (Nat.eq_dec j (length l)) as [->|Hne].
      - exists (l, IDir mt mo). rewrite firstn_all. auto.
      - destruct (N3 (l, IDir mt mo) j Hy ltac:(simpl; lia)) as (m1 & mo1 & Hz). exists (firstn j l, IDir m1 mo1). auto. }
    destruct (mkdir_all_spec droot s l K1) as (s' & E & M).
    { intros q Hq. destruct (Hdn q Hq) as (z & Hz & -> & Iz). apply (K3 z Hz Iz). }
    pose proof M as (M1 & M2 & M3).
    exists s', pl. split; [unfold process_node; rewrite dpath_np, E; reflexivity|].
    assert (Hnew : forall q, fs_get s q = None -> fs_get s' q <> None -> exists z, In z nodes /\ q = Pn droot z /\ is_idir (snd z) = true).
    { intros q Hq Hq'. destruct (M2 q Hq) as [X|[_ X]]; [congruence|exact (Hdn q X)]. }
    split; [constructor; auto|].
    + eapply dirs_ok_ext; eassumption.
    + intros x Hx Hi. destruct (fs_get s' (Pn droot x)) eqn:G; [|reflexivity]. exfalso.
      destruct (Hnew (Pn droot x) (K2 x Hx Hi) ltac:(congruence)) as (z & Hz & Ez & Iz).
      rewrite (node_eq droot nodes N1 x z Hx Hz Ez) in Hi. congruence.
    + intros x Hx Hi. apply (mkdirs_absent_or_dir _ _ _ _ M), K3; assumption.
    + intros x Hx Hi. apply in_app_or in Hx as [Hx|[<-|[]]].
      * destruct (K4 x Hx Hi) as (m1 & mo1 & G). exists m1, mo1. rewrite M1; [assumption|congruence].
      * apply M3. exists (length l). rewrite firstn_all. split; [|reflexivity].
        destruct l; [exfalso; apply (N2 _ Hy); reflexivity|simpl; lia].
    + rewrite files_of_app. simpl. rewrite app_nil_r. assumption.
    + split.
      * intros _ q Hq. apply M1. assumption.
      * intros _ q Hnp [Hq|Hc]; [|right; assumption]. left.
        destruct (fs_get s' q) eqn:G; [|reflexivity]. exfalso. apply Hnp.
        destruct (Hnew q Hq ltac:(congruence)) as (z & Hz & Ez & _). exists z. auto.
  - exists s, pl. split; [reflexivity|]. split; [|apply Estep_refl].
    apply Hstay; [reflexivity|]. rewrite files_of_app. simpl. rewrite app_nil_r. assumption.
Qed.

(* the parent of a node's path is the root or the path of a directory node *)
Lemma parent_dir_exists s x : dirs_ok droot s ->
  (forall z, In z nodes -> is_idir (snd z) = true -> isdir s (Pn droot z)) ->
  In x nodes -> dir_exists s (removelast (Pn droot x)) = true.
Proof.
  intros D Hd Hx. pose proof (N2 x Hx) as Hl. unfold Pn. rewrite removelast_app, removelast_firstn_len by assumption.
  destruct (Nat.eq_dec (pred (length (fst x))) 0) as [->|Hj].
  - simpl. rewrite app_nil_r, <- (firstn_all droot). apply D.
  - destruct (N3 x (pred (length (fst x))) Hx) as (m & mo & Hz); [destruct (fst x); [congruence|simpl in *; lia]|].
    destruct (Hd _ Hz eq_refl) as (m' & mo' & G). unfold Pn in G. simpl fst in G. unfold dir_exists. rewrite G.
    destruct (droot ++ _); reflexivity.
Qed.
End Fresh.
