(* C14 — packs read by restore_contents are among RestorePlan::to_packs (used by C16). *)
From Verif.Base Require Import Tactics.
From Verif.C14 Require Import Model Proofs.
Local Open Scope N_scope.

Lemma find_none_forallb {A} (f : A -> bool) l : find f l = None -> forallb (fun x => negb (f x)) l = true.
Proof. induction l; simpl; [reflexivity|]. destruct (f a); [discriminate|]. simpl. assumption. Qed.

Lemma dedup_adj_in x : forall l, In x l -> In x (dedup_adj l).
Proof.
  induction l as [|a [|b t] IH]; simpl; intros H; try assumption.
  destruct (a =? b) eqn:E.
  - apply IH. destruct H as [<-|H]; [left; apply N.eqb_eq in E; congruence|assumption].
  - destruct H as [<-|H]; [left; reflexivity|right; apply IH; assumption].
Qed.

Definition needed (e : key * (list N * list floc)) : bool :=
  forallb (fun fl => negb (fl_matches fl)) (snd (snd e)).

Lemma do_entry_reads c o droot names pre s sizes reads e s' sizes' reads' :
  do_entry c o droot names pre (Some (s, sizes, reads)) e = Some (s', sizes', reads') ->
  forall p, In p reads' -> In p reads \/ (needed e = true /\ p = fst (fst e)).
Proof.
  intros H p Hp. unfold do_entry in H. destruct e as [k [data fls]].
  destruct (filter (fun fl => negb (fl_matches fl)) fls) as [|fl0 dests]; [inv H; auto|].
  destruct (find fl_matches fls) as [fl|] eqn:Ef.
  - destruct (nth_name names (fl_idx fl)); [|discriminate].
    destruct (read_at _ _ _ _); [|discriminate].
    destruct (fold_left _ _ _) as [[s2 sz2]|]; inv H. auto.
  - destruct (fold_left _ _ _) as [[s2 sz2]|]; inv H.
    apply in_app_or in Hp as [Hp|[<-|[]]]; [auto|].
    right. split; [|reflexivity]. unfold needed. simpl. apply find_none_forallb. assumption.
Qed.

Lemma do_entries_reads c o droot names pre : forall r x x',
  fold_left (do_entry c o droot names pre) r (Some x) = Some x' ->
  forall p, In p (snd x') -> In p (snd x) \/ exists e, In e r /\ needed e = true /\ p = fst (fst e).
Proof.
  apply (fold_left_opt_ind _ (fun r x x' => forall p, In p (snd x') -> In p (snd x) \/ exists e, In e r /\ needed e = true /\ p = fst (fst e)));
    [reflexivity|auto|].
  intros e r [[s sizes] reads] [[s1 sz1] rd1] x' E IH p Hp.
  destruct (IH p Hp) as [H1|(e' & Hin & Hn)]; [|right; exists e'; split; [right|]; assumption].
  destruct (do_entry_reads _ _ _ _ _ _ _ _ _ _ _ _ E p H1) as [H2|Hn]; [auto|].
  right. exists e. split; [left; reflexivity|exact Hn].
Qed.

Lemma to_packs_covers_reads_lemma : forall c o droot roots s p,
  In p (r_reads (restore c o droot roots s)) -> In p (r_to_packs (restore c o droot roots s)).
Proof.
  intros c o droot roots s p. unfold restore.
  destruct (collect_and_prepare c o droot s (stream c roots)) as [[oc s1] pl].
  destruct oc; simpl; try tauto.
  destruct (restore_contents c o droot s1 pl) as [[oc2 s2] reads] eqn:E.
  assert (Hr : In p reads -> In p (to_packs pl)).
  { intros Hp. unfold restore_contents in E.
    destruct (create_empty droot s1 (pl_names pl) (pl_lengths pl)); [|inv E; destruct Hp].
    destruct (fold_left _ _ _) as [[[s3 sz] rd]|] eqn:E2; inv E; [|destruct Hp].
    destruct (do_entries_reads _ _ _ _ _ _ _ _ E2 p Hp) as [[]|(e & Hin & Hn & ->)].
    unfold to_packs. apply dedup_adj_in. apply in_map_iff. exists e. split; [reflexivity|].
    apply filter_In. split; assumption. }
  destruct oc2; simpl; assumption.
Qed.

Lemma set_length_new_is_zeros s p n s1 :
  p <> [] -> mkdir_all s (removelast p) = Some s1 -> fs_get s1 p = None ->
  set_length s p n = Some (fs_set s1 p (EFile (zeros (N.to_nat n)) new_mtime new_fmode)).
Proof. intros Hp Hm Hg. unfold set_length. destruct p; [congruence|]. rewrite Hm, Hg. reflexivity. Qed.
