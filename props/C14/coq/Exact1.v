(* C14 — slices and tiles of byte strings. *)
From Verif.Base Require Import Tactics.
From Verif.C14 Require Import Model.

Lemma nth_firstn_lt {A} (d : A) : forall n l x, x < n -> nth x (firstn n l) d = nth x l d.
Proof.
  induction n; intros l x H; [lia|]. destruct l; [destruct x; reflexivity|].
  simpl. destruct x; [reflexivity|]. apply IHn. lia.
Qed.
Lemma nth_skipn_add {A} (d : A) : forall n l x, nth x (skipn n l) d = nth (n + x) l d.
Proof.
  induction n; intros l x; [reflexivity|]. destruct l; simpl; [destruct x; reflexivity|]. apply IHn.
Qed.
Lemma slice_nth (d data : list N) st x : firstn (length data) (skipn st d) = data ->
  st <= x < st + length data -> nth x d 0%N = nth (x - st) data 0%N.
Proof.
  intros H Hx. rewrite <- H at 1. rewrite nth_firstn_lt, nth_skipn_add by lia. f_equal. lia.
Qed.
Lemma slice_ext (d data : list N) st : st + length data <= length d ->
  (forall x, st <= x < st + length data -> nth x d 0%N = nth (x - st) data 0%N) ->
  firstn (length data) (skipn st d) = data.
Proof.
  intros Hl H. apply (nth_ext _ _ 0%N 0%N); rewrite firstn_length, skipn_length; [lia|].
  intros y Hy. rewrite nth_firstn_lt, nth_skipn_add, H by lia. f_equal. lia.
Qed.

Lemma nth_zeros x n : nth x (zeros n) 0%N = 0%N.
Proof. apply nth_repeat. Qed.
Lemma zeros_length n : length (zeros n) = n.
Proof. apply repeat_length. Qed.
Lemma firstn_zeros k n : firstn k (zeros n) = zeros (Nat.min k n).
Proof. revert n. induction k; destruct n; simpl; try reflexivity. unfold zeros in *. simpl. rewrite IHk. reflexivity. Qed.
Lemma skipn_zeros k n : skipn k (zeros n) = zeros (n - k).
Proof. revert n. induction k; destruct n; simpl; try reflexivity. apply IHk. Qed.
Lemma zeros_app a b : zeros a ++ zeros b = zeros (a + b).
Proof. unfold zeros. symmetry. apply repeat_app. Qed.
Lemma all_zero_zeros d : all_zero d = true -> d = zeros (length d).
Proof.
  induction d; simpl; intros H; [reflexivity|]. apply andb_true_iff in H as [H1 H2].
  apply N.eqb_eq in H1. subst. unfold zeros in *. simpl. f_equal. auto.
Qed.
Lemma all_zero_nth d : all_zero d = true -> forall x, nth x d 0%N = 0%N.
Proof.
  induction d; simpl; intros H x; [destruct x; reflexivity|].
  apply andb_true_iff in H as [H1 H2]. apply N.eqb_eq in H1. destruct x; [assumption|auto].
Qed.

Lemma write_bytes_spec d off data : off + length data <= length d ->
  length (write_bytes d off data) = length d /\
  (forall x, off <= x < off + length data -> nth x (write_bytes d off data) 0%N = nth (x - off) data 0%N) /\
  (forall x, ~ off <= x < off + length data -> nth x (write_bytes d off data) 0%N = nth x d 0%N).
Proof.
  intros H. unfold write_bytes. replace (off - length d) with 0 by lia.
  change (zeros 0) with (@nil N). rewrite app_nil_r.
  assert (Hf : length (firstn off d) = off) by (apply firstn_length_le; lia).
  split; [rewrite !app_length, Hf, skipn_length; lia|]. split; intros x Hx.
  - rewrite app_nth2, Hf, app_nth1 by lia. reflexivity.
  - destruct (Nat.lt_ge_cases x off); [rewrite app_nth1 by lia; apply nth_firstn_lt; assumption|].
    rewrite app_nth2, Hf, app_nth2, nth_skipn_add by lia. f_equal. lia.
Qed.

Definition dlen (b : blob) : nat := length (b_data b).
Fixpoint blen (bl : list blob) : nat := match bl with [] => 0 | b :: t => dlen b + blen t end.
Definition econt (bl : list blob) : list N := concat (map b_data bl).

Lemma econt_length bl : length (econt bl) = blen bl.
Proof. unfold econt. induction bl; simpl; [reflexivity|]. rewrite app_length, IHbl. reflexivity. Qed.

Lemma tile_in_econt : forall bl k b, nth_error bl k = Some b ->
  blen (firstn k bl) + dlen b <= blen bl /\
  forall x, blen (firstn k bl) <= x < blen (firstn k bl) + dlen b ->
    nth x (econt bl) 0%N = nth (x - blen (firstn k bl)) (b_data b) 0%N.
Proof.
  induction bl as [|a bl IH]; intros k b H; [destruct k; discriminate|].
  unfold econt in *. destruct k; simpl in H |- *; unfold dlen in *.
  - inv H. split; [lia|]. intros x Hx. rewrite app_nth1 by lia. f_equal. lia.
  - destruct (IH _ _ H) as [H1 H2]. split; [lia|]. intros x Hx.
    rewrite app_nth2, H2 by lia. f_equal. lia.
Qed.
Lemma econt_covered : forall bl x, x < blen bl ->
  exists k b, nth_error bl k = Some b /\ blen (firstn k bl) <= x < blen (firstn k bl) + dlen b.
Proof.
  induction bl as [|a bl IH]; intros x H; simpl in H; [lia|].
  destruct (Nat.lt_ge_cases x (dlen a)).
  - exists 0, a. simpl. split; [reflexivity|lia].
  - destruct (IH (x - dlen a)) as (k & b & Hk & Hr); [lia|].
    exists (S k), b. simpl. split; [assumption|lia].
Qed.
Lemma blen_firstn_all bl : blen (firstn (length bl) bl) = blen bl.
Proof. rewrite firstn_all. reflexivity. Qed.

Definition isdir (s : fs) (p : apath) : Prop := exists m mo, fs_get s p = Some (EDir m mo).
