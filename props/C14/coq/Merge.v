(* C14 — the merge-walk of collect_and_prepare over arbitrary destinations: both listings are
   strictly sorted by the component-wise order; the walk classifies every destination entry once
   (match / extra / clash, or skipped below an extra or clashing directory entry) and visits every node
   once, in order; the events of the walk are strictly sorted by the paths they are about. *)
From Verif.Base Require Import Tactics Lists.
From Verif.C14 Require Import Model Proofs Exact2 Exact4 Exact5 Order.

Definition ltD (a b : apath * entry) : Prop := ncmp (fst a) (fst b) = Lt.
Definition ssD := StronglySorted ltD.

Lemma ins_sorted_ss x : forall l, ssD l -> ~ In (fst x) (map fst l) -> ssD (ins_sorted x l).
Proof.
  induction l as [|y t IH]; intros Hs Hn; simpl; [repeat constructor|]. inv Hs.
  destruct (ncmp (fst x) (fst y)) eqn:E.
  - exfalso. apply Hn. left. symmetry. apply ncmp_eq. assumption.
  - constructor; [constructor; assumption|]. constructor; [exact E|].
    eapply Forall_impl; [|exact H2]. intros z Hz. unfold ltD in *. eapply ncmp_trans; eassumption.
  - constructor.
    + apply IH; [assumption|]. intros H. apply Hn. right. assumption.
    + apply Forall_forall. intros z Hz. apply ins_sorted_in in Hz as [<-|Hz].
      * apply ncmp_gt_lt. assumption.
      * rewrite Forall_forall in H2. auto.
Qed.
Lemma sort_entries_ss l : NoDup (map fst l) -> ssD (sort_entries l).
Proof.
  induction l as [|a l IH]; simpl; intros H; [constructor|]. inv H. apply ins_sorted_ss; [auto|].
  intros Hin. apply H2. apply in_map_iff in Hin as (z & E & Hz). rewrite sort_entries_in in Hz.
  rewrite <- E. apply in_map. assumption.
Qed.
Lemma walk_ss droot s : NoDup (map fst s) -> ssD (walk droot s).
Proof. intros H. unfold walk. apply sort_entries_ss. apply NoDup_map_filter. assumption. Qed.

Lemma ssD_nodup l : ssD l -> NoDup l.
Proof.
  induction 1; constructor; auto. intros Hin. rewrite Forall_forall in H0. specialize (H0 a Hin).
  unfold ltD in H0. rewrite ncmp_refl in H0. discriminate.
Qed.
Lemma drop_under_sub p : forall l d, In d (drop_under p l) -> In d l.
Proof.
  induction l as [|x t IH]; intros d H; [destruct H|]. simpl in H.
  destruct (is_prefix p (fst x)); [right; auto|assumption].
Qed.
Lemma drop_under_len p : forall l, length (drop_under p l) <= length l.
Proof. induction l; simpl; [lia|]. destruct (is_prefix p (fst a)); simpl; lia. Qed.
Lemma drop_under_ss p : forall l, ssD l -> ssD (drop_under p l).
Proof. induction l; simpl; intros H; [constructor|]. inv H. destruct (is_prefix p (fst a)); auto. constructor; auto. Qed.

Inductive ev :=
| EvExtra (d : apath * entry)
| EvMatch (d : apath * entry) (y : nodeT)
| EvClash (d : apath * entry) (y : nodeT)
| EvNew (y : nodeT).

Definition skip (d : apath * entry) (ds : list (apath * entry)) :=
  if is_dir_entry (snd d) then drop_under (fst d) ds else ds.

Lemma skip_incl d ds : incl (skip d ds) ds.
Proof. unfold skip. destruct (is_dir_entry (snd d)); [intros x; apply drop_under_sub|apply incl_refl]. Qed.
Lemma skip_len d ds : length (skip d ds) <= length ds.
Proof. unfold skip. destruct (is_dir_entry (snd d)); [apply drop_under_len|lia]. Qed.
Lemma skip_ss d ds : ssD ds -> ssD (skip d ds).
Proof. unfold skip. destruct (is_dir_entry (snd d)); [apply drop_under_ss|auto]. Qed.
Lemma skip_in d ds x : In x ds -> In x (skip d ds) \/ (is_dir_entry (snd d) = true /\ is_prefix (fst d) (fst x) = true).
Proof.
  unfold skip. intros H. destruct (is_dir_entry (snd d)); [|auto].
  destruct (drop_under_in (fst d) ds x H); auto.
Qed.

Lemma before_all {A} (key : A -> apath) x l :
  StronglySorted (fun a b => ncmp (key a) (key b) = Lt) l ->
  (forall h, hd_error l = Some h -> ncmp x (key h) = Lt) -> forall z, In z l -> ncmp x (key z) = Lt.
Proof.
  intros Hs Hh z Hz. destruct Hs as [|h t Hs Hf]; [destruct Hz|]. specialize (Hh h eq_refl).
  destruct Hz as [<-|Hz]; [assumption|]. rewrite Forall_forall in Hf. eapply ncmp_trans; eauto.
Qed.

Lemma ss_key_inj {A} (key : A -> apath) l :
  StronglySorted (fun a b => ncmp (key a) (key b) = Lt) l ->
  forall x y, In x l -> In y l -> key x = key y -> x = y.
Proof.
  induction 1 as [|a l Hs IH Hf]; intros x y Hx Hy E; [destruct Hx|]. rewrite Forall_forall in Hf.
  destruct Hx as [<-|Hx]; destruct Hy as [<-|Hy]; auto; exfalso;
    [apply (ncmp_lt_neq _ _ (Hf y Hy))|apply (ncmp_lt_neq _ _ (Hf x Hx))]; congruence.
Qed.

Section Classify.
Variable droot : apath.

(* the control flow of collect_and_prepare's loop: what is compared is the pair of paths, by the
   component-wise order (Path::cmp) *)
Fixpoint classify (fuel : nat) (dst : list (apath * entry)) (rem : list nodeT) : list ev :=
  match fuel with
  | O => []
  | S f =>
    match dst, rem with
    | [], [] => []
    | d :: ds, [] => EvExtra d :: classify f (skip d ds) []
    | d :: ds, y :: ns =>
      match ncmp (fst d) (Pn droot y) with
      | Lt => EvExtra d :: classify f (skip d ds) rem
      | Eq => if type_mismatch (snd y) (snd d) then EvClash d y :: classify f (skip d ds) ns
              else EvMatch d y :: classify f ds ns
      | Gt => EvNew y :: classify f dst ns
      end
    | [], y :: ns => EvNew y :: classify f [] ns
    end
  end.

(* classify by cases: an event takes the first walker entry (and what the walker skips with it), the
   first node, or both *)
Lemma classify_ind (Q : list (apath * entry) -> list nodeT -> list ev -> Prop) :
  Q [] [] [] ->
  (forall d ds rem evs, (forall y, hd_error rem = Some y -> ncmp (fst d) (Pn droot y) = Lt) ->
     Q (skip d ds) rem evs -> Q (d :: ds) rem (EvExtra d :: evs)) ->
  (forall d ds y ns evs, fst d = Pn droot y -> type_mismatch (snd y) (snd d) = true ->
     Q (skip d ds) ns evs -> Q (d :: ds) (y :: ns) (EvClash d y :: evs)) ->
  (forall d ds y ns evs, fst d = Pn droot y -> type_mismatch (snd y) (snd d) = false ->
     Q ds ns evs -> Q (d :: ds) (y :: ns) (EvMatch d y :: evs)) ->
  (forall dst y ns evs, (forall d, hd_error dst = Some d -> ncmp (Pn droot y) (fst d) = Lt) ->
     Q dst ns evs -> Q dst (y :: ns) (EvNew y :: evs)) ->
  forall fuel dst rem, length dst + length rem < fuel -> Q dst rem (classify fuel dst rem).
Proof.
  intros H0 HX HC HM HN. induction fuel as [|fuel IH]; intros dst rem Hf; [lia|].
  destruct dst as [|d ds]; destruct rem as [|y ns]; cbn [classify].
  - exact H0.
  - apply HN; [discriminate|]. apply IH. simpl in *. lia.
  - apply HX; [discriminate|]. apply IH. pose proof (skip_len d ds). simpl in *. lia.
  - pose proof (skip_len d ds). destruct (ncmp (fst d) (Pn droot y)) eqn:Ec.
    + apply ncmp_eq in Ec. destruct (type_mismatch (snd y) (snd d)) eqn:Em; [apply HC|apply HM]; auto; apply IH; simpl in *; lia.
    + apply HX; [intros y' E; inv E; exact Ec|]. apply IH. simpl in *. lia.
    + apply HN; [intros d' E; inv E; apply ncmp_gt_lt, Ec|]. apply IH. simpl in *. lia.
Qed.

Definition ev_nodes (evs : list ev) : list nodeT :=
  flat_map (fun e => match e with EvExtra _ => [] | EvMatch _ y | EvClash _ y | EvNew y => [y] end) evs.
Definition ev_entries (evs : list ev) : list (apath * entry) :=
  flat_map (fun e => match e with EvExtra d | EvMatch d _ | EvClash d _ => [d] | EvNew _ => [] end) evs.
(* entries below which the walker does not descend *)
Definition ev_skippers (evs : list ev) : list (apath * entry) :=
  flat_map (fun e => match e with EvExtra d | EvClash d _ => if is_dir_entry (snd d) then [d] else [] | _ => [] end) evs.

Variable nodes : list nodeT.
Definition ltN (a b : nodeT) : Prop := ncmp (Pn droot a) (Pn droot b) = Lt.
Hypothesis NS : StronglySorted ltN nodes.
Hypothesis N3 : prefix_closed nodes.

Definition ev_ok (dst : list (apath * entry)) (rem : list nodeT) (e : ev) : Prop :=
  match e with
  | EvExtra d => In d dst /\ forall y, In y nodes -> fst d <> Pn droot y
  | EvMatch d y => In d dst /\ In y rem /\ fst d = Pn droot y /\ type_mismatch (snd y) (snd d) = false
  | EvClash d y => In d dst /\ In y rem /\ fst d = Pn droot y /\ type_mismatch (snd y) (snd d) = true
  | EvNew y => In y rem /\ forall d, In d dst -> fst d <> Pn droot y
  end.

Lemma ev_entries_in dst rem evs : Forall (ev_ok dst rem) evs -> forall d, In d (ev_entries evs) -> In d dst.
Proof.
  induction 1; simpl; intros d Hd; [destruct Hd|]. apply in_app_or in Hd as [Hd|Hd]; [|auto].
  destruct x; simpl in *; try (destruct Hd as [<-|[]]); tauto.
Qed.

Definition covered_by (evs : list ev) (d : apath * entry) : Prop :=
  In d (ev_entries evs) \/ exists d0, In d0 (ev_skippers evs) /\ d0 <> d /\ is_prefix (fst d0) (fst d) = true.
Lemma covered_by_cons e evs d : covered_by evs d -> covered_by (e :: evs) d.
Proof.
  intros [H|(d0 & H & Hn & Hp)]; [left|right; exists d0; split; [|auto]]; simpl; apply in_or_app; right; assumption.
Qed.
(* the head d of the walk has been classified by e, the classification goes on with skip d ds *)
Lemma covered_skip e d ds evs : Forall (ltD d) ds -> In d (ev_entries (e :: evs)) ->
  (is_dir_entry (snd d) = true -> In d (ev_skippers (e :: evs))) ->
  (forall x, In x (skip d ds) -> covered_by evs x) -> forall x, In x (d :: ds) -> covered_by (e :: evs) x.
Proof.
  intros H2 Hd Hsk D x [<-|Hx]; [left; assumption|].
  destruct (skip_in d ds x Hx) as [Hin|[Hdir Hp]]; [apply covered_by_cons; auto|].
  right. exists d. split; [auto|split; [|assumption]].
  intros ->. rewrite Forall_forall in H2. apply (ncmp_lt_neq _ _ (H2 _ Hx)). reflexivity.
Qed.

(* the path an event is about, and where its entry and node come from *)
Definition ev_key (e : ev) : apath :=
  match e with EvExtra d | EvMatch d _ | EvClash d _ => fst d | EvNew y => Pn droot y end.
Definition ltE (a b : ev) : Prop := ncmp (ev_key a) (ev_key b) = Lt.
Definition ev_src (dst : list (apath * entry)) (rem : list nodeT) (e : ev) : Prop :=
  match e with
  | EvExtra d => In d dst
  | EvMatch d y => In d dst /\ In y rem /\ fst d = Pn droot y /\ type_mismatch (snd y) (snd d) = false
  | EvClash d y => In d dst /\ In y rem /\ fst d = Pn droot y /\ type_mismatch (snd y) (snd d) = true
  | EvNew y => In y rem
  end.
(* one more event in front: it comes from the listings, and its path lies before whatever is left of them *)
Lemma sorted_cons e dst' rem' dst rem evs : incl dst' dst -> incl rem' rem -> ev_src dst rem e ->
  (forall d, In d dst' -> ncmp (ev_key e) (fst d) = Lt) -> (forall y, In y rem' -> ncmp (ev_key e) (Pn droot y) = Lt) ->
  Forall (ev_src dst' rem') evs /\ StronglySorted ltE evs ->
  Forall (ev_src dst rem) (e :: evs) /\ StronglySorted ltE (e :: evs).
Proof.
  intros Hd Hr He Kd Kr [B C]. split; (constructor; [assumption|]); (eapply Forall_impl; [|exact B]);
    unfold ltE; intros [d|d y|d y|y]; simpl; intuition.
Qed.

(* the merge of two strictly sorted listings: the events are strictly sorted by their paths *)
Lemma classify_sorted : forall fuel dst rem, length dst + length rem < fuel -> ssD dst -> StronglySorted ltN rem ->
  ev_nodes (classify fuel dst rem) = rem /\
  (Forall (ev_src dst rem) (classify fuel dst rem) /\ StronglySorted ltE (classify fuel dst rem)) /\
  (forall d, In d dst -> covered_by (classify fuel dst rem) d).
Proof.
  intros fuel dst rem Hf. pattern dst, rem, (classify fuel dst rem).
  apply classify_ind; [| | | | |exact Hf]; clear fuel dst rem Hf.
  - intros _ _. split; [reflexivity|]. split; [split; constructor|intros d []].
  - intros d ds rem evs Hlt IH Hs Hr. apply StronglySorted_inv in Hs as [H1 H2].
    destruct (IH (skip_ss _ _ H1) Hr) as (A & B & D). split; [exact A|]. split.
    + apply (sorted_cons _ (skip d ds) rem); auto using incl_refl, incl_tl, skip_incl; [left; reflexivity| |exact (before_all (Pn droot) _ _ Hr Hlt)].
      intros x Hx. rewrite Forall_forall in H2. apply H2, (skip_incl d ds), Hx.
    + apply covered_skip; auto; simpl; [left; reflexivity|intros ->; left; reflexivity].
  - intros d ds y ns evs Ec Em IH Hs Hr. apply StronglySorted_inv in Hs as [H1 H2]. apply StronglySorted_inv in Hr as [H3 H4].
    destruct (IH (skip_ss _ _ H1) H3) as (A & B & D). split; [simpl; rewrite A; reflexivity|]. split.
    + rewrite Forall_forall in H2, H4.
      apply (sorted_cons _ (skip d ds) ns); auto using incl_refl, incl_tl, skip_incl; simpl; [auto 6 with datatypes| |].
      * intros x Hx. apply H2, (skip_incl d ds), Hx.
      * intros y' Hy'. rewrite Ec. apply H4, Hy'.
    + apply covered_skip; auto; simpl; [left; reflexivity|intros ->; left; reflexivity].
  - intros d ds y ns evs Ec Em IH Hs Hr. apply StronglySorted_inv in Hs as [H1 H2]. apply StronglySorted_inv in Hr as [H3 H4].
    destruct (IH H1 H3) as (A & B & D). split; [simpl; rewrite A; reflexivity|]. split.
    + rewrite Forall_forall in H2, H4.
      apply (sorted_cons _ ds ns); auto using incl_refl, incl_tl; simpl; [auto 6 with datatypes|].
      intros y' Hy'. rewrite Ec. apply H4, Hy'.
    + intros x [<-|Hx]; [left; left; reflexivity|apply covered_by_cons, D, Hx].
  - intros dst y ns evs Hlt IH Hs Hr. apply StronglySorted_inv in Hr as [H3 H4].
    destruct (IH Hs H3) as (A & B & D). split; [simpl; rewrite A; reflexivity|]. split.
    + rewrite Forall_forall in H4.
      apply (sorted_cons _ dst ns); auto using incl_refl, incl_tl; [left; reflexivity|exact (before_all fst _ _ Hs Hlt)].
    + intros x Hx. apply covered_by_cons, D, Hx.
Qed.

Lemma entries_sorted evs : StronglySorted ltE evs -> ssD (ev_entries evs).
Proof.
  induction 1 as [|e evs _ IH Hf]; [constructor|].
  assert (Hd : forall d, ev_key e = fst d -> ssD (d :: ev_entries evs)).
  { intros d Ed. constructor; [exact IH|]. apply Forall_forall. intros d' Hd'. apply in_flat_map in Hd' as (e' & He' & Hd').
    rewrite Forall_forall in Hf. specialize (Hf e' He'). unfold ltE in Hf. unfold ltD. rewrite <- Ed.
    destruct e'; simpl in Hd'; intuition (subst; auto). }
  destruct e; simpl; auto.
Qed.

(* two events about the same path are one event: none but EvExtra d is about d's path *)
Lemma extra_not_node dst rem evs d y : Forall (ev_src dst rem) evs -> StronglySorted ltE evs ->
  In (EvExtra d) evs -> In y (ev_nodes evs) -> fst d <> Pn droot y.
Proof.
  intros B C Hd Hy E. apply in_flat_map in Hy as (e & He & Hy). rewrite Forall_forall in B. specialize (B e He).
  assert (Ee : e = EvExtra d) by (apply (ss_key_inj ev_key _ C); auto; destruct e; simpl in *; intuition congruence).
  subst e. destruct Hy.
Qed.

Lemma node_above_is_dir y y' : In y nodes -> In y' nodes -> strictly_under droot (Pn droot y) = true ->
  is_prefix (Pn droot y) (Pn droot y') = true -> Pn droot y <> Pn droot y' -> is_idir (snd y) = true.
Proof.
  intros Hy Hy' Hsu Hp Hd.
  destruct (node_prefix droot nodes N3 _ y' Hsu Hy' Hp) as (l & E & [->|(m & mo & Hz)]); [contradiction|].
  rewrite (ss_key_inj (Pn droot) nodes NS y _ Hy Hz E). reflexivity.
Qed.

Lemma classify_spec fuel dst : length dst + length nodes < fuel -> ssD dst ->
  (forall d, In d dst -> strictly_under droot (fst d) = true) ->
  ev_nodes (classify fuel dst nodes) = nodes /\ Forall (ev_ok dst nodes) (classify fuel dst nodes) /\
  ssD (ev_entries (classify fuel dst nodes)) /\ (forall d, In d dst -> covered_by (classify fuel dst nodes) d).
Proof.
  intros Hf Hs Hsu. destruct (classify_sorted fuel dst nodes Hf Hs NS) as (A & [B C] & D).
  split; [exact A|]. split; [|split; [apply entries_sorted, C|exact D]].
  assert (Hex : forall d y, In (EvExtra d) (classify fuel dst nodes) -> In y nodes -> fst d <> Pn droot y).
  { intros d y Hd Hy. rewrite <- A in Hy. exact (extra_not_node _ _ _ d y B C Hd Hy). }
  rewrite Forall_forall in B. apply Forall_forall. intros e He. pose proof (B e He) as Be.
  destruct e as [d|d y|d y|y]; simpl in *; try exact Be.
  - split; [exact Be|]. intros y. apply Hex, He.
  - (* a walker entry d at y's path is classified by EvNew y itself, or skipped below a directory entry d0 *)
    split; [exact Be|]. intros d Hd E. destruct (D d Hd) as [Hin|(d0 & H0 & Hne & Hp)].
    + apply in_flat_map in Hin as (e' & He' & Hd').
      assert (Ee : e' = EvNew y) by (apply (ss_key_inj ev_key _ C); auto; destruct e'; simpl in *; intuition congruence).
      subst e'. destruct Hd'.
    + apply in_flat_map in H0 as (e0 & He0 & H0). pose proof (B e0 He0) as B0. rewrite E in Hp.
      destruct e0 as [d1|d1 y1|d1 y1|y1]; simpl in H0, B0; try destruct H0;
        (destruct (is_dir_entry (snd d1)) eqn:Ed; [destruct H0 as [->|[]]|destruct H0]).
      * (* below an extra directory there is no node path *)
        rewrite (no_node_below droot nodes N3 (fst d0)) in Hp; [discriminate|apply Hsu, B0|intros y'; apply Hex, He0|exact Be].
      * (* a node below y1 makes y1 a directory, and a directory entry does not clash with it *)
        destruct B0 as (I1 & I2 & Ec & Em). rewrite Ec in Hp.
        assert (Hid : is_idir (snd y1) = true).
        { apply (node_above_is_dir y1 y I2 Be); [rewrite <- Ec; apply Hsu, I1|exact Hp|].
          intros E'. apply Hne, (ss_key_inj fst dst Hs); auto. congruence. }
        unfold type_mismatch in Em. destruct (snd y1); try discriminate. simpl in Em. rewrite Ed in Em. discriminate.
Qed.
End Classify.
