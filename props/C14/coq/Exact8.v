(* C14 — the node stream of a tree whose names are single normal components is the pre-order
   flattening of the tree. *)
From Verif.Base Require Import Tactics.
From Verif.C14 Require Import Model Proofs Exact4.

Fixpoint flat_node (pre : list name) (n : node) : list nodeT :=
  match n with
  | Node nm it ch =>
    match nm with
    | mkP false [CNormal a] =>
      (pre ++ [a], it) ::
      (if is_idir it
       then (fix go (ch : list node) : list nodeT :=
               match ch with [] => [] | x :: cs => flat_node (pre ++ [a]) x ++ go cs end) ch
       else [])
    | _ => []
    end
  end.
Fixpoint flat_list (pre : list name) (ch : list node) : list nodeT :=
  match ch with [] => [] | x :: cs => flat_node pre x ++ flat_list pre cs end.
(* every name (of the nodes the streamer visits) is a single normal component *)
Fixpoint nnb (n : node) : bool :=
  match n with Node nm it ch => name_ok nm && (if is_idir it then forallb nnb ch else true) end.

Lemma flat_go_eq p : forall ch,
  (fix go (ch : list node) : list nodeT :=
     match ch with [] => [] | x :: cs => flat_node p x ++ go cs end) ch = flat_list p ch.
Proof. induction ch; simpl; [reflexivity|]. rewrite IHch. reflexivity. Qed.

Lemma stream_flat_gen c :
  (forall n pre, nnb n = true -> stream_node c (np pre) n = (map toO (flat_node pre n), np pre)) /\
  (forall l pre, forallb nnb l = true -> stream_list c (np pre) l = (map toO (flat_list pre l), np pre)).
Proof.
  apply node_list_ind.
  - intros nm it ch IH pre H. simpl in H. apply andb_true_iff in H as [Hn Hc]. destruct (name_ok_np _ Hn) as [a ->].
    cbn [stream_node]. rewrite Hn, andb_false_r, pjoin_np, stream_go_eq.
    change (np [a]) with (mkP false [CNormal a]). cbn [flat_node]. rewrite flat_go_eq.
    destruct (is_idir it); [|reflexivity].
    rewrite (IH _ Hc), ppop_np, removelast_last. reflexivity.
  - reflexivity.
  - intros x t IHx IHt pre Hb. simpl in Hb. apply andb_true_iff in Hb as [Hx Ht].
    simpl. rewrite (IHx _ Hx), (IHt _ Ht), map_app. reflexivity.
Qed.

Lemma stream_flat c roots : forallb nnb roots = true -> stream c roots = map toO (flat_list [] roots).
Proof. intros H. unfold stream. change pempty with (np []). rewrite (proj2 (stream_flat_gen c) _ _ H). reflexivity. Qed.
