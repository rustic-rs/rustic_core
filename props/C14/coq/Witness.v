(* C14 — concrete witnesses (evaluated by vm_compute): what the model of the tree as it was found
   (cfg all false) does on the inputs that violate the property, and what the model of the
   repaired code does on the same inputs.  Every witness is replayed on the real code by the
   check (harness/src/bin/c14.rs, modes `hostile` and `model`). *)
From Verif.Base Require Import Tactics.
From Verif.C14 Require Import Model.
Local Open Scope N_scope.

Definition cfg_found : cfg := mkC false false false.
Definition cfg_fixed : cfg := mkC true true true.

(* world: /1 (dir), /1/2 = destination (dir), /1/9 = sentinel file next to the destination *)
Definition droot0 : apath := [1; 2].
Definition sentinel : apath := [1; 9].
Definition world0 : fs :=
  [([1], EDir 5 493); ([1; 2], EDir 5 493); (sentinel, EFile [42; 42] 7 420)].
Definition nm (n : N) : pbuf := mkP false [CNormal n].
Definition o_plain := mkO false false false.
Definition o_delete_ := mkO true false false.
Definition o_sparse_ := mkO false false true.
Definition blob1 (d : list N) : blob := mkB 100 0 d.
Definition file1 (n : pbuf) (d : list N) : node := Node n (IFile [blob1 d] (nlen d) 1000 420) [].

Definition hostile_parent : list node := [file1 (mkP false [CParent; CNormal 9]) [1; 2; 3]].
Definition hostile_abs : list node := [file1 (mkP true [CNormal 1; CNormal 8]) [1; 2; 3]].
Definition hostile_dotdot_dir : list node :=
  [Node (mkP false [CParent]) (IDir 1000 493) [file1 (nm 8) [4]]].

Definition world_dir_for_file : fs := world0 ++ [([1; 2; 5], EDir 5 493); ([1; 2; 5; 6], EFile [9] 5 420)].
Definition snap_file5 : list node := [file1 (nm 5) [1; 2; 3]].
Definition world_file_for_dir : fs := world0 ++ [([1; 2; 5], EFile [9] 5 420)].
Definition snap_dir5_with_child : list node := [Node (nm 5) (IDir 1000 493) [file1 (nm 6) [1]]].
Definition snap_empty_dir5 : list node := [Node (nm 5) (IDir 1000 493) []].
Definition world_other_link : fs := world0 ++ [([1; 2; 7], ELink 1)].
Definition snap_link7 : list node := [Node (nm 7) (ILink 2) []].
Definition world_file_for_link : fs := world0 ++ [([1; 2; 7], EFile [9] 5 420)].

(* an existing file of the snapshot's size with other bytes and another mtime: compared, not accepted *)
Definition world_old_bytes : fs := world0 ++ [([1; 2; 5], EFile [7; 7] 5 420)].
Definition snap_zero_file : list node := [file1 (nm 5) [0; 0]].

Definition get_after (c : cfg) (o : opts) (roots : list node) (s : fs) (p : apath) :=
  fs_get (r_fs (restore c o droot0 roots s)) p.
Definition out_of (c : cfg) (o : opts) (roots : list node) (s : fs) := r_out (restore c o droot0 roots s).

Lemma w_hostile_parent_found :
  out_of cfg_found o_plain hostile_parent world0 = OOk /\
  get_after cfg_found o_plain hostile_parent world0 sentinel = Some (EFile [1; 2; 3] 1000 420).
Proof. vm_compute. split; reflexivity. Qed.
Lemma w_hostile_abs_found :
  out_of cfg_found o_plain hostile_abs world0 = OOk /\
  fs_get world0 [1; 8] = None /\
  get_after cfg_found o_plain hostile_abs world0 [1; 8] = Some (EFile [1; 2; 3] 1000 420).
Proof. vm_compute. repeat split; reflexivity. Qed.
Lemma w_hostile_dotdot_dir_found :
  get_after cfg_found o_plain hostile_dotdot_dir world0 [1; 8] = Some (EFile [4] 1000 420).
Proof. vm_compute. reflexivity. Qed.
Lemma w_hostile_fixed :
  restore cfg_fixed o_plain droot0 hostile_parent world0 = mkR OErr world0 [] [] /\
  restore cfg_fixed o_plain droot0 hostile_abs world0 = mkR OErr world0 [] [] /\
  restore cfg_fixed o_plain droot0 hostile_dotdot_dir world0 = mkR OErr world0 [] [].
Proof. vm_compute. repeat split; reflexivity. Qed.

Lemma w_dir_for_file : forall c, out_of c o_plain snap_file5 world_dir_for_file = OPanic.
Proof. intros [[] [] []]; vm_compute; reflexivity. Qed.
Lemma w_file_for_dir : forall c, out_of c o_plain snap_dir5_with_child world_file_for_dir = OPanic.
Proof. intros [[] [] []]; vm_compute; reflexivity. Qed.
Lemma w_symlink_kept : forall c,
  out_of c o_plain snap_link7 world_other_link = OOk /\
  get_after c o_plain snap_link7 world_other_link [1; 2; 7] = Some (ELink 1).
Proof. intros [[] [] []]; vm_compute; split; reflexivity. Qed.
Lemma w_file_for_link_kept : forall c,
  out_of c o_plain snap_link7 world_file_for_link = OOk /\
  get_after c o_plain snap_link7 world_file_for_link [1; 2; 7] = Some (EFile [9] 5 420).
Proof. intros [[] [] []]; vm_compute; split; reflexivity. Qed.
Lemma w_clash_with_delete :
  get_after cfg_fixed o_delete_ snap_file5 world_dir_for_file [1; 2; 5] = Some (EFile [1; 2; 3] 1000 420) /\
  get_after cfg_fixed o_delete_ snap_file5 world_dir_for_file [1; 2; 5; 6] = None /\
  get_after cfg_fixed o_delete_ snap_link7 world_other_link [1; 2; 7] = Some (ELink 2) /\
  get_after cfg_fixed o_delete_ snap_dir5_with_child world_file_for_dir [1; 2; 5; 6] = Some (EFile [1] 1000 420).
Proof. vm_compute. repeat split; reflexivity. Qed.

Lemma w_empty_dir_fixed :
  get_after cfg_fixed o_delete_ snap_empty_dir5 world_file_for_dir [1; 2; 5] = Some (EDir 1000 493).
Proof. vm_compute. reflexivity. Qed.

Lemma w_sparse_found :
  out_of cfg_found o_sparse_ snap_zero_file world_old_bytes = OOk /\
  get_after cfg_found o_sparse_ snap_zero_file world_old_bytes [1; 2; 5] = Some (EFile [7; 7] 1000 420) /\
  get_after cfg_found o_plain snap_zero_file world_old_bytes [1; 2; 5] = Some (EFile [0; 0] 1000 420).
Proof. vm_compute. repeat split; reflexivity. Qed.
Lemma w_sparse_fixed :
  get_after cfg_fixed o_sparse_ snap_zero_file world_old_bytes [1; 2; 5] = Some (EFile [0; 0] 1000 420).
Proof. vm_compute. reflexivity. Qed.
