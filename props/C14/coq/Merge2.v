(* C14 — collect_and_prepare IS the interpretation of the classification (same control flow); the
   assembled statement merge_walk_classifies_nodes for arbitrary destinations; and, for
   destinations that hold nothing at a snapshot path, the run of the events (extras and new nodes
   only) with restore_contents and the metadata pass after it: restore_exact_fresh_dest_lemma. *)
From Verif.Base Require Import Tactics.
From Verif.C14 Require Import Model Proofs Exact1 Exact2 Exact3 Exact4 Plan2 Exact5 Order Merge.

Section Run.
Variables (c : cfg) (o : opts) (droot : apath).

(* what process_existing does to the file system (the walker part is Merge.skip) *)
Definition pe_fs (s : fs) (d : apath * entry) : fs := fst (process_existing o s d []).
Lemma process_existing_split s d ds : process_existing o s d ds = (pe_fs s d, skip d ds).
Proof. reflexivity. Qed.

Fixpoint run (evs : list ev) (s : fs) (pl : plan) : outcome * fs * plan :=
  match evs with
  | [] => (OOk, s, pl)
  | EvExtra d :: t => run t (pe_fs s d) pl
  | EvMatch d y :: t =>
    match process_node o droot s pl (np (fst y)) (snd y) true with
    | (OOk, s2, pl2) => run t s2 pl2 | other => other end
  | EvClash d y :: t =>
    match process_node o droot (pe_fs s d) pl (np (fst y)) (snd y) (if c_exists c then negb (o_delete o) else true) with
    | (OOk, s2, pl2) => run t s2 pl2 | other => other end
  | EvNew y :: t =>
    match process_node o droot s pl (np (fst y)) (snd y) false with
    | (OOk, s2, pl2) => run t s2 pl2 | other => other end
  end.

Local Opaque process_existing process_node.
Lemma collect_is_run : forall fuel s pl dst rem, length dst + length rem < fuel ->
  collect c fuel o droot s pl dst (map toO rem) = run (classify droot fuel dst rem) s pl.
Proof.
  induction fuel as [|fuel IH]; intros s pl dst rem Hf; [lia|].
  destruct dst as [|d ds]; destruct rem as [|y ns]; cbn [map toO toS collect classify run].
  - reflexivity.
  - destruct (process_node o droot s pl (np (fst y)) (snd y) false) as [[[] s2] pl2]; try reflexivity.
    apply IH. simpl in *. lia.
  - rewrite process_existing_split. apply (IH _ _ _ []). pose proof (skip_len d ds). simpl in *. lia.
  - rewrite merge_cmp_is_ncmp. destruct (ncmp (fst d) (Pn droot y)) eqn:Ec.
    + destruct (type_mismatch (snd y) (snd d)) eqn:Em; cbn [run andb].
      * rewrite process_existing_split.
        destruct (process_node o droot (pe_fs s d) pl (np (fst y)) (snd y) (if c_exists c then negb (o_delete o) else true)) as [[[] s2] pl2]; try reflexivity.
        apply IH. pose proof (skip_len d ds). simpl in *. lia.
      * destruct (process_node o droot s pl (np (fst y)) (snd y) true) as [[[] s2] pl2]; try reflexivity.
        apply IH. simpl in *. lia.
    + cbn [run]. rewrite process_existing_split. apply (IH _ _ _ (y :: ns)). pose proof (skip_len d ds). simpl in *. lia.
    + cbn [run]. destruct (process_node o droot s pl (np (fst y)) (snd y) false) as [[[] s2] pl2]; try reflexivity.
      apply (IH _ _ (d :: ds)). simpl in *. lia.
Qed.
Local Transparent process_existing process_node.
End Run.

(* no entry of another type stands at a snapshot path, unless delete is set (an identical symlink
   is "replaced" by the same symlink and counts as the same type) *)
Definition SameTypeOrDelete (o : opts) (droot : apath) (nodes : list nodeT) (s : fs) : Prop :=
  forall d y, In d (walk droot s) -> In y nodes -> fst d = Pn droot y -> type_mismatch (snd y) (snd d) = true ->
    o_delete o = true \/ exists t, snd y = ILink t /\ snd d = ELink t.

Lemma ss_ltN droot nodes : StronglySorted (fun p q => ncmp p q = Lt) (map fst nodes) -> StronglySorted (ltN droot) nodes.
Proof.
  induction nodes as [|a l IH]; simpl; intros H; [constructor|]. inv H. constructor; [auto|].
  apply Forall_forall. intros b Hb. rewrite Forall_forall in H3. unfold ltN, Pn. rewrite ncmp_app_head.
  apply H3. apply in_map. assumption.
Qed.

Theorem merge_walk_classifies_nodes : forall c o droot nodes s,
  StronglySorted (ltN droot) nodes ->
  prefix_closed nodes ->
  NoDup (map fst s) ->
  let dst := walk droot s in
  let evs := classify droot (S (length dst + length nodes)) dst nodes in
  ssD dst /\
  collect_and_prepare c o droot s (map toO nodes) = run c o droot evs s plan0 /\
  ev_nodes evs = nodes /\
  Forall (ev_ok droot nodes dst nodes) evs /\
  ssD (ev_entries evs) /\
  (forall d, In d dst -> covered_by evs d) /\
  (SameTypeOrDelete o droot nodes s ->
   forall d y, In (EvClash d y) evs -> o_delete o = true \/ exists t, snd y = ILink t /\ snd d = ELink t).
Proof.
  intros c o droot nodes s NS N3 Hnd dst evs.
  assert (Hs : ssD dst) by (apply walk_ss; assumption).
  destruct (classify_spec droot nodes NS N3 (S (length dst + length nodes)) dst) as (A & B & C & D); auto.
  { intros d Hd. apply (walk_in droot s d), Hd. }
  split; [exact Hs|]. split.
  - unfold collect_and_prepare. rewrite map_length. apply collect_is_run. fold dst. lia.
  - split; [exact A|]. split; [exact B|]. split; [exact C|]. split; [exact D|].
    intros HST d y Hin. rewrite Forall_forall in B. specialize (B _ Hin). simpl in B.
    destruct B as (B1 & B2 & B3 & B4). apply (HST d y); auto.
Qed.

Section Fresh.
Variables (o : opts) (droot : apath) (nodes : list nodeT) (c : cfg).
Hypothesis N1 : NoDup (map fst nodes).
Hypothesis N2 : forall x, In x nodes -> fst x <> [].
Hypothesis N3 : prefix_closed nodes.

(* no walker entry stands at a snapshot path: the events are EvExtra and EvNew only, and from any
   point of the walk the run ends Ok with the invariant for all nodes *)
Lemma run_extras_only : forall fuel dst rem, length dst + length rem < fuel ->
  forall done s pl, nodes = done ++ rem -> KInv droot nodes done s pl ->
  (forall d, In d dst -> extra_entry droot nodes d) ->
  exists s1 pl1, run c o droot (classify droot fuel dst rem) s pl = (OOk, s1, pl1) /\
    KInv droot nodes nodes s1 pl1 /\ Estep o droot nodes s dst s1 [].
Proof.
  assert (Hno : forall d y done ns, fst d = Pn droot y -> nodes = done ++ y :: ns -> ~ extra_entry droot nodes d).
  { intros d y done ns E Hn [_ Hp]. specialize (Hp y). rewrite E, is_prefix_refl in Hp.
    discriminate Hp. rewrite Hn. apply in_or_app. right. left. reflexivity. }
  intros fuel dst rem Hf. pattern dst, rem, (classify droot fuel dst rem).
  apply classify_ind; [| | | | |exact Hf]; clear fuel dst rem Hf.
  - intros done s pl Hn HK _. rewrite app_nil_r in Hn. subst done.
    exists s, pl. split; [reflexivity|]. split; [assumption|apply Estep_refl].
  - intros d ds rem evs _ IH done s pl Hn HK Hx.
    destruct (pe_step o droot nodes done s pl d ds HK (Hx d (or_introl eq_refl))) as [HK' Es].
    destruct (IH done (pe_fs o s d) pl Hn HK') as (s1 & pl1 & E1 & HK1 & Es1).
    { intros d' Hd'. apply Hx. right. apply (skip_incl d ds), Hd'. }
    exists s1, pl1. split; [exact E1|]. split; [assumption|eapply Estep_comp; eassumption].
  - (* an entry at a node's path is no extra *)
    intros d ds y ns evs Ec _ _ done s pl Hn _ Hx. destruct (Hno d y done ns Ec Hn (Hx d (or_introl eq_refl))).
  - intros d ds y ns evs Ec _ _ done s pl Hn _ Hx. destruct (Hno d y done ns Ec Hn (Hx d (or_introl eq_refl))).
  - intros dst y ns evs _ IH done s pl Hn HK Hx.
    destruct (pn_step o droot nodes N1 N2 N3 done y ns s pl dst Hn HK) as (s' & pl' & E & HK' & Es).
    destruct (IH (done ++ [y]) s' pl') as (s1 & pl1 & E1 & HK1 & Es1);
      [rewrite <- app_assoc; exact Hn|assumption|assumption|].
    exists s1, pl1. cbn [run]. rewrite E. split; [exact E1|]. split; [assumption|eapply Estep_comp; eassumption].
Qed.

Hypothesis N4 : consistent (files_of nodes).

Theorem restore_exact_fresh_dest_lemma roots s :
  stream c roots = map toO nodes -> dirs_ok droot s ->
  (forall x, In x nodes -> fs_get s (Pn droot x) = None) ->
  r_out (restore c o droot roots s) = OOk /\
  (forall x, In x nodes -> good droot (r_fs (restore c o droot roots s)) x) /\
  (forall q e, strictly_under droot q = true -> fs_get s q = Some e ->
     if o_delete o then fs_get (r_fs (restore c o droot roots s)) q = None
     else fs_get (r_fs (restore c o droot roots s)) q = Some e).
Proof.
  intros Hst Hok Hfree. unfold restore, collect_and_prepare. rewrite Hst.
  assert (HK0 : KInv droot nodes [] s plan0).
  { constructor; auto; [intros x []|apply PlanInv0|intros x []]. }
  assert (Hex : forall d, In d (walk droot s) -> extra_entry droot nodes d).
  { intros d Hd. apply walk_in in Hd as [Hin Hsu]. split; [assumption|]. apply (no_node_below droot nodes N3); [assumption|].
    intros y Hy E. destruct d as [q e]. apply (in_fs_get _ _ _ Hin). simpl in E. rewrite E. apply (Hfree y Hy). }
  rewrite map_length, collect_is_run by lia.
  destruct (run_extras_only _ (walk droot s) nodes (Nat.lt_succ_diag_r _) [] s plan0 eq_refl HK0 Hex) as (s1 & pl1 & E1 & HK1 & Es1).
  rewrite E1.
  assert (Hfo : files_ok (files_of nodes)).
  { constructor; [apply files_of_nodup; assumption| |assumption].
    intros [l bl] Hf. apply files_of_in in Hf as (a & b & c' & Hf). apply (N2 _ Hf). }
  assert (Hdirs1 : forall z, In z nodes -> is_idir (snd z) = true -> isdir s1 (Pn droot z)) by (apply (k_done _ _ _ _ _ HK1)).
  destruct (restore_contents_fresh c o droot (files_of nodes) s1 Hfo pl1 (k_plan _ _ _ _ _ HK1) (k_dirs _ _ _ _ _ HK1)) as (s2 & reads & E2 & D2 & C2 & F2).
  { intros [l bl] j Hf Hj. apply files_of_in in Hf as (a & b & c' & Hf). simpl in *.
    destruct (N3 _ j Hf Hj) as (m1 & mo1 & Hz). apply (Hdirs1 _ Hz eq_refl). }
  { intros [l bl] Hf. apply files_of_in in Hf as (a & b & c' & Hf). apply (k_nondir _ _ _ _ _ HK1 _ Hf eq_refl). }
  rewrite E2. cbn [r_out r_fs].
  assert (Hnf : forall x, In x nodes -> is_ifile (snd x) = false -> forall f, In f (files_of nodes) -> Pn droot x <> P droot f).
  { intros x Hx Hi [l bl] Hf E. apply files_of_in in Hf as (a & b & c' & Hf).
    rewrite (node_eq droot nodes N1 x _ Hx Hf E) in Hi. discriminate. }
  assert (Hdirs2 : forall z, In z nodes -> is_idir (snd z) = true -> isdir s2 (Pn droot z)).
  { intros z Hz Hi. destruct (Hdirs1 z Hz Hi) as (m1 & mo1 & G). exists m1, mo1. rewrite F2; [assumption|].
    apply Hnf; [assumption|destruct (snd z); simpl in *; congruence]. }
  assert (Hpend : all_pend droot nodes s2).
  { intros x Hx. left. unfold ready. destruct x as [l it]. destruct it as [bl sz mt mo|mt mo|t]; simpl snd.
    - apply (C2 (l, bl)). eapply in_files_of. exact Hx.
    - apply (Hdirs2 _ Hx eq_refl).
    - split.
      + rewrite F2 by (apply (Hnf _ Hx eq_refl)). apply (k_nondir _ _ _ _ _ HK1 _ Hx eq_refl).
      + apply (parent_dir_exists droot nodes N2 N3 s2 _ D2 Hdirs2 Hx). }
  destruct (metadata_pass_exact droot nodes N1 N2 s2 Hpend) as [G3 F3].
  split; [reflexivity|]. split; [exact G3|].
  intros q e Hsu Hq.
  assert (Hnn : forall x, In x nodes -> q <> Pn droot x).
  { intros x Hx ->. rewrite (Hfree x Hx) in Hq. discriminate. }
  rewrite F3 by assumption. rewrite F2.
  2:{ intros [l bl] Hf. apply files_of_in in Hf as (a & b & c' & Hf). apply (Hnn _ Hf). }
  destruct Es1 as [Ek Ed]. destruct (o_delete o) eqn:Edel.
  - destruct (Ed eq_refl q) as [X|(d & [] & _)]; [intros (x & Hx & ->); apply (Hnn x Hx); reflexivity| |exact X].
    right. exists (q, e). split; [apply walk_in; split; [apply fs_get_in|]; assumption|left; reflexivity].
  - rewrite Ek; [assumption|reflexivity|congruence].
Qed.
End Fresh.
