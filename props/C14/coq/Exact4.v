(* C14 — the metadata pass (restore_metadata with its directory stack) applies set_metadata to
   every node; afterwards every node carries the snapshot's type, link target, mode and mtime,
   whatever the order in which the stack is emptied. *)
From Verif.Base Require Import Tactics.
From Verif.C14 Require Import Model Proofs Exact1 Exact3.

Notation nodeT := (list name * item)%type.
Definition Pn (droot : apath) (x : nodeT) : apath := droot ++ fst x.
Definition toS (x : nodeT) : pbuf * item := (np (fst x), snd x).
Definition toO (x : nodeT) : option (pbuf * item) := Some (toS x).

Definition item_blobs (it : item) : list blob := match it with IFile bl _ _ _ => bl | _ => [] end.

(* the snapshot's content, type, target, mode and mtime at the node's path *)
Definition good droot (s : fs) (x : nodeT) : Prop :=
  match snd x with
  | IFile bl _ mt mo => fs_get s (Pn droot x) = Some (EFile (econt bl) mt mo)
  | IDir mt mo => fs_get s (Pn droot x) = Some (EDir mt mo)
  | ILink t => fs_get s (Pn droot x) = Some (ELink t)
  end.
(* what restore_contents / collect_and_prepare leave for the metadata pass *)
Definition ready droot (s : fs) (x : nodeT) : Prop :=
  match snd x with
  | IFile bl _ _ _ => exists mt mo, fs_get s (Pn droot x) = Some (EFile (econt bl) mt mo)
  | IDir _ _ => isdir s (Pn droot x)
  | ILink _ => fs_get s (Pn droot x) = None /\ dir_exists s (removelast (Pn droot x)) = true
  end.
Definition pend droot s x := ready droot s x \/ good droot s x.

Lemma toS_inj x y : toS x = toS y -> x = y.
Proof.
  destruct x as [a i], y as [b j]. intros E. pose proof (f_equal fst E) as E1. pose proof (f_equal snd E) as E2.
  simpl in E1, E2. apply np_inj in E1. congruence.
Qed.
Lemma dpath_toS droot x : dpath droot (fst (toS x)) = Pn droot x.
Proof. unfold toS, Pn. simpl. apply dpath_np. Qed.

Lemma set_metadata_other droot s x q : q <> Pn droot x -> fs_get (set_metadata droot s (toS x)) q = fs_get s q.
Proof. intros Hq. rewrite set_metadata_get, dpath_toS, path_eqb_neq by congruence. reflexivity. Qed.
Lemma set_metadata_isdir droot s x q : isdir s q -> isdir (set_metadata droot s (toS x)) q.
Proof.
  intros (m & mo & Hq). unfold isdir. rewrite set_metadata_get, dpath_toS. cbn [snd toS]. destruct (path_eqb (Pn droot x) q) eqn:E; [|eauto].
  apply path_eqb_eq in E. subst q. rewrite Hq. destruct (snd x); simpl; eauto.
Qed.
Lemma set_metadata_dir_exists droot s x q : dir_exists s q = true -> dir_exists (set_metadata droot s (toS x)) q = true.
Proof.
  unfold dir_exists. destruct q; [reflexivity|]. intros H.
  destruct (fs_get s (n :: q)) as [[| |]|] eqn:E; try discriminate.
  destruct (set_metadata_isdir droot s x (n :: q)) as (m & mo & H1); [eexists; eexists; exact E|]. rewrite H1. reflexivity.
Qed.

Lemma pend_good droot s x : fst x <> [] -> pend droot s x -> good droot (set_metadata droot s (toS x)) x.
Proof.
  intros Hne Hp. unfold good. rewrite set_metadata_get, dpath_toS, path_eqb_refl. cbn [snd toS].
  assert (Hnn : path_eqb (Pn droot x) [] = false) by (apply path_eqb_neq; unfold Pn; destruct droot; destruct (fst x); simpl; congruence).
  destruct Hp as [Hr|Hg]; unfold ready, good in *; [|destruct (snd x); rewrite Hg; reflexivity].
  destruct (snd x); [destruct Hr as (m0 & mo0 & ->)|destruct Hr as (m0 & mo0 & ->)|destruct Hr as [-> ->]; rewrite Hnn]; reflexivity.
Qed.

Section Meta.
Variables (droot : apath) (all : list nodeT).
Hypothesis Hnd : NoDup (map fst all).
Hypothesis Hne : forall x, In x all -> fst x <> [].

Lemma node_eq x y : In x all -> In y all -> Pn droot x = Pn droot y -> x = y.
Proof.
  intros Hx Hy E. unfold Pn in E. apply app_inv_head in E.
  apply In_nth_error in Hx as [i Hi]. apply In_nth_error in Hy as [j Hj].
  rewrite (nodup_map_idx fst all i j x y Hnd Hi Hj E) in Hi. congruence.
Qed.

Definition all_pend s := forall x, In x all -> pend droot s x.

Lemma step s y : In y all -> all_pend s ->
  all_pend (set_metadata droot s (toS y)) /\ good droot (set_metadata droot s (toS y)) y /\
  (forall x, In x all -> good droot s x -> good droot (set_metadata droot s (toS y)) x) /\
  (forall q, (forall x, In x all -> q <> Pn droot x) -> fs_get (set_metadata droot s (toS y)) q = fs_get s q).
Proof.
  intros Hy Hp.
  assert (Gy : good droot (set_metadata droot s (toS y)) y) by (apply pend_good; auto).
  (* another node's path is another path *)
  assert (Hoth : forall x, In x all -> x = y \/ fs_get (set_metadata droot s (toS y)) (Pn droot x) = fs_get s (Pn droot x)).
  { intros x Hx. destruct (path_eqb (Pn droot x) (Pn droot y)) eqn:E; [left; apply path_eqb_eq in E; apply node_eq; auto|right].
    apply set_metadata_other. intros E'. rewrite E', path_eqb_refl in E. discriminate. }
  split; [|split; [exact Gy|split]].
  - intros x Hx. destruct (Hoth x Hx) as [->|Ho]; [right; assumption|].
    destruct (Hp x Hx) as [Hr|Hg]; [left|right; unfold good in *; rewrite Ho; assumption].
    unfold ready in *. destruct (snd x).
    + rewrite Ho. assumption.
    + apply set_metadata_isdir. assumption.
    + destruct Hr as [H1 H2]. split; [rewrite Ho; assumption|apply set_metadata_dir_exists; assumption].
  - intros x Hx Hg. destruct (Hoth x Hx) as [->|Ho]; [assumption|]. unfold good in *. rewrite Ho. assumption.
  - intros q Hq. apply set_metadata_other. apply Hq. assumption.
Qed.

Lemma fold_meta_spec : forall l s, (forall x, In x l -> exists y, In y all /\ x = toS y) -> all_pend s ->
  all_pend (fold_left (set_metadata droot) l s) /\
  (forall x, In x all -> In (toS x) l \/ good droot s x -> good droot (fold_left (set_metadata droot) l s) x) /\
  (forall q, (forall x, In x all -> q <> Pn droot x) -> fs_get (fold_left (set_metadata droot) l s) q = fs_get s q).
Proof.
  induction l as [|x t IH]; intros s Hl Hp; cbn [fold_left].
  - split; [exact Hp|]. split; [intros x _ [[]|G]; exact G|reflexivity].
  - destruct (Hl x (or_introl eq_refl)) as (y & Hy & ->).
    destruct (step s y Hy Hp) as (P1 & P2 & P3 & P4).
    destruct (IH _ (fun x H => Hl x (or_intror H)) P1) as (Q1 & Q2 & Q3).
    split; [exact Q1|]. split.
    + intros z Hz [[E|H]|G]; apply Q2; auto. apply toS_inj in E. subst z. auto.
    + intros q Hq. rewrite Q3, P4 by assumption. reflexivity.
Qed.

(* the metadata pass: from `ready` to `good` for every node, nothing else changes; the order in
   which the directory stack is emptied plays no role (Proofs.meta_loop_fold) *)
Theorem metadata_pass_exact s :
  all_pend s ->
  (forall x, In x all -> good droot (meta_loop droot s [] (map toO all)) x) /\
  (forall q, (forall x, In x all -> q <> Pn droot x) -> fs_get (meta_loop droot s [] (map toO all)) q = fs_get s q).
Proof.
  intros Hp. destruct (meta_loop_fold droot (map toO all) s []) as (l & -> & I1 & I2).
  destruct (fold_meta_spec l s) as (_ & B & C); [|exact Hp|].
  - intros x Hx. destruct (I1 x Hx) as [[]|H]. apply in_map_iff in H as (y & E & Hy). inv E. eauto.
  - split; [|exact C]. intros x Hx. apply B; [exact Hx|]. left. apply I2; [|right; exact (in_map toO all x Hx)].
    intros H. apply in_map_iff in H as (y & E & _). discriminate.
Qed.
End Meta.
