(* C14 — restore_exact, pre-existing files (partial): the per-file part of add_file and
   restore_contents for a file that exists in the destination with the snapshot's size.
   `file_locs` are the locations add_file's loop produces for one file (same reader, same flags);
   the plan is exactly the insertion of these locations; a flag is set iff the reader (the existing
   file, if there is one) holds the blob at the blob's offset; writing the unflagged blobs over the
   existing bytes yields the concatenation of the blobs.  (File order here; that the order of the
   plan as a whole plays no role, and the reads from other existing files, are Contents2's.) *)
From Verif.Base Require Import Tactics Lists.
From Verif.C14 Require Import Model Exact1 Exact2.

Fixpoint file_locs (idx : nat) (openf : option (list N)) (pos : N) (bl : list blob) : list (blob * floc) :=
  match bl with
  | [] => []
  | b :: t =>
    let len := length (b_data b) in
    let '(m, openf') :=
      match openf with
      | None => (false, None)
      | Some rem => (list_eqb (firstn len rem) (b_data b), Some (skipn len rem))
      end in
    (b, mkFl idx pos m) :: file_locs idx openf' (pos + N.of_nat len) t
  end.

Lemma plan_blobs_locs : forall bl idx openf pos r,
  plan_blobs idx openf pos bl r =
  (fold_left (fun r x => r_insert r (bkey (fst x)) (b_data (fst x)) (snd x)) (file_locs idx openf pos bl) r,
   (pos + N.of_nat (blen bl))%N).
Proof.
  induction bl as [|b t IH]; intros idx openf pos r; simpl.
  - f_equal. lia.
  - destruct openf as [rem|]; rewrite IH; simpl; f_equal; unfold dlen; lia.
Qed.

Lemma list_eqb_eq : forall a b, list_eqb a b = true <-> a = b.
Proof.
  induction a; destruct b; simpl; split; intros H; try discriminate; try reflexivity.
  - apply andb_true_iff in H as [H1 H2]. apply N.eqb_eq in H1. apply IHa in H2. congruence.
  - inv H. rewrite N.eqb_refl. simpl. apply IHa. reflexivity.
Qed.

Lemma file_locs_length idx : forall bl openf pos, length (file_locs idx openf pos bl) = length bl.
Proof. induction bl; intros; simpl; [reflexivity|]. destruct openf; simpl; rewrite IHbl; reflexivity. Qed.

Lemma file_locs_nth idx : forall bl openf pos k b fl,
  nth_error (file_locs idx openf pos bl) k = Some (b, fl) ->
  nth_error bl k = Some b /\ fl_idx fl = idx /\
  fl_start fl = (pos + N.of_nat (blen (firstn k bl)))%N /\
  (fl_matches fl = true <->
   match openf with Some rem => firstn (dlen b) (skipn (blen (firstn k bl)) rem) = b_data b | None => False end).
Proof.
  induction bl as [|b0 t IH]; intros openf pos k b fl H; [destruct k; discriminate|].
  destruct k; cbn [file_locs] in H.
  - destruct openf as [rem|]; injection H as <- <-; cbn [nth_error firstn blen skipn fl_idx fl_start fl_matches];
      rewrite N.add_0_r; (repeat split; auto); [apply list_eqb_eq|apply list_eqb_eq|discriminate].
  - (* the reader after b0 *)
    assert (H' : nth_error (file_locs idx (match openf with Some rem => Some (skipn (length (b_data b0)) rem) | None => None end)
                              (pos + N.of_nat (length (b_data b0))) t) k = Some (b, fl)) by (destruct openf; exact H).
    apply IH in H' as (H1 & H2 & H3 & H4). cbn [nth_error firstn blen].
    split; [exact H1|]. split; [exact H2|]. split; [rewrite H3, Nat2N.inj_add, N.add_assoc; reflexivity|].
    destruct openf as [rem|]; [|exact H4]. rewrite skipn_skipn, Nat.add_comm in H4. exact H4.
Qed.

(* what restore_contents does with one location of a file that existed before (no hole) *)
Definition apply_loc (d : list N) (x : blob * floc) : list N :=
  if fl_matches (snd x) then d else write_bytes d (N.to_nat (fl_start (snd x))) (b_data (fst x)).

Lemma write_bytes_app (A rem data : list N) : length data <= length rem ->
  write_bytes (A ++ rem) (length A) data = A ++ data ++ skipn (length data) rem.
Proof.
  intros H. unfold write_bytes. rewrite app_length. replace (length A - (length A + length rem)) with 0 by lia.
  change (zeros 0) with (@nil N). rewrite app_nil_r. rewrite firstn_app_exact by reflexivity. f_equal. f_equal.
  rewrite skipn_app. rewrite skipn_all2 by lia. simpl. f_equal. lia.
Qed.

Lemma existing_file_writes idx : forall rest A rem,
  length rem = blen rest ->
  fold_left apply_loc (file_locs idx (Some rem) (N.of_nat (length A)) rest) (A ++ rem) = A ++ econt rest.
Proof.
  induction rest as [|b t IH]; intros A rem Hl; simpl in *.
  - destruct rem; [reflexivity|discriminate].
  - assert (Hle : length (b_data b) <= length rem) by (unfold dlen in Hl; lia).
    assert (Hrest : length (skipn (length (b_data b)) rem) = blen t) by (rewrite skipn_length; unfold dlen in Hl; lia).
    replace (N.of_nat (length A) + N.of_nat (length (b_data b)))%N with (N.of_nat (length (A ++ b_data b)))
      by (rewrite app_length; lia).
    unfold econt. simpl. fold (econt t). unfold apply_loc at 2. simpl.
    destruct (list_eqb (firstn (length (b_data b)) rem) (b_data b)) eqn:E.
    + apply list_eqb_eq in E.
      replace (A ++ rem) with ((A ++ b_data b) ++ skipn (length (b_data b)) rem)
        by (rewrite <- app_assoc; f_equal; rewrite <- E at 1; apply firstn_skipn).
      rewrite IH by assumption. rewrite <- app_assoc. reflexivity.
    + rewrite Nat2N.id. rewrite write_bytes_app by assumption.
      replace (A ++ b_data b ++ skipn (length (b_data b)) rem) with ((A ++ b_data b) ++ skipn (length (b_data b)) rem)
        by (rewrite <- app_assoc; reflexivity).
      rewrite IH by assumption. rewrite <- app_assoc. reflexivity.
Qed.
