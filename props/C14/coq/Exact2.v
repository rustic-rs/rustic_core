(* C14 — the restore plan (RestoreInfo keyed by (pack, location)) built by add_file: what it means
   for a plan to be right for a list of files none of which exists in the destination (the general
   form, with match flags, is Plan2.GPlanInv), and what r_insert does to the entries. *)
From Verif.Base Require Import Tactics Lists.
From Verif.C14 Require Import Model Proofs Exact1.

Definition bkey (b : blob) : key := (b_pack b, b_off b).
(* a file of the snapshot: path relative to the destination root, blobs *)
Notation fileT := (list name * list blob)%type.

(* index consistency: one (pack, location) holds one byte string *)
Definition consistent (files : list fileT) : Prop :=
  forall f f' b b', In f files -> In f' files -> In b (snd f) -> In b' (snd f') ->
    bkey b = bkey b' -> b_data b = b_data b'.

Definition esound (r : rinfo) (files : list fileT) : Prop :=
  forall k d fls, In (k, (d, fls)) r ->
    exists f b, In f files /\ In b (snd f) /\ bkey b = k /\ d = b_data b.
Definition fsound (r : rinfo) (files : list fileT) : Prop :=
  forall k d fls fl, In (k, (d, fls)) r -> In fl fls ->
    fl_matches fl = false /\
    exists f kk b, nth_error files (fl_idx fl) = Some f /\ nth_error (snd f) kk = Some b /\
      fl_start fl = N.of_nat (blen (firstn kk (snd f))) /\ bkey b = k.
(* every blob kk of file i below the bound has a location in the plan *)
Definition complete_upto (r : rinfo) (files : list fileT) (bound : nat -> nat -> Prop) : Prop :=
  forall i f kk b, nth_error files i = Some f -> nth_error (snd f) kk = Some b -> bound i kk ->
    exists d fls fl, In (bkey b, (d, fls)) r /\ In fl fls /\ fl_idx fl = i /\
      fl_start fl = N.of_nat (blen (firstn kk (snd f))).
Definition complete (r : rinfo) (files : list fileT) : Prop := complete_upto r files (fun _ _ => True).

Record PlanInv (pl : plan) (files : list fileT) : Prop := mkPI {
  pi_names : pl_names pl = map (fun f => np (fst f)) files;
  pi_lens : pl_lengths pl = map (fun f => N.of_nat (blen (snd f))) files;
  pi_pre : pl_pre pl = map (fun _ => false) files;
  pi_esound : esound (pl_r pl) files;
  pi_fsound : fsound (pl_r pl) files;
  pi_complete : complete (pl_r pl) files }.

Lemma key_cmp_eq a b : key_cmp a b = Eq -> a = b.
Proof.
  destruct a as [a1 a2], b as [b1 b2]. unfold key_cmp. simpl.
  destruct (a1 ?= b1)%N eqn:E; try discriminate. intros H.
  apply N.compare_eq in E. apply N.compare_eq in H. congruence.
Qed.

(* r_insert appends the location to the first entry with its key (old), or puts an entry of its
   own in the key's place *)
Lemma r_insert_spec k d fl : forall r, exists r1 old r2 d0 fls0,
  r = r1 ++ old ++ r2 /\ r_insert r k d fl = r1 ++ (k, (d0, fls0 ++ [fl])) :: r2 /\
  (old = [(k, (d0, fls0))] \/ (old = [] /\ d0 = d /\ fls0 = [])).
Proof.
  induction r as [|[k0 [dd fls]] t IH]; simpl.
  - exists [], [], [], d, []. auto 6.
  - destruct (key_cmp k k0) eqn:E.
    + apply key_cmp_eq in E. subst k0. exists [], [(k, (dd, fls))], t, dd, fls. auto.
    + exists [], [], ((k0, (dd, fls)) :: t), d, []. auto 6.
    + destruct IH as (r1 & old & r2 & d0 & fls0 & -> & -> & Hr). exists ((k0, (dd, fls)) :: r1), old, r2, d0, fls0. auto.
Qed.

Lemma r_insert_old k d fl r k' d' fls' fl' : In (k', (d', fls')) r -> In fl' fls' ->
  exists fls'', In (k', (d', fls'')) (r_insert r k d fl) /\ In fl' fls''.
Proof.
  intros H Hf. destruct (r_insert_spec k d fl r) as (r1 & old & r2 & d0 & fls0 & -> & -> & Hr).
  apply in_app_or in H as [H|H]; [|apply in_app_or in H as [H|H]].
  - exists fls'. rewrite in_app_iff. auto.
  - destruct Hr as [->|[-> _]]; [|destruct H]. destruct H as [H|[]]. inv H.
    exists (fls' ++ [fl]). rewrite !in_app_iff. simpl. auto.
  - exists fls'. rewrite in_app_iff. simpl. auto.
Qed.
Lemma r_insert_new k d fl r : exists d' fls', In (k, (d', fls')) (r_insert r k d fl) /\ In fl fls'.
Proof.
  destruct (r_insert_spec k d fl r) as (r1 & old & r2 & d0 & fls0 & _ & -> & _).
  exists d0, (fls0 ++ [fl]). rewrite !in_app_iff. simpl. auto.
Qed.
Lemma r_insert_inv_f k d fl r k' d' fls' fl' : In (k', (d', fls')) (r_insert r k d fl) -> In fl' fls' ->
  (exists fls0, In (k', (d', fls0)) r /\ In fl' fls0) \/ (k' = k /\ fl' = fl).
Proof.
  destruct (r_insert_spec k d fl r) as (r1 & old & r2 & d0 & fls0 & -> & -> & Hr). intros H Hf.
  apply in_app_or in H as [H|[H|H]]; [left; exists fls'; rewrite !in_app_iff; auto| |left; exists fls'; rewrite !in_app_iff; auto].
  inv H. apply in_app_or in Hf as [Hf|[<-|[]]]; [left|right; auto].
  destruct Hr as [->|(_ & _ & ->)]; [|destruct Hf]. exists fls0. rewrite !in_app_iff. simpl. auto.
Qed.
Lemma r_insert_inv_e k d fl r k' d' fls' : In (k', (d', fls')) (r_insert r k d fl) ->
  (exists fls0, In (k', (d', fls0)) r) \/ (k' = k /\ d' = d).
Proof.
  destruct (r_insert_spec k d fl r) as (r1 & old & r2 & d0 & fls0 & -> & -> & Hr). intros H.
  apply in_app_or in H as [H|[H|H]]; [left; exists fls'; rewrite !in_app_iff; auto| |left; exists fls'; rewrite !in_app_iff; auto].
  inv H. destruct Hr as [->|(_ & -> & _)]; [left; exists fls0; rewrite !in_app_iff; simpl; auto|right; auto].
Qed.

Lemma esound_insert r files f b fl : esound r files -> In f files -> In b (snd f) ->
  esound (r_insert r (bkey b) (b_data b) fl) files.
Proof.
  intros He Hf Hb k d fls H. apply r_insert_inv_e in H as [[fls0 H]|[-> ->]]; [eauto|]. exists f, b. auto.
Qed.
Lemma complete_upto_insert r files (bound bound' : nat -> nat -> Prop) i f kk b d fl :
  complete_upto r files bound -> nth_error files i = Some f -> nth_error (snd f) kk = Some b ->
  fl_idx fl = i -> fl_start fl = N.of_nat (blen (firstn kk (snd f))) ->
  (forall i' f' kk' b', nth_error files i' = Some f' -> nth_error (snd f') kk' = Some b' -> bound' i' kk' ->
     bound i' kk' \/ (i' = i /\ kk' = kk)) ->
  complete_upto (r_insert r (bkey b) d fl) files bound'.
Proof.
  intros Hc Hi Hk E1 E2 Hb i' f' kk' b' Hi' Hk' Hb'. destruct (Hb _ _ _ _ Hi' Hk' Hb') as [Hold|[-> ->]].
  - destruct (Hc _ _ _ _ Hi' Hk' Hold) as (d0 & fls & fl0 & H1 & H2 & H3).
    destruct (r_insert_old (bkey b) d fl _ _ _ _ _ H1 H2) as (x & Hx & Hy). exists d0, x, fl0. auto.
  - rewrite Hi in Hi'. inv Hi'. rewrite Hk in Hk'. inv Hk'.
    destruct (r_insert_new (bkey b') d fl r) as (d' & fls' & H1 & H2). exists d', fls', fl. auto.
Qed.

Lemma blen_app a b : blen (a ++ b) = blen a + blen b.
Proof. induction a; simpl; [reflexivity|]. rewrite IHa. lia. Qed.
Lemma nth_error_mid {A} (a b : list A) x : nth_error (a ++ x :: b) (length a) = Some x.
Proof. rewrite nth_error_app2 by lia. rewrite Nat.sub_diag. reflexivity. Qed.

Lemma nth_error_Some_lt {A} (l : list A) i x : nth_error l i = Some x -> i < length l.
Proof. intros H. apply nth_error_Some. rewrite H. discriminate. Qed.

Lemma esound_mono r files f : esound r files -> esound r (files ++ [f]).
Proof. intros H k d fls Hi. destruct (H _ _ _ Hi) as (f0 & b & H1 & H2). exists f0, b. split; [apply in_or_app; left; assumption|assumption]. Qed.
