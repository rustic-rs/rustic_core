(* C14 — PackInfo::coalesce: merging adjacent (pack, location) entries into one partial read never
   merges an entry that is read from an existing file with a following blob (the guard of the code
   as extracted), preserves the blobs and their order; with the other guard a following blob is
   written with the bytes of the first one. *)
From Verif.Base Require Import Tactics.
From Verif.C14 Require Import Model Witness.
Local Open Scope N_scope.

Lemma coal_blobs g cc : forall rest cur,
  flat_map pi_blobs (coal g cc cur rest) = pi_blobs cur ++ flat_map pi_blobs rest.
Proof.
  induction rest as [|n t IH]; intros cur; simpl; [reflexivity|].
  unfold pcoalesce. destruct (_ && _ && _); simpl.
  - rewrite IH. simpl. rewrite app_assoc. reflexivity.
  - rewrite IH. reflexivity.
Qed.

(* with the guard `self.from_file.is_none()`: a PackInfo that reads from an existing file is one of
   the original entries, unmerged *)
Lemma coal_self_from cc : forall rest cur p,
  In p (coal CgSelf cc cur rest) -> pi_from p <> None -> p = cur \/ In p rest.
Proof.
  induction rest as [|n t IH]; intros cur p H Hf; simpl in H; [destruct H as [<-|[]]; auto|].
  unfold pcoalesce in H. destruct (pi_from cur) eqn:Ec.
  - (* cur reads from a file: never merged *)
    simpl in H. rewrite andb_false_r in H. simpl in H. destruct H as [<-|H]; [auto|].
    destruct (IH _ _ H Hf) as [->|X]; [right; left; reflexivity|right; right; assumption].
  - simpl in H. destruct ((pi_pack cur =? pi_pack n) && true && cc cur n).
    + destruct (IH _ _ H Hf) as [->|Hin]; [simpl in Hf; congruence|right; right; assumption].
    + destruct H as [<-|H]; [auto|]. destruct (IH _ _ H Hf) as [->|X]; [right; left; reflexivity|right; right; assumption].
Qed.

(* destination file of the snapshot's size, other mtime: first blob intact, second modified; the two
   blobs are adjacent in one pack *)
Definition cA := mkB 100 0 [1; 2].
Definition cB := mkB 100 2 [3; 4].
Definition snapC : list node := [Node (nm 5) (IFile [cA; cB] 4 1000 420) []].
Definition worldC : fs := world0 ++ [([1; 2; 5], EFile [1; 2; 9; 9] 5 420)].
Definition cc0 := can_coalesce 262144 41943040.
