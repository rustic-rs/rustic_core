(* C14 — confinement: with the name check, restore never changes anything that is not strictly
   below the destination root.  Every path the restore writes is `dpath droot nm` for an item
   path nm that is a non-empty list of normal components, hence strictly below the root; what it
   removes is an entry of `walk`, which lists only what is strictly below the root; the only
   other writes are create_dir_all's, which finds the root and its ancestors in place.
   The two operations that are more than one match are specified once, for confinement and for
   the exactness proofs alike: create_dir_all as the relation `mkdirs` (mkdir_from_total),
   set_metadata pointwise (set_metadata_get). *)
From Verif.Base Require Import Tactics Lists.
From Verif.C14 Require Import Model Exact1.
Local Open Scope N_scope.

Lemma path_eqb_refl a : path_eqb a a = true.
Proof. induction a; simpl; [reflexivity|]. rewrite N.eqb_refl. assumption. Qed.
Lemma path_eqb_eq a : forall b, path_eqb a b = true -> a = b.
Proof.
  induction a; destruct b; simpl; intros H; try discriminate; [reflexivity|].
  apply andb_true_iff in H as [H1 H2]. apply N.eqb_eq in H1. subst. f_equal. auto.
Qed.
Lemma path_eqb_neq a b : a <> b -> path_eqb a b = false.
Proof. intros H. destruct (path_eqb a b) eqn:E; [|reflexivity]. apply path_eqb_eq in E. congruence. Qed.
Lemma is_prefix_app p : forall r, is_prefix p (p ++ r) = true.
Proof. induction p; simpl; intros; [reflexivity|]. rewrite N.eqb_refl. simpl. apply IHp. Qed.
Lemma is_prefix_refl p : is_prefix p p = true.
Proof. rewrite <- (app_nil_r p) at 2. apply is_prefix_app. Qed.
Lemma is_prefix_inv p : forall q, is_prefix p q = true -> exists r, q = p ++ r.
Proof.
  induction p; simpl; intros q H; [exists q; reflexivity|].
  destruct q; [discriminate|]. apply andb_true_iff in H as [H1 H2]. apply N.eqb_eq in H1. subst.
  destruct (IHp _ H2) as [r ->]. exists r. reflexivity.
Qed.
Lemma is_prefix_trans a b c : is_prefix a b = true -> is_prefix b c = true -> is_prefix a c = true.
Proof.
  intros H1 H2. apply is_prefix_inv in H1 as [r ->]. apply is_prefix_inv in H2 as [r' ->].
  rewrite <- app_assoc. apply is_prefix_app.
Qed.
Lemma su_app droot l : l <> [] -> strictly_under droot (droot ++ l) = true.
Proof.
  intros Hl. unfold strictly_under. rewrite is_prefix_app. simpl.
  destruct (path_eqb droot (droot ++ l)) eqn:E; [|reflexivity].
  apply path_eqb_eq in E. rewrite <- (app_nil_r droot) in E at 1. apply app_inv_head in E. congruence.
Qed.
Lemma su_inv droot q : strictly_under droot q = true -> exists l, l <> [] /\ q = droot ++ l.
Proof.
  unfold strictly_under. intros H. apply andb_true_iff in H as [H1 H2].
  destruct (is_prefix_inv _ _ H1) as [l ->]. exists l. split; [|reflexivity].
  intros ->. rewrite app_nil_r, path_eqb_refl in H2. discriminate.
Qed.
Lemma not_su_firstn droot k : strictly_under droot (firstn k droot) = false.
Proof.
  destruct (strictly_under droot (firstn k droot)) eqn:E; [|reflexivity].
  apply su_inv in E as (l & Hl & E).
  apply (f_equal (@length _)) in E. rewrite firstn_length, app_length in E.
  destruct l; [congruence|]. simpl in E. lia.
Qed.
Lemma prefix_dich droot : forall p T, is_prefix p T = true -> is_prefix droot T = true ->
  strictly_under droot p = true \/ exists k, p = firstn k droot.
Proof.
  induction droot as [|d dr IH]; intros p T H1 H2.
  - destruct p; [right; exists O; reflexivity|left; reflexivity].
  - destruct T as [|t T']; simpl in H2; [discriminate|].
    apply andb_true_iff in H2 as [Hd H2]. apply N.eqb_eq in Hd. subst t.
    destruct p as [|x p']; [right; exists O; reflexivity|].
    simpl in H1. apply andb_true_iff in H1 as [Hx H1]. apply N.eqb_eq in Hx. subst x.
    destruct (IH _ _ H1 H2) as [H|[k ->]].
    + left. unfold strictly_under in *. simpl. rewrite N.eqb_refl. simpl. assumption.
    + right. exists (S k). reflexivity.
Qed.
Lemma su_trans droot t q : strictly_under droot t = true -> is_prefix t q = true -> strictly_under droot q = true.
Proof.
  intros H1 H2. apply su_inv in H1 as (l & Hl & ->). apply is_prefix_inv in H2 as [r ->].
  rewrite <- app_assoc. apply su_app. destruct l; [congruence|discriminate].
Qed.
Lemma su_prefix droot q : strictly_under droot q = true -> is_prefix droot q = true.
Proof. unfold strictly_under. intros H. apply andb_true_iff in H. tauto. Qed.

Lemma fs_get_filter f s q :
  (forall x, path_eqb (fst x) q = true -> f x = true) -> fs_get (filter f s) q = fs_get s q.
Proof.
  intros Hf. induction s as [|[p e] s IH]; simpl; [reflexivity|].
  destruct (f (p, e)) eqn:E; simpl.
  - rewrite IH. reflexivity.
  - destruct (path_eqb p q) eqn:E2; [|assumption].
    rewrite (Hf (p, e) E2) in E. discriminate.
Qed.
Lemma fs_get_filter_none f s q :
  (forall x, path_eqb (fst x) q = true -> f x = false) -> fs_get (filter f s) q = None.
Proof.
  intros Hf. induction s as [|[p e] s IH]; simpl; [reflexivity|].
  destruct (f (p, e)) eqn:E; simpl; [|assumption].
  destruct (path_eqb p q) eqn:E2; [|assumption]. rewrite (Hf (p, e) E2) in E. discriminate.
Qed.
Lemma fs_get_filter_keep_none f s q : fs_get s q = None -> fs_get (filter f s) q = None.
Proof.
  induction s as [|[p e] s IH]; simpl; intros H; [reflexivity|].
  destruct (path_eqb p q) eqn:E; [discriminate|]. destruct (f (p, e)); simpl; [rewrite E|]; auto.
Qed.
Lemma in_fs_get s q e : In (q, e) s -> fs_get s q <> None.
Proof.
  induction s as [|[p e'] s IH]; simpl; intros H; [destruct H|].
  destruct (path_eqb p q) eqn:E; [discriminate|]. destruct H as [H|H]; [|auto].
  inv H. rewrite path_eqb_refl in E. discriminate.
Qed.
Lemma fs_get_in s q e : fs_get s q = Some e -> In (q, e) s.
Proof.
  induction s as [|[p e'] s IH]; simpl; intros H; [discriminate|].
  destruct (path_eqb p q) eqn:E; [inv H; apply path_eqb_eq in E; subst; left; reflexivity|right; auto].
Qed.

Lemma fs_get_del_same s p : fs_get (fs_del s p) p = None.
Proof. apply fs_get_filter_none. intros x Hx. rewrite Hx. reflexivity. Qed.
Lemma fs_get_del_other s p q : p <> q -> fs_get (fs_del s p) q = fs_get s q.
Proof.
  intros H. apply fs_get_filter. intros x Hx. apply path_eqb_eq in Hx. rewrite Hx.
  rewrite path_eqb_neq by congruence. reflexivity.
Qed.
Lemma fs_get_del_tree_under s p q : is_prefix p q = true -> fs_get (fs_del_tree s p) q = None.
Proof. intros H. apply fs_get_filter_none. intros x Hx. apply path_eqb_eq in Hx. rewrite Hx, H. reflexivity. Qed.
Lemma fs_get_del_tree_other s p q : is_prefix p q = false -> fs_get (fs_del_tree s p) q = fs_get s q.
Proof. intros H. apply fs_get_filter. intros x Hx. apply path_eqb_eq in Hx. rewrite Hx, H. reflexivity. Qed.
Lemma get_set_same s p e : fs_get (fs_set s p e) p = Some e.
Proof. unfold fs_set. simpl. rewrite path_eqb_refl. reflexivity. Qed.
Lemma get_set_other s p e q : p <> q -> fs_get (fs_set s p e) q = fs_get s q.
Proof. intros H. unfold fs_set. simpl. rewrite path_eqb_neq by assumption. apply fs_get_del_other, H. Qed.
Lemma get_set s p e q : fs_get (fs_set s p e) q = if path_eqb p q then Some e else fs_get s q.
Proof.
  destruct (path_eqb p q) eqn:E.
  - apply path_eqb_eq in E. subst. apply get_set_same.
  - apply get_set_other. intros ->. rewrite path_eqb_refl in E. discriminate.
Qed.

Definition frame (droot : apath) (s s' : fs) : Prop :=
  forall q, strictly_under droot q = false -> fs_get s' q = fs_get s q.
Lemma frame_refl droot s : frame droot s s. Proof. intros q _. reflexivity. Qed.
Lemma frame_trans droot a b c : frame droot a b -> frame droot b c -> frame droot a c.
Proof. intros H1 H2 q Hq. rewrite H2, H1 by assumption. reflexivity. Qed.

Lemma frame_set droot s t e : strictly_under droot t = true -> frame droot s (fs_set s t e).
Proof. intros Ht q Hq. apply get_set_other. congruence. Qed.
Lemma frame_del droot s t : strictly_under droot t = true -> frame droot s (fs_del s t).
Proof. intros Ht q Hq. apply fs_get_del_other. congruence. Qed.
Lemma frame_del_tree droot s t : strictly_under droot t = true -> frame droot s (fs_del_tree s t).
Proof.
  intros Ht q Hq. apply fs_get_del_tree_other.
  destruct (is_prefix t q) eqn:E; [|reflexivity]. rewrite (su_trans _ _ _ Ht E) in Hq. discriminate.
Qed.

Definition dirs_ok (droot : apath) (s : fs) : Prop := forall k, dir_exists s (firstn k droot) = true.
Lemma dirs_ok_frame droot s s' : dirs_ok droot s -> frame droot s s' -> dirs_ok droot s'.
Proof.
  intros H F k. specialize (H k). unfold dir_exists in *.
  destruct (firstn k droot) eqn:E; [reflexivity|]. rewrite F; [assumption|].
  rewrite <- E. apply not_su_firstn.
Qed.

(* a step that is confined provided the root and its ancestors are directories: such steps compose
   without dirs_ok being carried along, since a confined step keeps it *)
Definition conf (droot : apath) (s s' : fs) : Prop := dirs_ok droot s -> frame droot s s'.
Lemma conf_frame droot s s' : frame droot s s' -> conf droot s s'.
Proof. intros H _. exact H. Qed.
Lemma conf_refl droot s : conf droot s s.
Proof. apply conf_frame, frame_refl. Qed.
Lemma conf_trans droot a b c : conf droot a b -> conf droot b c -> conf droot a c.
Proof.
  intros H1 H2 Hok. eapply frame_trans; [exact (H1 Hok)|]. apply H2. eapply dirs_ok_frame; eauto.
Qed.

(* folds over an optional state in which None is final (a failed step of restore_contents): what
   holds of every successful step and composes holds of a successful fold *)
Lemma fold_left_opt_ind {A X} (f : option X -> A -> option X) (R : list A -> X -> X -> Prop) :
  (forall a, f None a = None) -> (forall x, R [] x x) ->
  (forall a l x x1 x', f (Some x) a = Some x1 -> R l x1 x' -> R (a :: l) x x') ->
  forall l x x', fold_left f l (Some x) = Some x' -> R l x x'.
Proof.
  intros Hn H0 Hs. induction l as [|a t IH]; intros x x' H; cbn [fold_left] in H; [inv H; apply H0|].
  destruct (f (Some x) a) as [x1|] eqn:E; [eauto|]. rewrite fold_left_none in H by assumption. discriminate.
Qed.
Lemma fold_conf {A X} droot (f : option X -> A -> option X) (fs_of : X -> fs) :
  (forall a, f None a = None) ->
  (forall x a x', f (Some x) a = Some x' -> conf droot (fs_of x) (fs_of x')) ->
  forall l x x', fold_left f l (Some x) = Some x' -> conf droot (fs_of x) (fs_of x').
Proof.
  intros Hn Hs. apply (fold_left_opt_ind f (fun _ x x' => conf droot (fs_of x) (fs_of x')) Hn).
  - intros x. apply conf_refl.
  - intros a l x x1 x' E H. eapply conf_trans; eauto.
Qed.

Section CreateDirAll.
Local Open Scope nat_scope.

(* what create_dir_all does: s' is s with fresh directories at some of the paths D, which are all
   directories afterwards *)
Definition mkdirs (D : apath -> Prop) (s s' : fs) : Prop :=
  (forall q, fs_get s q <> None -> fs_get s' q = fs_get s q) /\
  (forall q, fs_get s q = None -> fs_get s' q = None \/ (fs_get s' q = Some (EDir new_mtime new_dmode) /\ D q)) /\
  (forall q, D q -> isdir s' q).

Lemma mkdirs_refl (D : apath -> Prop) s : (forall q, D q -> isdir s q) -> mkdirs D s s.
Proof. intros H. split; [auto|]. split; [auto|exact H]. Qed.
Lemma mkdirs_set s p : fs_get s p = None -> mkdirs (eq p) s (fs_set s p (EDir new_mtime new_dmode)).
Proof.
  intros Hp. split; [|split].
  - intros q Hq. apply get_set_other. congruence.
  - intros q Hq. rewrite get_set. destruct (path_eqb p q) eqn:E; [right|left; assumption].
    apply path_eqb_eq in E. auto.
  - intros q <-. eexists _, _. apply get_set_same.
Qed.
Lemma mkdirs_trans (D1 D2 : apath -> Prop) s s1 s2 :
  mkdirs D1 s s1 -> mkdirs D2 s1 s2 -> mkdirs (fun q => D1 q \/ D2 q) s s2.
Proof.
  intros (A1 & A2 & A3) (B1 & B2 & B3). split; [|split].
  - intros q Hq. rewrite B1; rewrite (A1 q Hq); auto.
  - intros q Hq. destruct (A2 q Hq) as [X|[X Y]].
    + destruct (B2 q X) as [Z|[Z W]]; auto.
    + right. rewrite B1; rewrite X; [auto|discriminate].
  - intros q [Hq|Hq]; [|auto]. destruct (A3 q Hq) as (m & mo & X). exists m, mo. rewrite B1; rewrite X; [reflexivity|discriminate].
Qed.
(* D may be cut down to D' if what is left out existed before *)
Lemma mkdirs_sub (D D' : apath -> Prop) s s' : mkdirs D s s' ->
  (forall q, D' q -> D q) -> (forall q, D q -> D' q \/ fs_get s q <> None) -> mkdirs D' s s'.
Proof.
  intros (A1 & A2 & A3) H1 H2. split; [exact A1|]. split; [|auto].
  intros q Hq. destruct (A2 q Hq) as [X|[X Y]]; [auto|]. destruct (H2 q Y); [auto|contradiction].
Qed.
Lemma mkdirs_absent_or_dir D s s' q : mkdirs D s s' ->
  fs_get s q = None \/ isdir s q -> fs_get s' q = None \/ isdir s' q.
Proof.
  intros (A1 & A2 & _) [H|(m & mo & H)].
  - destruct (A2 q H) as [X|[X _]]; [auto|right; eexists _, _; exact X].
  - right. exists m, mo. rewrite A1; rewrite H; [reflexivity|discriminate].
Qed.

(* the paths create_dir_all visits: done extended by the non-empty prefixes of todo *)
Definition ext_by (done todo : list name) (q : apath) : Prop :=
  exists k, 0 < k <= length todo /\ q = done ++ firstn k todo.
Lemma ext_by_cons done a t q : ext_by done (a :: t) q <-> q = done ++ [a] \/ ext_by (done ++ [a]) t q.
Proof.
  unfold ext_by. split.
  - intros ([|[|k]] & Hk & ->); [lia|left; reflexivity|right].
    exists (S k). split; [simpl in Hk; lia|]. rewrite <- app_assoc. reflexivity.
  - intros [->|(k & Hk & ->)]; [exists 1; split; [simpl; lia|reflexivity]|].
    exists (S k). split; [simpl; lia|]. rewrite <- app_assoc. reflexivity.
Qed.

(* create_dir_all, total: what a successful run did, and why a failing one failed *)
Lemma mkdir_from_total : forall todo done s,
  match mkdir_from s done todo with
  | Some s' => mkdirs (ext_by done todo) s s'
  | None => exists q, ext_by done todo q /\ fs_get s q <> None /\ ~ isdir s q
  end.
Proof.
  induction todo as [|a t IH]; intros done s.
  - apply mkdirs_refl. intros q (k & Hk & _). simpl in Hk. lia.
  - cbn [mkdir_from]. set (p := done ++ [a]).
    assert (Hp : ext_by done (a :: t) p) by (apply ext_by_cons; left; reflexivity).
    (* after the first component, fresh or found *)
    assert (Hrest : forall s1, mkdirs (eq p) s s1 ->
      match mkdir_from s1 p t with
      | Some s' => mkdirs (ext_by done (a :: t)) s s'
      | None => exists q, ext_by done (a :: t) q /\ fs_get s q <> None /\ ~ isdir s q
      end).
    { intros s1 M1. specialize (IH p s1). destruct (mkdir_from s1 p t) as [s'|].
      - apply (mkdirs_sub _ _ _ _ (mkdirs_trans _ _ _ _ _ M1 IH)).
        + intros q Hq. apply ext_by_cons in Hq as [->|Hq]; auto.
        + intros q [<-|Hq]; left; apply ext_by_cons; auto.
      - destruct IH as (q & Hq & Hn & Hd). exists q. split; [apply ext_by_cons; auto|].
        destruct M1 as (A1 & A2 & _). destruct (fs_get s q) eqn:G.
        + split; [discriminate|]. unfold isdir in *. rewrite A1 in Hd by congruence. exact Hd.
        + exfalso. destruct (A2 q G) as [X|[X _]]; [auto|]. apply Hd. eexists _, _. exact X. }
    destruct (fs_get s p) as [[| |]|] eqn:E.
    + exists p. split; [exact Hp|]. split; [congruence|]. intros (m & mo & H). congruence.
    + apply Hrest, mkdirs_refl. intros q <-. eexists _, _. exact E.
    + exists p. split; [exact Hp|]. split; [congruence|]. intros (m & mo & H). congruence.
    + apply Hrest, mkdirs_set, E.
Qed.

Lemma mkdir_from_spec todo done s :
  (forall q, ext_by done todo q -> fs_get s q = None \/ isdir s q) ->
  exists s', mkdir_from s done todo = Some s' /\ mkdirs (ext_by done todo) s s'.
Proof.
  intros H. pose proof (mkdir_from_total todo done s) as T. destruct (mkdir_from s done todo) as [s'|]; [eauto|].
  destruct T as (q & Hq & Hn & Hd). destruct (H q Hq); contradiction.
Qed.

Lemma dirs_ok_isdir droot s k : dirs_ok droot s -> 0 < k <= length droot -> isdir s (firstn k droot).
Proof.
  intros H Hk. specialize (H k). unfold dir_exists in H.
  destruct (firstn k droot) eqn:E.
  - apply (f_equal (@length _)) in E. rewrite firstn_length in E. simpl in E. lia.
  - unfold isdir. destruct (fs_get s (n :: l)) as [[| |]|]; try discriminate. eexists; eexists; reflexivity.
Qed.
Lemma dirs_ok_ext droot s s' : dirs_ok droot s -> (forall q, fs_get s q <> None -> fs_get s' q = fs_get s q) -> dirs_ok droot s'.
Proof.
  intros H Hx k. specialize (H k). unfold dir_exists in *. destruct (firstn k droot) eqn:E; [reflexivity|].
  destruct (fs_get s (n :: l)) eqn:G; [|discriminate]. rewrite Hx; rewrite G; [assumption|discriminate].
Qed.
(* on the way to a path below the destination root, the root and its ancestors are found in place *)
Lemma ext_by_below_root droot s l q : dirs_ok droot s ->
  ext_by [] (droot ++ l) q -> isdir s q \/ ext_by droot l q.
Proof.
  intros Hok (k & Hk & ->). simpl. rewrite firstn_app. destruct (Nat.le_gt_cases k (length droot)).
  - left. replace (k - length droot) with 0 by lia. simpl. rewrite app_nil_r. apply dirs_ok_isdir; [assumption|lia].
  - right. exists (k - length droot). rewrite app_length in Hk. split; [lia|]. rewrite firstn_all2 by lia. reflexivity.
Qed.

Lemma mkdir_all_spec droot s l : dirs_ok droot s ->
  (forall q, ext_by droot l q -> fs_get s q = None \/ isdir s q) ->
  exists s', mkdir_all s (droot ++ l) = Some s' /\ mkdirs (ext_by droot l) s s'.
Proof.
  intros Hok H. destruct (mkdir_from_spec (droot ++ l) [] s) as (s' & E & M).
  { intros q Hq. destruct (ext_by_below_root droot s l q Hok Hq); auto. }
  exists s'. split; [exact E|]. apply (mkdirs_sub _ _ _ _ M).
  - intros q (j & Hj & ->). exists (length droot + j). split; [rewrite app_length; lia|]. symmetry. apply firstn_app_2.
  - intros q Hq. destruct (ext_by_below_root droot s l q Hok Hq) as [(m & mo & X)|X]; [right; congruence|left; exact X].
Qed.

Lemma mkdir_from_noop : forall todo done s,
  (forall q, ext_by done todo q -> isdir s q) -> mkdir_from s done todo = Some s.
Proof.
  induction todo as [|a t IH]; intros done s H; [reflexivity|]. simpl.
  destruct (H (done ++ [a])) as (m & mo & ->); [apply ext_by_cons; left; reflexivity|].
  apply IH. intros q Hq. apply H, ext_by_cons. right. exact Hq.
Qed.
Lemma mkdir_all_noop droot s l : dirs_ok droot s ->
  (forall q, ext_by droot l q -> isdir s q) -> mkdir_all s (droot ++ l) = Some s.
Proof.
  intros Hok H. apply mkdir_from_noop. intros q Hq. destruct (ext_by_below_root droot s l q Hok Hq); auto.
Qed.

(* create_dir_all towards a path below the root creates nothing on the way to the root *)
Lemma mkdir_all_conf droot s t s' : is_prefix droot t = true -> mkdir_all s t = Some s' -> conf droot s s'.
Proof.
  intros Hp E Hok q Hq. apply is_prefix_inv in Hp as [l ->].
  pose proof (mkdir_from_total (droot ++ l) [] s) as T. unfold mkdir_all in E. rewrite E in T. destruct T as (A1 & A2 & _).
  destruct (fs_get s q) eqn:G; [rewrite A1; congruence|].
  destruct (A2 q G) as [X|[_ X]]; [exact X|]. exfalso.
  destruct (ext_by_below_root droot s l q Hok X) as [(m & mo & D)|(k & Hk & ->)]; [congruence|].
  rewrite su_app in Hq; [discriminate|]. destruct l, k; simpl in *; try lia; discriminate.
Qed.
End CreateDirAll.

Lemma set_length_conf droot s p n s' :
  strictly_under droot p = true -> set_length s p n = Some s' -> conf droot s s'.
Proof.
  intros Hp H. unfold set_length in H. destruct p eqn:E0; [discriminate|]. rewrite <- E0 in *.
  destruct (mkdir_all s (removelast p)) as [s1|] eqn:E; [|discriminate].
  eapply conf_trans.
  - eapply mkdir_all_conf; [|exact E]. destruct (su_inv _ _ Hp) as (l & Hl & ->).
    rewrite removelast_app by assumption. apply is_prefix_app.
  - apply conf_frame. destruct (fs_get s1 p) as [[d m mo| |]|]; inv H; apply frame_set; assumption.
Qed.
Lemma write_at_frame droot s p off d s' :
  strictly_under droot p = true -> write_at s p off d = Some s' -> frame droot s s'.
Proof.
  intros Hp H. unfold write_at in H.
  destruct (fs_get s p) as [[? ? ?| |]|]; [| | |destruct (_ && _)]; inv H; apply frame_set; assumption.
Qed.
Definition np (l : list name) : pbuf := mkP false (map CNormal l).
Definition nne (p : pbuf) : Prop := exists l, l <> [] /\ p = np l.

Lemma np_inj a : forall b, np a = np b -> a = b.
Proof. induction a; destruct b; intros H; inv H; [reflexivity|]. f_equal. apply IHa. unfold np. congruence. Qed.
Lemma fold_res_normal l : forall acc, fold_left res_step (map CNormal l) acc = rev l ++ acc.
Proof.
  induction l; simpl; intros; [reflexivity|]. rewrite IHl. rewrite <- app_assoc. reflexivity.
Qed.
Lemma dpath_np droot l : dpath droot (np l) = droot ++ l.
Proof.
  unfold dpath, djoin, pjoin, np, root_of, resolve. simpl. rewrite <- map_app, fold_res_normal.
  rewrite app_nil_r. apply rev_involutive.
Qed.
Lemma su_dpath droot nm : nne nm -> strictly_under droot (dpath droot nm) = true.
Proof. intros (l & Hl & ->). rewrite dpath_np. apply su_app. assumption. Qed.
Lemma pjoin_np a b : pjoin (np a) (np b) = np (a ++ b).
Proof. unfold pjoin, np. simpl. rewrite map_app. reflexivity. Qed.
Lemma ppop_np a : ppop (np a) = np (removelast a).
Proof.
  unfold ppop, np. simpl. f_equal. induction a as [|x [|y a] IH]; try reflexivity.
  simpl in *. rewrite IH. reflexivity.
Qed.
Lemma name_ok_np nm : name_ok nm = true -> exists n, nm = np [n].
Proof.
  destruct nm as [[] cs]; simpl; [discriminate|].
  destruct cs as [|[| |n] [|? ?]]; try discriminate. intros _. exists n. reflexivity.
Qed.

Lemma node_list_ind (A : node -> Prop) (B : list node -> Prop) :
  (forall nm it ch, B ch -> A (Node nm it ch)) -> B [] -> (forall x t, A x -> B t -> B (x :: t)) ->
  (forall n, A n) /\ (forall l, B l).
Proof.
  intros HN H0 HC.
  assert (H : forall n, A n).
  { fix IH 1. intros [nm it ch]. apply HN. induction ch as [|x t IHt]; [exact H0|exact (HC x t (IH x) IHt)]. }
  split; [exact H|]. induction l; auto.
Qed.

Lemma stream_go_eq c : forall ch path,
  (fix go (path : pbuf) (ch : list node) : list (option (pbuf * item)) * pbuf :=
     match ch with
     | [] => ([], path)
     | x :: cs => let '(l1, q1) := stream_node c path x in
                  let '(l2, q2) := go q1 cs in (l1 ++ l2, q2)
     end) path ch = stream_list c path ch.
Proof. induction ch; intros; simpl; [reflexivity|]. destruct (stream_node c path a). rewrite IHch. reflexivity. Qed.

Definition items_ok (l : list (option (pbuf * item))) : Prop :=
  forall x, In (Some x) l -> nne (fst x).

Lemma stream_ok c roots : c_names c = true -> items_ok (stream c roots).
Proof.
  intros Hc. unfold stream. change pempty with (np []). generalize (@nil name).
  (* the streamer's current path stays a list of normal components *)
  enough (H : (forall n a, items_ok (fst (stream_node c (np a) n)) /\ exists b, snd (stream_node c (np a) n) = np b) /\
              (forall l a, items_ok (fst (stream_list c (np a) l)) /\ exists b, snd (stream_list c (np a) l) = np b))
    by (intros a; apply H).
  apply node_list_ind.
  - intros nm it ch IH a. cbn [stream_node]. rewrite Hc, stream_go_eq. cbn [andb].
    destruct (name_ok nm) eqn:En; cbn [negb].
    2:{ split; [intros x [Hx|[]]; discriminate|exists a; reflexivity]. }
    destruct (name_ok_np _ En) as [n ->]. rewrite pjoin_np.
    assert (Hhd : nne (np (a ++ [n]))) by (exists (a ++ [n]); split; [destruct a; discriminate|reflexivity]).
    destruct (is_idir it).
    + destruct (IH (a ++ [n])) as [Hi [b Hb]]. destruct (stream_list c (np (a ++ [n])) ch) as [l p1]. simpl in *. subst p1.
      split; [|rewrite ppop_np; eexists; reflexivity]. intros x [Hx|Hx]; [inv Hx; exact Hhd|auto].
    + split; [|exists a; reflexivity]. intros x [Hx|[]]. inv Hx. exact Hhd.
  - intros a. split; [intros x []|exists a; reflexivity].
  - intros x t IHx IHt a. simpl. destruct (IHx a) as [Hi [b Hb]]. destruct (stream_node c (np a) x) as [l1 q1]. simpl in *. subst q1.
    destruct (IHt b) as [Hi2 [b2 Hb2]]. destruct (stream_list c (np b) t) as [l2 q2]. simpl in *.
    split; [|exists b2; assumption]. intros y Hy. apply in_app_or in Hy as [Hy|Hy]; auto.
Qed.

Definition names_ok (pl : plan) : Prop := Forall nne (pl_names pl).
Definition dst_ok (droot : apath) (dst : list (apath * entry)) : Prop :=
  Forall (fun x => strictly_under droot (fst x) = true) dst.
Definition res_ok (droot : apath) (s : fs) (r : outcome * fs * plan) : Prop :=
  conf droot s (snd (fst r)) /\ names_ok (snd r).

Lemma res_ok_trans droot s s1 r : conf droot s s1 -> res_ok droot s1 r -> res_ok droot s r.
Proof. intros H [H1 H2]. split; [eapply conf_trans; eassumption|assumption]. Qed.

Lemma drop_under_ok droot p dst : dst_ok droot dst -> dst_ok droot (drop_under p dst).
Proof.
  unfold dst_ok. induction dst; simpl; intros H; [constructor|]. inv H.
  destruct (is_prefix p (fst a)); [auto|constructor; assumption].
Qed.
(* collect's two moves in continuation form (k is the rest of the loop): the step is confined and
   leaves the walk below the root resp. the plan's names normal *)
Lemma after_existing droot o s d rest (k : fs -> list (apath * entry) -> outcome * fs * plan) :
  strictly_under droot (fst d) = true -> dst_ok droot rest ->
  (forall s1 rest1, dst_ok droot rest1 -> res_ok droot s1 (k s1 rest1)) ->
  res_ok droot s (let '(s1, rest1) := process_existing o s d rest in k s1 rest1).
Proof.
  intros Hd Hr Hk. unfold process_existing. eapply res_ok_trans; [apply conf_frame|apply Hk].
  - destruct (o_delete o); [|apply frame_refl].
    destruct (is_dir_entry (snd d)); [apply frame_del_tree|apply frame_del]; assumption.
  - destruct (is_dir_entry (snd d)); [apply drop_under_ok|]; assumption.
Qed.

Lemma add_file_names o droot s pl path blobs size mt :
  nne path -> names_ok pl -> names_ok (add_file o droot s pl path blobs size mt).
Proof.
  intros Hp Hn. assert (Hn' : Forall nne (pl_names pl ++ [path])) by (apply Forall_app; split; [assumption|repeat constructor; assumption]).
  unfold add_file.
  destruct (get_matching_file s (dpath droot path) size) as [[d m]|];
    [destruct (size =? 0); [assumption|]; destruct (_ && _); [assumption|]|]; destruct (plan_blobs _ _ _ _ _); exact Hn'.
Qed.
Lemma after_node droot o s pl path it ex (k : fs -> plan -> outcome * fs * plan) :
  nne path -> names_ok pl ->
  (forall s2 pl2, names_ok pl2 -> res_ok droot s2 (k s2 pl2)) ->
  res_ok droot s (match process_node o droot s pl path it ex with (OOk, s2, pl2) => k s2 pl2 | other => other end).
Proof.
  intros Hp Hn Hk. assert (Hrefl : forall oc, res_ok droot s (oc, s, pl)) by (split; [apply conf_refl|assumption]).
  unfold process_node. destruct it.
  - eapply res_ok_trans; [apply conf_refl|]. apply Hk, add_file_names; assumption.
  - destruct ex; [eapply res_ok_trans; [apply conf_refl|auto]|].
    destruct (mkdir_all s (dpath droot path)) eqn:E; [|apply Hrefl].
    eapply res_ok_trans; [|auto]. eapply mkdir_all_conf; [|exact E]. apply su_prefix, su_dpath, Hp.
  - eapply res_ok_trans; [apply conf_refl|auto].
Qed.

Lemma collect_conf c droot o : forall fuel s pl dst nodes,
  names_ok pl -> dst_ok droot dst -> items_ok nodes -> res_ok droot s (collect c fuel o droot s pl dst nodes).
Proof.
  induction fuel as [|fuel IH]; intros s pl dst nodes Hn Hd Hi; cbn [collect].
  - split; [apply conf_refl|assumption].
  - assert (Hrefl : forall oc, res_ok droot s (oc, s, pl)) by (split; [apply conf_refl|assumption]).
    assert (Htl : forall x ns, nodes = x :: ns -> items_ok ns) by (intros x ns ->; intros y Hy; apply Hi; right; assumption).
    assert (Hhd : forall x ns, nodes = Some x :: ns -> nne (fst x)) by (intros x ns ->; apply Hi; left; reflexivity).
    destruct dst as [|d ds]; destruct nodes as [|[[path it]|] ns]; try apply Hrefl.
    + apply after_node; [apply (Hhd _ _ eq_refl)|assumption|]. intros. apply IH; eauto.
    + inv Hd. apply after_existing; auto.
    + pose proof (Hhd _ _ eq_refl) as Hp. pose proof (Htl _ _ eq_refl) as Hns. pose proof Hd as Hd0. inv Hd.
      destruct (pcmp _ _).
      * destruct (type_mismatch it (snd d)); [apply after_existing; auto; intros|]; apply after_node; auto.
      * apply after_existing; auto.
      * apply after_node; auto.
Qed.

Lemma ins_sorted_in x l y : In y (ins_sorted x l) <-> x = y \/ In y l.
Proof.
  induction l as [|z t IH]; simpl; [tauto|].
  destruct (ncmp (fst x) (fst z)); simpl; rewrite ?IH; tauto.
Qed.
Lemma sort_entries_in l y : In y (sort_entries l) <-> In y l.
Proof. induction l; simpl; [reflexivity|]. rewrite ins_sorted_in, IHl. reflexivity. Qed.
Lemma walk_in droot s d : In d (walk droot s) <-> In d s /\ strictly_under droot (fst d) = true.
Proof. unfold walk. rewrite sort_entries_in. apply filter_In. Qed.
Lemma walk_ok droot s : dst_ok droot (walk droot s).
Proof. apply Forall_forall. intros x Hx. apply walk_in in Hx. tauto. Qed.

Lemma create_empty_conf droot : forall names lens s s',
  Forall nne names -> create_empty droot s names lens = Some s' -> conf droot s s'.
Proof.
  induction names as [|nm ns IH]; intros lens s s' Hn H; simpl in H; [inv H; apply conf_refl|].
  destruct lens as [|l ls]; [inv H; apply conf_refl|]. inv Hn.
  destruct (l =? 0); [|eauto].
  destruct (set_length s (dpath droot nm) 0) as [s1|] eqn:E; [|discriminate].
  eapply conf_trans; [eapply set_length_conf; [|exact E]; apply su_dpath; assumption|eauto].
Qed.

Lemma write_dest_conf c o droot names pre d x fl x' :
  Forall nne names -> write_dest c o droot names pre d (Some x) fl = Some x' -> conf droot (fst x) (fst x').
Proof.
  intros Hn H. destruct x as [s sizes]. unfold write_dest in H.
  destruct (nth_name names (fl_idx fl)) as [nm|] eqn:En; [|discriminate].
  assert (Hp : strictly_under droot (dpath droot nm) = true).
  { apply su_dpath. apply nth_error_In in En. rewrite Forall_forall in Hn. auto. }
  assert (Hw : forall s1 sz1, (if o_sparse o && all_zero d && negb (c_sparse_pre c && nth (fl_idx fl) pre false) then Some (s1, sz1)
                 else match write_at s1 (dpath droot nm) (fl_start fl) d with Some s2 => Some (s2, sz1) | None => None end) = Some x' ->
               conf droot s1 (fst x')).
  { intros s1 sz1 Hx. destruct (_ && _); [inv Hx; apply conf_refl|].
    destruct (write_at s1 _ _ _) eqn:E; inv Hx. eapply conf_frame, write_at_frame; eauto. }
  destruct (0 <? nth (fl_idx fl) sizes 0); [|eauto].
  destruct (set_length s _ _) as [s1|] eqn:E; [|discriminate].
  eapply conf_trans; [eapply set_length_conf; eauto|eauto].
Qed.
Lemma do_entry_conf c o droot names pre x e x' :
  Forall nne names -> do_entry c o droot names pre (Some x) e = Some x' -> conf droot (fst (fst x)) (fst (fst x')).
Proof.
  intros Hn H. destruct x as [[s sizes] reads]. unfold do_entry in H. destruct e as [k [data fls]].
  destruct (filter (fun fl => negb (fl_matches fl)) fls) as [|fl0 dests] eqn:Ed; [inv H; apply conf_refl|].
  match type of H with match ?src with _ => _ end = _ => destruct src as [[d rd]|]; [|discriminate] end.
  destruct (fold_left _ _ _) as [[s2 sz2]|] eqn:E; inv H.
  apply (fold_conf droot _ fst (fun _ => eq_refl) (fun x a x' => write_dest_conf _ _ _ _ _ _ x a x' Hn) _ _ _ E).
Qed.
Lemma restore_contents_conf c o droot s pl :
  names_ok pl -> conf droot s (snd (fst (restore_contents c o droot s pl))).
Proof.
  intros Hn. unfold restore_contents.
  destruct (create_empty droot s (pl_names pl) (pl_lengths pl)) as [s1|] eqn:E; [|apply conf_refl].
  pose proof (create_empty_conf _ _ _ _ _ Hn E) as F1.
  destruct (fold_left _ _ _) as [[[s2 sz] rd]|] eqn:E2; [|exact F1].
  eapply conf_trans; [exact F1|].
  apply (fold_conf droot _ (fun x => fst (fst x)) (fun _ => eq_refl) (fun x a x' => do_entry_conf _ _ _ _ _ x a x' Hn) _ _ _ E2).
Qed.

(* set_metadata on the entry at the item's path (parent: the parent directory exists) *)
Definition meta_at (it : item) (e : option entry) (parent : bool) : option entry :=
  match it, e with
  | ILink t, None => if parent then Some (ELink t) else None
  | IFile _ _ mt mo, Some (EFile d _ _) | IDir mt mo, Some (EFile d _ _) => Some (EFile d mt mo)
  | IFile _ _ mt mo, Some (EDir _ _) | IDir mt mo, Some (EDir _ _) => Some (EDir mt mo)
  | _, _ => e
  end.
Lemma set_metadata_get droot s x q :
  fs_get (set_metadata droot s x) q =
  if path_eqb (dpath droot (fst x)) q
  then meta_at (snd x) (fs_get s (dpath droot (fst x)))
               (dir_exists s (removelast (dpath droot (fst x))) && negb (path_eqb (dpath droot (fst x)) []))
  else fs_get s q.
Proof.
  unfold set_metadata. set (p := dpath droot (fst x)).
  destruct (path_eqb p q) eqn:Eq; [apply path_eqb_eq in Eq; subst q|];
    (destruct (snd x); unfold set_perm, set_times, symlink_at;
     destruct (fs_get s p) as [[| |]|] eqn:E; cbn [or_keep meta_at]; rewrite ?get_set_same, ?E; cbn [or_keep];
     try destruct (_ && _); cbn [or_keep]; rewrite ?get_set, ?path_eqb_refl, ?Eq; auto).
Qed.
Lemma set_metadata_frame droot s x : nne (fst x) -> frame droot s (set_metadata droot s x).
Proof.
  intros Hx q Hq. rewrite set_metadata_get, path_eqb_neq; [reflexivity|].
  intros E. rewrite <- E, su_dpath in Hq by assumption. discriminate.
Qed.
Lemma fold_meta_frame droot : forall stack s, Forall (fun x => nne (fst x)) stack ->
  frame droot s (fold_left (set_metadata droot) stack s).
Proof.
  induction stack; simpl; intros s H; [apply frame_refl|]. inv H.
  eapply frame_trans; [apply set_metadata_frame; eassumption|auto].
Qed.
Lemma pop_split droot path : forall stack s, exists popped rest, stack = popped ++ rest /\
  pop_non_parents droot s stack path = (fold_left (set_metadata droot) popped s, rest).
Proof.
  induction stack as [|x t IH]; intros s; simpl; [exists [], []; auto|].
  destruct (pstarts_with path (fst x)); [exists [], (x :: t); auto|].
  destruct (IH (set_metadata droot s x)) as (popped & rest & -> & E). exists (x :: popped), rest. auto.
Qed.
(* the metadata pass applies set_metadata to the items of the stack and of the stream in some
   order: to all of them, unless the stream holds an error item *)
Lemma meta_loop_fold droot : forall nodes s stack, exists l,
  meta_loop droot s stack nodes = fold_left (set_metadata droot) l s /\
  (forall x, In x l -> In x stack \/ In (Some x) nodes) /\
  (~ In None nodes -> forall x, In x stack \/ In (Some x) nodes -> In x l).
Proof.
  induction nodes as [|[[path it]|] ns IH]; intros s stack; simpl.
  - exists stack. split; [reflexivity|]. split; [auto|]. intros _ x [H|[]]. exact H.
  - destruct (is_idir it).
    + destruct (pop_split droot path stack s) as (popped & rest & -> & ->).
      destruct (IH (fold_left (set_metadata droot) popped s) ((path, it) :: rest)) as (l & E & I1 & I2).
      exists (popped ++ l). split; [rewrite fold_left_app; exact E|]. split.
      * intros x Hx. rewrite in_app_iff in *. destruct Hx as [Hx|Hx]; [auto|].
        destruct (I1 x Hx) as [[<-|H]|H]; auto.
      * intros Hn x Hx. rewrite in_app_iff in *. destruct Hx as [[Hx|Hx]|[Hx|Hx]]; [auto| | |].
        -- right. apply I2; [tauto|]. left. right. exact Hx.
        -- inv Hx. right. apply I2; [tauto|]. left. left. reflexivity.
        -- right. apply I2; [tauto|]. right. exact Hx.
    + destruct (IH (set_metadata droot s (path, it)) stack) as (l & E & I1 & I2).
      exists ((path, it) :: l). split; [exact E|]. split.
      * intros x [<-|Hx]; [right; left; reflexivity|]. destruct (I1 x Hx); auto.
      * intros Hn x [Hx|[Hx|Hx]]; [right; apply I2; [tauto|auto]|inv Hx; left; reflexivity|right; apply I2; [tauto|auto]].
  - exists []. split; [reflexivity|]. split; [intros x []|]. intros Hn. destruct Hn. left. reflexivity.
Qed.
Lemma meta_loop_frame droot nodes s stack : items_ok nodes -> Forall (fun x => nne (fst x)) stack ->
  frame droot s (meta_loop droot s stack nodes).
Proof.
  intros Hi Hs. destruct (meta_loop_fold droot nodes s stack) as (l & -> & I1 & _).
  apply fold_meta_frame, Forall_forall. intros x Hx. rewrite Forall_forall in Hs. destruct (I1 x Hx); auto.
Qed.

Lemma restore_frame c o droot roots s :
  c_names c = true -> dirs_ok droot s -> frame droot s (r_fs (restore c o droot roots s)).
Proof.
  intros Hc. pose proof (stream_ok c roots Hc) as Hi. change (conf droot s (r_fs (restore c o droot roots s))).
  unfold restore, collect_and_prepare.
  destruct (collect_conf c droot o (S (length (walk droot s) + length (stream c roots))) s plan0 _ _
              (Forall_nil _) (walk_ok droot s) Hi) as [F1 N1].
  destruct (collect c _ o droot s plan0 (walk droot s) (stream c roots)) as [[oc s1] pl].
  destruct oc; try exact F1. eapply conf_trans; [exact F1|].
  pose proof (restore_contents_conf c o droot s1 pl N1) as F2.
  destruct (restore_contents c o droot s1 pl) as [[oc2 s2] reads].
  destruct oc2; try exact F2. eapply conf_trans; [exact F2|].
  apply conf_frame, meta_loop_frame; [assumption|constructor].
Qed.
