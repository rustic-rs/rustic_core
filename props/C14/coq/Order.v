(* C14 — the component-wise path order (Path::cmp, WalkDir::sort_by_file_name) and the shape of
   the node stream: nodes_ok and sortedness of the flattening derived from the tree. *)
From Verif.Base Require Import Tactics Lists.
From Verif.C14 Require Import Model Witness Proofs Exact2 Exact4 Exact5 Exact6 Exact8.

Lemma ncmp_refl a : ncmp a a = Eq.
Proof. induction a; simpl; [reflexivity|]. rewrite N.compare_refl. assumption. Qed.
Lemma ncmp_eq a : forall b, ncmp a b = Eq -> a = b.
Proof.
  induction a; destruct b; simpl; intros H; try discriminate; [reflexivity|].
  destruct (a ?= n)%N eqn:E; try discriminate. apply N.compare_eq in E. subst. f_equal. auto.
Qed.
Lemma ncmp_antisym a : forall b, ncmp b a = CompOpp (ncmp a b).
Proof.
  induction a; destruct b; simpl; auto. rewrite (N.compare_antisym a n).
  destruct (a ?= n)%N; simpl; auto.
Qed.
Lemma ncmp_gt_lt a b : ncmp a b = Gt -> ncmp b a = Lt.
Proof. intros H. rewrite ncmp_antisym, H. reflexivity. Qed.
Lemma ncmp_trans a : forall b c, ncmp a b = Lt -> ncmp b c = Lt -> ncmp a c = Lt.
Proof.
  induction a; destruct b, c; simpl; try discriminate; auto.
  destruct (a ?= n)%N eqn:E1; destruct (n ?= n0)%N eqn:E2; try discriminate; intros H1 H2.
  - apply N.compare_eq in E1, E2. subst. rewrite N.compare_refl. eauto.
  - apply N.compare_eq in E1. subst. rewrite E2. reflexivity.
  - apply N.compare_eq in E2. subst. rewrite E1. reflexivity.
  - apply N.compare_lt_iff in E1, E2. pose proof (N.lt_trans _ _ _ E1 E2) as H. apply N.compare_lt_iff in H. rewrite H. reflexivity.
Qed.
Lemma ncmp_lt_neq a b : ncmp a b = Lt -> a <> b.
Proof. intros H ->. rewrite ncmp_refl in H. discriminate. Qed.
Lemma ncmp_app_head p : forall a b, ncmp (p ++ a) (p ++ b) = ncmp a b.
Proof. induction p; simpl; intros; [reflexivity|]. rewrite N.compare_refl. auto. Qed.
Lemma ncmp_prefix_lt p x : x <> [] -> ncmp p (p ++ x) = Lt.
Proof.
  intros H. rewrite <- (app_nil_r p) at 1. rewrite ncmp_app_head. destruct x; [congruence|reflexivity].
Qed.
Lemma ncmp_sib pre a b x y : (a ?= b)%N = Lt -> ncmp (pre ++ a :: x) (pre ++ b :: y) = Lt.
Proof. intros H. rewrite ncmp_app_head. simpl. rewrite H. reflexivity. Qed.

Lemma pcmp_normal : forall a b, pcmp (map CNormal a) (map CNormal b) = ncmp a b.
Proof. induction a; destruct b; simpl; auto. destruct (a ?= n)%N; auto. Qed.
Lemma cmp_comps_np droot l : cmp_comps droot (np l) = map CNormal (droot ++ l).
Proof.
  unfold cmp_comps, djoin, pjoin, np, root_of. simpl. rewrite <- map_app.
  induction (droot ++ l); simpl; [reflexivity|]. rewrite IHl0. reflexivity.
Qed.
(* the comparison of collect's merge-walk *)
Lemma merge_cmp_is_ncmp droot (d : apath * entry) (y : nodeT) :
  pcmp (map CNormal (fst d)) (cmp_comps droot (np (fst y))) = ncmp (fst d) (Pn droot y).
Proof. rewrite cmp_comps_np. apply pcmp_normal. Qed.

(* the paths below p form an interval: whatever lies after p and not below p lies after all of them *)
Lemma interval p : forall y z, is_prefix p y = true -> ncmp p z = Lt -> is_prefix p z = false -> ncmp y z = Lt.
Proof.
  induction p as [|a p IH]; intros y z Hy Hz Hn; [discriminate|].
  destruct y as [|b y]; [discriminate|]. simpl in Hy. apply andb_true_iff in Hy as [Hab Hy]. apply N.eqb_eq in Hab. subst b.
  destruct z as [|c z]; [discriminate|]. simpl in *.
  destruct (a ?= c)%N eqn:E; try discriminate; [|reflexivity].
  apply N.compare_eq in E. subst c. rewrite N.eqb_refl in Hn. simpl in Hn. eauto.
Qed.
Lemma prefix_le p q : is_prefix p q = true -> p = q \/ ncmp p q = Lt.
Proof.
  intros H. apply is_prefix_inv in H as [r ->]. destruct r; [left; symmetry; apply app_nil_r|right; apply ncmp_prefix_lt; discriminate].
Qed.

Definition ncomp (n : node) : name :=
  match n with Node (mkP false [CNormal a]) _ _ => a | _ => 0%N end.

Lemma flat_node_shape nm it ch pre : nnb (Node nm it ch) = true ->
  flat_node pre (Node nm it ch) =
    (pre ++ [ncomp (Node nm it ch)], it) :: (if is_idir it then flat_list (pre ++ [ncomp (Node nm it ch)]) ch else []) /\
  (is_idir it = true -> forallb nnb ch = true).
Proof.
  intros H. simpl in H. apply andb_true_iff in H as [Hn Hc].
  destruct (name_ok_np _ Hn) as [a ->]. simpl. rewrite flat_go_eq.
  split; [reflexivity|]. intros Hd. rewrite Hd in Hc. assumption.
Qed.

(* where the paths of a flattening start, and that it is prefix-closed above pre: one induction,
   because the second needs the first for the very sub-list its hypothesis is about *)
Lemma flat_paths_gen :
  (forall n pre x, nnb n = true -> In x (flat_node pre n) ->
     exists t, fst x = pre ++ ncomp n :: t /\
       forall j, length pre < j < length (fst x) -> exists mt mo, In (firstn j (fst x), IDir mt mo) (flat_node pre n)) /\
  (forall l pre x, forallb nnb l = true -> In x (flat_list pre l) ->
     exists c t, In c l /\ fst x = pre ++ ncomp c :: t /\
       forall j, length pre < j < length (fst x) -> exists mt mo, In (firstn j (fst x), IDir mt mo) (flat_list pre l)).
Proof.
  apply node_list_ind.
  - intros nm it ch IH pre x Hn Hx. destruct (flat_node_shape nm it ch pre Hn) as [Ef Hc]. rewrite Ef in *.
    set (a := ncomp (Node nm it ch)) in *. destruct Hx as [<-|Hx].
    + exists []. split; [reflexivity|]. intros j Hj. simpl in Hj. rewrite app_length in Hj. simpl in Hj. lia.
    + destruct (is_idir it) eqn:Ed; [|destruct Hx]. destruct (IH (pre ++ [a]) x (Hc eq_refl) Hx) as (c & t & _ & Et & Hcl).
      exists (ncomp c :: t). split; [rewrite Et, <- app_assoc; reflexivity|]. intros j Hj.
      destruct (Nat.eq_dec j (length (pre ++ [a]))) as [->|Hne].
      * destruct it; try discriminate. exists mtime, mode. left. rewrite Et, firstn_app_exact by reflexivity. reflexivity.
      * destruct (Hcl j) as (m & mo & H); [rewrite app_length in *; simpl in *; lia|]. exists m, mo. right. exact H.
  - intros pre x _ [].
  - intros c cs IHc IHcs pre x Hb Hx. simpl in Hb, Hx. apply andb_true_iff in Hb as [H1 H2]. simpl. apply in_app_or in Hx as [Hx|Hx].
    + destruct (IHc _ _ H1 Hx) as (t & Et & Hcl). exists c, t. split; [left; reflexivity|]. split; [exact Et|].
      intros j Hj. destruct (Hcl j Hj) as (m & mo & H). exists m, mo. apply in_or_app. auto.
    + destruct (IHcs _ _ H2 Hx) as (c' & t & Hc' & Et & Hcl). exists c', t. split; [right; exact Hc'|]. split; [exact Et|].
      intros j Hj. destruct (Hcl j Hj) as (m & mo & H). exists m, mo. apply in_or_app. auto.
Qed.
Definition flat_list_paths := proj2 flat_paths_gen.

Section FlatPairs.
Variable r : name -> name -> Prop.
Variable R : list name -> list name -> Prop.
Hypothesis P1 : forall p x, x <> [] -> R p (p ++ x).
Hypothesis P2 : forall pre a b x y, r a b -> R (pre ++ a :: x) (pre ++ b :: y).

(* the children of every visited directory are pairwise r-related by name, in order *)
Fixpoint sibs_ok (n : node) : Prop :=
  match n with
  | Node nm it ch =>
    if is_idir it
    then StronglySorted r (map ncomp ch) /\
         (fix all (l : list node) : Prop := match l with [] => True | x :: t => sibs_ok x /\ all t end) ch
    else True
  end.
Fixpoint sibs_all (l : list node) : Prop := match l with [] => True | x :: t => sibs_ok x /\ sibs_all t end.
Lemma sibs_all_eq : forall l,
  (fix all (l : list node) : Prop := match l with [] => True | x :: t => sibs_ok x /\ all t end) l = sibs_all l.
Proof. induction l; simpl; [reflexivity|]. rewrite IHl. reflexivity. Qed.

(* if sibling names are pairwise r-related, and R relates a path to what lies below it and the
   paths below two r-related siblings, then the paths of the flattening are pairwise R-related *)
Lemma flat_pairs_gen :
  (forall n pre, nnb n = true -> sibs_ok n -> StronglySorted R (map fst (flat_node pre n))) /\
  (forall l pre, forallb nnb l = true -> StronglySorted r (map ncomp l) -> sibs_all l ->
     StronglySorted R (map fst (flat_list pre l))).
Proof.
  apply node_list_ind.
  - intros nm it ch IH pre Hn Hs. destruct (flat_node_shape nm it ch pre Hn) as [Ef Hc]. rewrite Ef.
    simpl in Hs. cbn [map fst]. destruct (is_idir it); [|repeat constructor].
    destruct Hs as [Hs1 Hs2]. rewrite sibs_all_eq in Hs2. specialize (Hc eq_refl). constructor; [auto|].
    apply Forall_forall. intros q Hq. apply in_map_iff in Hq as (x & <- & Hx).
    destruct (flat_list_paths _ _ _ Hc Hx) as (c & t & _ & -> & _). apply P1. discriminate.
  - constructor.
  - intros c cs IHc IHcs pre Hb Hs [Ha1 Ha2]. simpl in Hb, Hs. apply andb_true_iff in Hb as [H1 H2]. inv Hs.
    simpl. rewrite map_app. apply StronglySorted_app; auto.
    intros a b Ha Hb. apply in_map_iff in Ha as (x & <- & Hx). apply in_map_iff in Hb as (y & <- & Hy).
    destruct (proj1 flat_paths_gen _ _ _ H1 Hx) as (t1 & -> & _).
    destruct (flat_list_paths _ _ _ H2 Hy) as (c2 & t2 & Hc2 & -> & _).
    apply P2. rewrite Forall_forall in H4. apply H4, in_map, Hc2.
Qed.
Definition flat_list_pairs := proj2 flat_pairs_gen.
End FlatPairs.

Lemma ss_neq_nodup {A} (l : list A) : StronglySorted (fun a b => a <> b) l -> NoDup l.
Proof.
  induction 1; constructor; auto. intros Hin. rewrite Forall_forall in H0. apply (H0 a Hin). reflexivity.
Qed.

Definition sibs_distinct (roots : list node) : Prop :=
  StronglySorted (fun a b => a <> b) (map ncomp roots) /\ sibs_all (fun a b => a <> b) roots.
(* children sorted by name, as the archiver stores them (and as the merge-walk needs them) *)
Definition sibs_sorted (roots : list node) : Prop :=
  StronglySorted (fun a b => (a ?= b)%N = Lt) (map ncomp roots) /\ sibs_all (fun a b => (a ?= b)%N = Lt) roots.

Lemma flat_nodup roots : forallb nnb roots = true -> sibs_distinct roots -> NoDup (map fst (flat_list [] roots)).
Proof.
  intros Hn [H1 H2]. apply ss_neq_nodup.
  apply (flat_list_pairs (fun a b => a <> b) (fun p q => p <> q)); auto.
  - intros p x Hx E. rewrite <- (app_nil_r p) in E at 1. apply app_inv_head in E. congruence.
  - intros pre a b x y Hab E. apply app_inv_head in E. congruence.
Qed.
Lemma flat_sorted roots : forallb nnb roots = true -> sibs_sorted roots ->
  StronglySorted (fun p q => ncmp p q = Lt) (map fst (flat_list [] roots)).
Proof.
  intros Hn [H1 H2].
  apply (flat_list_pairs (fun a b => (a ?= b)%N = Lt) (fun p q => ncmp p q = Lt)); auto.
  - intros p x Hx. apply ncmp_prefix_lt. assumption.
  - intros pre a b x y Hab. apply ncmp_sib. assumption.
Qed.
Lemma StronglySorted_impl {A} (r r' : A -> A -> Prop) l :
  (forall a b, r a b -> r' a b) -> StronglySorted r l -> StronglySorted r' l.
Proof. intros Hr. induction 1; constructor; auto. eapply Forall_impl; [|eassumption]. auto. Qed.
Lemma sibs_all_impl (r r' : name -> name -> Prop) : (forall a b, r a b -> r' a b) ->
  forall l, sibs_all r l -> sibs_all r' l.
Proof.
  intros Hr. apply (node_list_ind (fun n => sibs_ok r n -> sibs_ok r' n) (fun l => sibs_all r l -> sibs_all r' l)).
  - intros nm it ch IH. simpl. destruct (is_idir it); [|auto]. rewrite !sibs_all_eq.
    intros [A B]. eauto using StronglySorted_impl.
  - auto.
  - intros x t Hx Ht [A B]. split; auto.
Qed.
Lemma sorted_distinct roots : sibs_sorted roots -> sibs_distinct roots.
Proof.
  intros [H1 H2].
  assert (Hr : forall a b : name, (a ?= b)%N = Lt -> a <> b) by (intros a b H ->; rewrite N.compare_refl in H; discriminate).
  split; [exact (StronglySorted_impl _ _ _ Hr H1)|exact (sibs_all_impl _ _ Hr _ H2)].
Qed.

Lemma flat_prefix_closed roots : forallb nnb roots = true -> prefix_closed (flat_list [] roots).
Proof. intros Hn x j Hx Hj. destruct (flat_list_paths roots [] x Hn Hx) as (_ & _ & _ & _ & H). apply H. simpl. lia. Qed.

Definition tree_blobs (roots : list node) : list blob := flat_map (fun f : fileT => snd f) (files_of (flat_list [] roots)).
Definition index_consistent (roots : list node) : Prop :=
  forall b b', In b (tree_blobs roots) -> In b' (tree_blobs roots) -> bkey b = bkey b' -> b_data b = b_data b'.

Theorem nodes_ok_of_tree roots :
  forallb nnb roots = true -> sibs_distinct roots -> index_consistent roots -> nodes_ok (flat_list [] roots).
Proof.
  intros Hn Hd Hi. split; [apply flat_nodup; assumption|]. split; [|split].
  - intros x Hx. destruct (flat_list_paths roots [] x Hn Hx) as (c & t & _ & E & _). rewrite E. discriminate.
  - apply flat_prefix_closed, Hn.
  - intros f f' b b' Hf Hf' Hb Hb' Hk. apply Hi; auto; unfold tree_blobs; apply in_flat_map; eauto.
Qed.

(* the example of Exact6 meets what the theorems ask of trees and worlds *)
Lemma exampleY_tree :
  forallb nnb snapY = true /\ flat_list [] snapY = nodesY /\ sibs_sorted snapY /\ index_consistent snapY /\
  NoDup (map fst worldY) /\ dirs_ok droot0 worldY /\ (forall x, In x nodesY -> fs_get worldY (Pn droot0 x) = None).
Proof.
  split; [reflexivity|]. split; [reflexivity|]. split; [|split; [|split; [|split]]].
  - split; simpl; repeat (split || constructor).
  - intros b b' Hb Hb' Hk. simpl in Hb, Hb'. intuition (subst; try reflexivity; discriminate).
  - simpl. repeat constructor; simpl; intuition discriminate.
  - intros [|[|[|k]]]; reflexivity.
  - intros x Hx. simpl in Hx. destruct Hx as [<-|[<-|[<-|[<-|[]]]]]; reflexivity.
Qed.
