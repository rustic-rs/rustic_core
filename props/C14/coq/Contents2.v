(* C14 — restore_contents on a plan with REAL match flags: files that do not exist, files that
   exist with another size (preexisting, nothing matches) and files that exist with the snapshot's
   size (per-blob flags).  Locations flagged `matches` are not written; a (pack, location) entry
   with a matching location is read from that existing file (`from_file`) instead of the pack and
   written to the other files.  Afterwards every planned file is the concatenation of its blobs.
   Invariant per byte: already the snapshot's byte, or still the byte of the base content (old
   bytes resized, or zeros of the allocation) and not covered by a processed location.
   The order in which the plan lists the locations plays no role. *)
From Verif.Base Require Import Tactics.
From Verif.C14 Require Import Model Proofs Exact1 Exact2 Exact3.

(* a planned file: (relative path, blobs) and the content of the regular file that exists there *)
Notation gfileT := (fileT * option (list N))%type.
Definition gf_len (g : gfileT) : nat := blen (snd (fst g)).
Definition gbeta (g : gfileT) : list N :=
  match snd g with None => zeros (gf_len g) | Some d0 => resize d0 (gf_len g) end.
Definition gpre (g : gfileT) : bool := match snd g with Some _ => true | None => false end.
(* the flag of location kk may only be set if the existing file has the snapshot's size and holds the blob there *)
Definition gmatch_ok (g : gfileT) (kk : nat) (b : blob) : Prop :=
  exists d0, snd g = Some d0 /\ length d0 = gf_len g /\
    firstn (dlen b) (skipn (blen (firstn kk (snd (fst g)))) d0) = b_data b.

Section GState.
Variable droot : apath.
Definition gstate0 (s : fs) (g : gfileT) : Prop :=
  match snd g with
  | None => fs_get s (P droot (fst g)) = None
  | Some d0 => exists mt mo, fs_get s (P droot (fst g)) = Some (EFile d0 mt mo)
  end.
End GState.

Definition gpointwise (g : gfileT) (S : list job) (i : nat) (d : list N) : Prop :=
  forall x, x < gf_len g ->
    nth x d 0%N = nth x (econt (snd (fst g))) 0%N \/ (nth x d 0%N = nth x (gbeta g) 0%N /\ ~ covered S i x).
(* not yet allocated (what stood there before still stands), or allocated with its full length *)
Definition gfstate droot (s : fs) (sizes : list N) (S : list job) (i : nat) (g : gfileT) : Prop :=
  (nth i sizes 0%N = N.of_nat (gf_len g) /\ 0 < gf_len g /\ (forall x, ~ covered S i x) /\ gstate0 droot s g)
  \/ (nth i sizes 0%N = 0%N /\ exists d mt mo, fs_get s (P droot (fst g)) = Some (EFile d mt mo) /\
        length d = gf_len g /\ gpointwise g S i d).

Record GInv droot (gfiles : list gfileT) (s0 s : fs) (sizes : list N) (S : list job) : Prop := mkGI {
  gi_dirs : dirs_ok droot s;
  gi_par : parents_ok droot (map fst gfiles) s;
  gi_len : length sizes = length gfiles;
  gi_files : forall i g, nth_error gfiles i = Some g -> gfstate droot s sizes S i g;
  gi_frame : forall q, (forall g, In g gfiles -> q <> P droot (fst g)) -> fs_get s q = fs_get s0 q }.

(* a location of the plan: a blob of its file at the blob's offset, with the blob's bytes *)
Definition gvjob (gfiles : list gfileT) (j : job) : Prop :=
  exists g kk b, nth_error gfiles (fl_idx (snd j)) = Some g /\ nth_error (snd (fst g)) kk = Some b /\
    fl_start (snd j) = N.of_nat (blen (firstn kk (snd (fst g)))) /\ fst j = b_data b /\
    (fl_matches (snd j) = true -> gmatch_ok g kk b).

Lemma resize_length d n : length (resize d n) = n.
Proof. unfold resize. rewrite app_length, firstn_length, zeros_length. lia. Qed.
Lemma resize_same d : resize d (length d) = d.
Proof. unfold resize. rewrite firstn_all, Nat.sub_diag. apply app_nil_r. Qed.
Lemma gbeta_length g : length (gbeta g) = gf_len g.
Proof. unfold gbeta. destruct (snd g); [apply resize_length|apply zeros_length]. Qed.

Lemma gnodup_idx (gfiles : list gfileT) i i' g g' :
  NoDup (map fst (map fst gfiles)) -> nth_error gfiles i = Some g -> nth_error gfiles i' = Some g' ->
  fst (fst g) = fst (fst g') -> i = i'.
Proof.
  rewrite map_map. apply (nodup_map_idx (fun g : gfileT => fst (fst g))).
Qed.

Lemma gstate0_not_dir droot s g m mo : gstate0 droot s g -> fs_get s (P droot (fst g)) <> Some (EDir m mo).
Proof. unfold gstate0. destruct (snd g); [intros (? & ? & H)|intros H]; congruence. Qed.
Lemma gstate0_ext droot s s' g :
  fs_get s' (P droot (fst g)) = fs_get s (P droot (fst g)) -> gstate0 droot s g -> gstate0 droot s' g.
Proof. unfold gstate0. intros ->. auto. Qed.

Lemma mkdir_parent_noop droot s l : dirs_ok droot s -> l <> [] ->
  (forall j, 0 < j < length l -> isdir s (droot ++ firstn j l)) ->
  mkdir_all s (removelast (droot ++ l)) = Some s.
Proof.
  intros Hok Hl Hp. rewrite removelast_app by assumption. apply (mkdir_all_noop droot s (removelast l) Hok).
  intros q (j & Hj & ->). assert (length (removelast l) = length l - 1).
  { rewrite removelast_firstn_len, firstn_length. lia. }
  rewrite removelast_firstn_eq by lia. apply Hp. lia.
Qed.
Lemma set_length_fresh_P droot s l n :
  dirs_ok droot s -> l <> [] ->
  (forall j, 0 < j < length l -> isdir s (droot ++ firstn j l)) ->
  fs_get s (droot ++ l) = None ->
  set_length s (droot ++ l) n = Some (fs_set s (droot ++ l) (EFile (zeros (N.to_nat n)) new_mtime new_fmode)).
Proof.
  intros Hok Hl Hp Hg. unfold set_length.
  destruct (droot ++ l) eqn:E; [destruct droot; destruct l; try discriminate; congruence|]. rewrite <- E in *.
  rewrite (mkdir_parent_noop droot s l Hok Hl Hp), Hg. reflexivity.
Qed.
Lemma set_length_existing_P droot s l n d0 mt mo :
  dirs_ok droot s -> l <> [] ->
  (forall j, 0 < j < length l -> isdir s (droot ++ firstn j l)) ->
  fs_get s (droot ++ l) = Some (EFile d0 mt mo) ->
  set_length s (droot ++ l) n = Some (fs_set s (droot ++ l) (EFile (resize d0 (N.to_nat n)) new_mtime mo)).
Proof.
  intros Hok Hl Hp Hg. unfold set_length.
  destruct (droot ++ l) eqn:E; [destruct droot; destruct l; try discriminate; congruence|]. rewrite <- E in *.
  rewrite (mkdir_parent_noop droot s l Hok Hl Hp), Hg. reflexivity.
Qed.

(* set_length to the planned length of a file whose parents exist: the base content *)
Lemma set_length_g droot s (g : gfileT) :
  dirs_ok droot s -> fst (fst g) <> [] ->
  (forall j, 0 < j < length (fst (fst g)) -> isdir s (droot ++ firstn j (fst (fst g)))) ->
  gstate0 droot s g ->
  exists mo, set_length s (P droot (fst g)) (N.of_nat (gf_len g)) =
             Some (fs_set s (P droot (fst g)) (EFile (gbeta g) new_mtime mo)).
Proof.
  intros Hok Hl Hp Hg. unfold gstate0, gbeta, P in *. destruct (snd g) as [d0|].
  - destruct Hg as (mt & mo & Hg). exists mo.
    rewrite (set_length_existing_P droot s _ _ d0 mt mo Hok Hl Hp Hg), Nat2N.id. reflexivity.
  - exists new_fmode. rewrite (set_length_fresh_P droot s _ _ Hok Hl Hp Hg), Nat2N.id. reflexivity.
Qed.

(* file i is replaced by content that satisfies the per-byte invariant for S' *)
Lemma GInv_update droot gfiles s0 s sizes S s' S' i g dnew mt mo :
  files_ok (map fst gfiles) -> GInv droot gfiles s0 s sizes S ->
  nth_error gfiles i = Some g ->
  fs_get s' (P droot (fst g)) = Some (EFile dnew mt mo) ->
  (forall q, q <> P droot (fst g) -> fs_get s' q = fs_get s q) ->
  (forall m mo', fs_get s (P droot (fst g)) <> Some (EDir m mo')) ->
  length dnew = gf_len g -> gpointwise g S' i dnew ->
  (forall j x, j <> i -> covered S' j x -> covered S j x) ->
  GInv droot gfiles s0 s' (set_nth sizes i 0%N) S'.
Proof.
  intros Hfo [Hd Hp Hl Hf Hfr] Hnth Hg Hoth Hnd Hdl Hpw Hcov.
  assert (Hin : In (fst g) (map fst gfiles)) by (apply in_map; eapply nth_error_In; eassumption).
  assert (Hi : i < length sizes) by (rewrite Hl; exact (nth_error_Some_lt _ _ _ Hnth)).
  constructor.
  - eapply dirs_ok_frame; [exact Hd|]. intros q Hq. apply Hoth. intros ->. rewrite (su_P _ _ _ Hfo Hin) in Hq. discriminate.
  - intros f' j Hf' Hj. destruct (Hp f' j Hf' Hj) as (m & mo' & Hq). exists m, mo'.
    rewrite Hoth; [assumption|]. intros E. rewrite E in Hq. apply (Hnd _ _ Hq).
  - rewrite set_nth_length. assumption.
  - intros j g' Hj. unfold gfstate. destruct (Nat.eq_dec j i) as [->|Hne].
    + rewrite Hnth in Hj. inv Hj. right. split; [apply nth_set_nth_same; assumption|]. exists dnew, mt, mo. auto.
    + assert (HP : fs_get s' (P droot (fst g')) = fs_get s (P droot (fst g'))).
      { apply Hoth. intros E. apply Hne. eapply gnodup_idx; eauto using fo_nodup. apply P_inj in E. assumption. }
      rewrite nth_set_nth_other, HP by congruence.
      destruct (Hf j g' Hj) as [(A1 & A2 & A3 & A4)|(B1 & d0 & m0 & mo0 & B2 & B3 & B4)].
      * left. split; [assumption|]. split; [assumption|]. split; [intros x Hc; apply (A3 x); auto|apply (gstate0_ext _ _ _ _ HP A4)].
      * right. split; [assumption|]. exists d0, m0, mo0. repeat split; try assumption.
        intros x Hx. destruct (B4 x Hx) as [X|[X Y]]; [left; assumption|right; split; [assumption|]].
        intros Hc. apply Y. auto.
  - intros q Hq. rewrite Hoth; [apply Hfr; assumption|]. apply Hq. eapply nth_error_In. eassumption.
Qed.

(* tile kk has been written into dold, or its hole left: inside the tile dnew holds the blob,
   outside it dnew is dold *)
Lemma gtile_pointwise (g : gfileT) kk b S d fl dold dnew :
  nth_error (snd (fst g)) kk = Some b -> d = b_data b ->
  fl_start fl = N.of_nat (blen (firstn kk (snd (fst g)))) ->
  gpointwise g S (fl_idx fl) dold ->
  (forall x, blen (firstn kk (snd (fst g))) <= x < blen (firstn kk (snd (fst g))) + length d ->
     nth x dnew 0%N = nth (x - blen (firstn kk (snd (fst g)))) d 0%N) ->
  (forall x, ~ blen (firstn kk (snd (fst g))) <= x < blen (firstn kk (snd (fst g))) + length d ->
     nth x dnew 0%N = nth x dold 0%N) ->
  gpointwise g ((d, fl) :: S) (fl_idx fl) dnew.
Proof.
  intros Hk Hd Hs Hpw Hin Hout x Hx. unfold gf_len in *.
  destruct (tile_in_econt _ _ _ Hk) as [Hb Hy]. set (st := blen (firstn kk (snd (fst g)))) in *.
  assert (Hcase : st <= x < st + length d \/ ~ st <= x < st + length d) by lia.
  destruct Hcase as [Hi|Ho].
  - left. rewrite Hin, Hy by (subst d; exact Hi). subst d. reflexivity.
  - rewrite Hout by exact Ho. destruct (Hpw x Hx) as [X|[X Y]]; [left; assumption|right; split; [assumption|]].
    intros H. apply covered_cons in H as [[_ Hr]|H]; [rewrite Hs, Nat2N.id in Hr; exact (Ho Hr)|exact (Y H)].
Qed.

(* a file of which every byte is covered by a processed location, or was the snapshot's byte
   before, holds the concatenation of its blobs *)
Lemma gfstate_done droot s sizes S i (g : gfileT) :
  gfstate droot s sizes S i g ->
  (forall x, x < gf_len g -> covered S i x \/
     exists d0, snd g = Some d0 /\ length d0 = gf_len g /\ nth x d0 0%N = nth x (econt (snd (fst g))) 0%N) ->
  exists mt mo, fs_get s (P droot (fst g)) = Some (EFile (econt (snd (fst g))) mt mo).
Proof.
  intros [(A1 & A2 & A3 & A4)|(B1 & d & mt & mo & B2 & B3 & B4)] Hpos.
  - destruct (Hpos 0 A2) as [Hc|(d0 & Eg & Ld & _)]; [exfalso; apply (A3 0 Hc)|].
    unfold gstate0 in A4. rewrite Eg in A4. destruct A4 as (mt & mo & A4). exists mt, mo. rewrite A4. do 2 f_equal.
    apply (nth_ext _ _ 0%N 0%N); [rewrite econt_length; assumption|].
    intros x Hx. rewrite Ld in Hx. destruct (Hpos x Hx) as [Hc|(d0' & Eg' & _ & Hn)]; [exfalso; apply (A3 x Hc)|].
    rewrite Eg in Eg'. inv Eg'. assumption.
  - exists mt, mo. rewrite B2. do 2 f_equal.
    apply (nth_ext _ _ 0%N 0%N); [rewrite econt_length; assumption|].
    intros x Hx. rewrite B3 in Hx. destruct (B4 x Hx) as [X|[X Y]]; [assumption|].
    destruct (Hpos x Hx) as [Hc|(d0 & Eg & Ld & Hn)]; [exfalso; apply Y; assumption|].
    rewrite X. unfold gbeta. rewrite Eg, <- Ld, resize_same. assumption.
Qed.

Section GContents.
Variables (c : cfg) (o : opts) (droot : apath) (gfiles : list gfileT) (s0 : fs).
Let names := map (fun g : gfileT => np (fst (fst g))) gfiles.
Let pre := map gpre gfiles.
Hypothesis Hfo : files_ok (map fst gfiles).
(* the sparse repair matters only if a planned file existed before *)
Hypothesis Hsp : forall g, In g gfiles -> gpre g = true -> c_sparse_pre c = true.

Lemma gallocated s sizes S i g :
  GInv droot gfiles s0 s sizes S -> nth_error gfiles i = Some g -> nth i sizes 0%N = 0%N ->
  exists d mt mo, fs_get s (P droot (fst g)) = Some (EFile d mt mo) /\ length d = gf_len g /\ gpointwise g S i d.
Proof. intros HC Hf Hz. destruct (gi_files _ _ _ _ _ _ HC _ _ Hf) as [(A1 & A2 & _)|(_ & H)]; [lia|exact H]. Qed.

(* the allocation at the head of write_dest, unless it has happened *)
Lemma galloc s sizes S i g :
  GInv droot gfiles s0 s sizes S -> nth_error gfiles i = Some g ->
  exists s1 sizes1,
    (if (0 <? nth i sizes 0)%N
     then match set_length s (P droot (fst g)) (nth i sizes 0%N) with
          | Some s' => Some (s', set_nth sizes i 0%N) | None => None end
     else Some (s, sizes)) = Some (s1, sizes1) /\
    GInv droot gfiles s0 s1 sizes1 S /\ nth i sizes1 0%N = 0%N.
Proof.
  intros HC Hf. assert (Hgin : In (fst g) (map fst gfiles)) by (apply in_map; eapply nth_error_In; eassumption).
  destruct (gi_files _ _ _ _ _ _ HC _ _ Hf) as [(A1 & A2 & A3 & A4)|(B1 & _)].
  - rewrite A1. replace (0 <? N.of_nat (gf_len g))%N with true by (symmetry; apply N.ltb_lt; lia).
    destruct (set_length_g droot s g (gi_dirs _ _ _ _ _ _ HC)) as [mo ->];
      [apply (fo_ne _ Hfo), Hgin|intros j; apply (gi_par _ _ _ _ _ _ HC (fst g) j Hgin)|assumption|].
    eexists _, _. split; [reflexivity|]. split.
    + eapply GInv_update; eauto using gbeta_length, get_set_same.
      * intros q Hq. apply get_set_other. congruence.
      * intros m mo'. apply gstate0_not_dir. assumption.
      * intros x _. right. auto.
    + apply nth_set_nth_same. rewrite (gi_len _ _ _ _ _ _ HC). exact (nth_error_Some_lt _ _ _ Hf).
  - rewrite B1. exists s, sizes. auto.
Qed.

Lemma gwrite_dest_step s sizes S d fl :
  GInv droot gfiles s0 s sizes S -> gvjob gfiles (d, fl) ->
  exists s' sizes', write_dest c o droot names pre d (Some (s, sizes)) fl = Some (s', sizes') /\
    GInv droot gfiles s0 s' sizes' ((d, fl) :: S).
Proof.
  intros HC (g & kk & b & Hf & Hk & Hst & Hd & _). cbn [fst snd] in *.
  unfold write_dest, nth_name, names, pre.
  rewrite (map_nth_error _ _ _ Hf), dpath_np, (nth_map_nth_error gpre false _ _ _ Hf). fold (P droot (fst g)).
  destruct (galloc s sizes S _ g HC Hf) as (s1 & sizes1 & -> & HC1 & Hz).
  destruct (gallocated s1 sizes1 S _ g HC1 Hf Hz) as (dold & m1 & mo1 & G1 & Ld & Pw).
  rewrite <- (set_nth_same 0%N 0%N sizes1 _ Hz).
  assert (Hnd : forall m mo', fs_get s1 (P droot (fst g)) <> Some (EDir m mo')) by (intros; rewrite G1; discriminate).
  assert (Hcov : forall j x, j <> fl_idx fl -> covered ((d, fl) :: S) j x -> covered S j x)
    by (intros j x Hj; apply covered_cons_other; congruence).
  set (st := blen (firstn kk (snd (fst g)))) in *.
  destruct (tile_in_econt _ _ _ Hk) as [Hb Hy]. fold st in Hb, Hy.
  assert (Hdl : length d = dlen b) by (subst d; reflexivity).
  destruct (o_sparse o && all_zero d && negb (c_sparse_pre c && gpre g)) eqn:Esk.
  - (* the hole: only in a file created by this restore, so what is not yet the snapshot's byte is zero *)
    apply andb_true_iff in Esk as [Esk Hpre]. apply andb_true_iff in Esk as [_ Hz0].
    assert (Hb0 : forall x, nth x (gbeta g) 0%N = 0%N).
    { intros x. unfold gbeta. destruct (snd g) eqn:Eg; [|apply nth_zeros].
      rewrite (Hsp g (nth_error_In _ _ Hf)) in Hpre by (unfold gpre; rewrite Eg; reflexivity).
      unfold gpre in Hpre. rewrite Eg in Hpre. discriminate. }
    eexists _, _. split; [reflexivity|]. eapply GInv_update; eauto.
    apply (gtile_pointwise g kk b S d fl dold dold Hk Hd Hst Pw); [|reflexivity].
    intros x Hx. rewrite (all_zero_nth d) by assumption.
    destruct (Pw x) as [X|[X _]]; [unfold gf_len; lia|rewrite X, Hy, <- Hd by lia; apply all_zero_nth; assumption|].
    rewrite X. apply Hb0.
  - unfold write_at. rewrite G1, Hst, Nat2N.id.
    destruct (write_bytes_spec dold st d) as (L & Nin & Nout); [unfold gf_len in Ld; lia|].
    eexists _, _. split; [reflexivity|].
    eapply GInv_update; eauto using get_set_same; [|lia|].
    + intros q Hq. apply get_set_other. congruence.
    + apply (gtile_pointwise g kk b S d fl dold _ Hk Hd Hst Pw Nin Nout).
Qed.

Lemma gwrite_dests_inv d : forall fls s sizes S,
  GInv droot gfiles s0 s sizes S -> (forall fl, In fl fls -> gvjob gfiles (d, fl)) ->
  exists s' sizes' S', fold_left (write_dest c o droot names pre d) fls (Some (s, sizes)) = Some (s', sizes') /\
    GInv droot gfiles s0 s' sizes' S' /\ (forall j, In j S -> In j S') /\ (forall fl, In fl fls -> In (d, fl) S').
Proof.
  induction fls as [|fl t IH]; intros s sizes S HC Hv.
  - exists s, sizes, S. split; [reflexivity|]. split; [exact HC|]. split; [auto|]. intros fl [].
  - cbn [fold_left]. destruct (gwrite_dest_step s sizes S d fl HC (Hv fl (or_introl eq_refl))) as (s1 & sz1 & E & HC1).
    rewrite E. destruct (IH s1 sz1 _ HC1 (fun fl' H => Hv fl' (or_intror H))) as (s' & sz' & S' & E' & HC' & I1 & I2).
    exists s', sz', S'. split; [exact E'|]. split; [exact HC'|]. split.
    + intros j Hj. apply I1. right. assumption.
    + intros fl' [<-|H]; [apply I1; left; reflexivity|auto].
Qed.

(* a location flagged `matches` still holds its blob: read_at returns the blob's bytes *)
Lemma gread_matching s sizes S d fl :
  GInv droot gfiles s0 s sizes S -> gvjob gfiles (d, fl) -> fl_matches fl = true ->
  exists nm, nth_name names (fl_idx fl) = Some nm /\ read_at s (dpath droot nm) (fl_start fl) (nlen d) = Some d.
Proof.
  intros HC (g & kk & b & Hf & Hk & Hst & Hd & Hm) Hfl. cbn [fst snd] in *. subst d.
  destruct (Hm Hfl) as (d0 & Eg & Ld0 & Hslice).
  exists (np (fst (fst g))). split; [unfold nth_name, names; rewrite (map_nth_error (fun g : gfileT => np (fst (fst g))) _ _ Hf); reflexivity|].
  rewrite dpath_np. fold (P droot (fst g)).
  destruct (tile_in_econt _ _ _ Hk) as [Hb Hy]. set (st := blen (firstn kk (snd (fst g)))) in *.
  (* the bytes there are still the old ones, or already the snapshot's: the blob either way *)
  assert (Hcur : exists dc mt mo, fs_get s (P droot (fst g)) = Some (EFile dc mt mo) /\ length dc = gf_len g /\
                   firstn (length (b_data b)) (skipn st dc) = b_data b).
  { unfold dlen in *.
    destruct (gi_files _ _ _ _ _ _ HC _ _ Hf) as [(A1 & A2 & A3 & A4)|(B1 & dc & mt & mo & B2 & B3 & B4)].
    - unfold gstate0 in A4. rewrite Eg in A4. destruct A4 as (mt & mo & A4). exists d0, mt, mo. auto.
    - exists dc, mt, mo. split; [assumption|]. split; [assumption|].
      apply slice_ext; [unfold gf_len in B3; lia|]. intros x Hx.
      destruct (B4 x) as [X|[X _]]; [unfold gf_len; lia|rewrite X; apply Hy; exact Hx|].
      rewrite X. unfold gbeta. rewrite Eg, <- Ld0, resize_same. apply slice_nth; assumption. }
  destruct Hcur as (dc & mt & mo & G & L & Hn).
  unfold read_at, nlen. rewrite G, Hst, !Nat2N.id.
  replace (st + length (b_data b) <=? length dc) with true by (symmetry; apply Nat.leb_le; unfold gf_len, dlen in *; lia).
  rewrite Hn. reflexivity.
Qed.

Lemma gdo_entries_inv : forall r s sizes reads S,
  GInv droot gfiles s0 s sizes S ->
  (forall k d fls fl, In (k, (d, fls)) r -> In fl fls -> gvjob gfiles (d, fl)) ->
  exists s' sizes' reads' S', fold_left (do_entry c o droot names pre) r (Some (s, sizes, reads)) = Some (s', sizes', reads') /\
    GInv droot gfiles s0 s' sizes' S' /\ (forall j, In j S -> In j S') /\
    (forall k d fls fl, In (k, (d, fls)) r -> In fl fls -> fl_matches fl = false -> In (d, fl) S').
Proof.
  induction r as [|[k [d fls]] t IH]; intros s sizes reads S HC Hv.
  - exists s, sizes, reads, S. split; [reflexivity|]. split; [exact HC|]. split; [auto|]. intros k d fls fl [].
  - cbn [fold_left].
    assert (Hv0 : forall fl, In fl fls -> gvjob gfiles (d, fl)) by (intros fl H; apply (Hv k d fls fl); [left; reflexivity|assumption]).
    set (dests := filter (fun fl => negb (fl_matches fl)) fls).
    assert (Hvd : forall fl, In fl dests -> gvjob gfiles (d, fl)) by (intros fl H; apply filter_In in H as [H _]; auto).
    destruct (gwrite_dests_inv d dests s sizes S HC Hvd) as (s1 & sz1 & S1 & E1 & HC1 & I1 & I2).
    assert (Estep : exists reads1, do_entry c o droot names pre (Some (s, sizes, reads)) (k, (d, fls)) = Some (s1, sz1, reads1)).
    { unfold do_entry. fold dests. destruct dests as [|fl0 dests'] eqn:Ed; [simpl in E1; inv E1; eauto|].
      destruct (find fl_matches fls) as [flm|] eqn:Efind.
      - apply find_some in Efind as [Hin Hm].
        destruct (gread_matching s sizes S d flm HC (Hv0 flm Hin) Hm) as (nm & En & Er).
        rewrite En, Er. rewrite E1. eauto.
      - rewrite E1. eauto. }
    destruct Estep as [reads1 Estep]. rewrite Estep.
    destruct (IH s1 sz1 reads1 S1 HC1) as (s' & sz' & rd' & S' & E' & HC' & J1 & J2).
    { intros k' d' fls' fl' H. apply (Hv k' d' fls' fl'). right. assumption. }
    exists s', sz', rd', S'. split; [exact E'|]. split; [exact HC'|]. split; [auto|].
    intros k' d' fls' fl' [H|H] Hfl Hm; [inv H; apply J1; apply I2; apply filter_In; split; [assumption|rewrite Hm; reflexivity]|eapply J2; eassumption].
Qed.

(* "first create needed empty files": exactly the planned files of length 0 become empty files *)
Lemma gcreate_empty_spec : forall (gl : list gfileT) s,
  dirs_ok droot s -> NoDup (map fst (map fst gl)) -> (forall g, In g gl -> fst (fst g) <> []) ->
  parents_ok droot (map fst gl) s -> (forall g, In g gl -> gstate0 droot s g) ->
  exists s', create_empty droot s (map (fun g : gfileT => np (fst (fst g))) gl) (map (fun g : gfileT => N.of_nat (gf_len g)) gl) = Some s' /\
    dirs_ok droot s' /\
    (forall g, In g gl -> gf_len g = 0 -> exists mt mo, fs_get s' (P droot (fst g)) = Some (EFile [] mt mo)) /\
    (forall q, (forall g, In g gl -> gf_len g = 0 -> q <> P droot (fst g)) -> fs_get s' q = fs_get s q).
Proof.
  induction gl as [|g t IH]; intros s Hok Hn Hne Hp Hg.
  - exists s. simpl. split; [reflexivity|]. split; [assumption|]. split; [intros g []|auto].
  - cbn [map create_empty]. inv Hn.
    assert (Htl : forall g', In g' t -> P droot (fst g') <> P droot (fst g)).
    { intros g' Hg' E. apply P_inj in E. apply H1. rewrite <- E. apply in_map. apply in_map. assumption. }
    assert (Hne' : forall g', In g' t -> fst (fst g') <> []) by (intros g' Hg'; apply Hne; right; assumption).
    assert (Hg' : forall g', In g' t -> gstate0 droot s g') by (intros g' H; apply Hg; right; assumption).
    assert (Hp' : parents_ok droot (map fst t) s) by (intros f' j Hf'; apply Hp; right; assumption).
    destruct (gf_len g) eqn:Eb.
    + destruct (set_length_g droot s g Hok (Hne g (or_introl eq_refl))) as [mo Es];
        [intros j Hj; apply (Hp (fst g) j (or_introl eq_refl) Hj)|apply Hg; left; reflexivity|].
      rewrite Eb in Es. cbn [N.of_nat N.eqb] in *. rewrite dpath_np. fold (P droot (fst g)). rewrite Es.
      assert (Hb : gbeta g = []) by (apply length_zero_iff_nil; rewrite gbeta_length; assumption). rewrite Hb in *.
      set (s1 := fs_set s (P droot (fst g)) (EFile [] new_mtime mo)).
      assert (Ho : forall q, q <> P droot (fst g) -> fs_get s1 q = fs_get s q)
        by (intros q Hq; apply get_set_other; congruence).
      destruct (IH s1) as (s' & E & D' & Z & Fr); [|exact H2|exact Hne'| | |].
      * eapply dirs_ok_frame; [exact Hok|]. apply frame_set. apply su_app. apply Hne. left. reflexivity.
      * apply parents_ok_set; [assumption|]. intros m mo'. apply gstate0_not_dir. apply Hg. left. reflexivity.
      * intros g' Hi. apply (gstate0_ext droot s); [apply Ho, Htl|]; auto.
      * exists s'. split; [exact E|]. split; [exact D'|]. split.
        -- intros g' [<-|Hi] Hb'; [|auto]. exists new_mtime, mo. rewrite Fr; [apply get_set_same|].
           intros g' Hi _ E'. apply (Htl g' Hi). congruence.
        -- intros q Hq. rewrite Fr by (intros g' Hi Hb'; apply Hq; [right; assumption|assumption]).
           apply Ho. apply Hq; [left; reflexivity|assumption].
    + replace (N.of_nat (S n) =? 0)%N with false by (symmetry; apply N.eqb_neq; lia).
      destruct (IH s) as (s' & E & D' & Z & Fr); auto.
      exists s'. split; [exact E|]. split; [exact D'|]. split.
      * intros g' [<-|Hi] Hb; [lia|auto].
      * intros q Hq. apply Fr. intros g' Hi Hb. apply Hq; [right; assumption|assumption].
Qed.

Theorem restore_contents_general pl :
  pl_names pl = names -> pl_lengths pl = map (fun g : gfileT => N.of_nat (gf_len g)) gfiles -> pl_pre pl = pre ->
  (forall k d fls fl, In (k, (d, fls)) (pl_r pl) -> In fl fls -> gvjob gfiles (d, fl)) ->
  (forall i g kk b, nth_error gfiles i = Some g -> nth_error (snd (fst g)) kk = Some b ->
     exists k d fls fl, In (k, (d, fls)) (pl_r pl) /\ In fl fls /\ fl_idx fl = i /\
       fl_start fl = N.of_nat (blen (firstn kk (snd (fst g)))) /\ d = b_data b) ->
  dirs_ok droot s0 -> parents_ok droot (map fst gfiles) s0 -> (forall g, In g gfiles -> gstate0 droot s0 g) ->
  exists s' reads, restore_contents c o droot s0 pl = (OOk, s', reads) /\ dirs_ok droot s' /\
    (forall g, In g gfiles -> exists mt mo, fs_get s' (P droot (fst g)) = Some (EFile (econt (snd (fst g))) mt mo)) /\
    (forall q, (forall g, In g gfiles -> q <> P droot (fst g)) -> fs_get s' q = fs_get s0 q).
Proof.
  intros Hnm Hln Hpr Hjobs Hcomp Hok Hp Hg. unfold restore_contents. rewrite Hnm, Hln, Hpr. unfold names, pre.
  assert (Hne : forall g, In g gfiles -> fst (fst g) <> []) by (intros g Hi; apply (fo_ne _ Hfo); apply in_map; assumption).
  destruct (gcreate_empty_spec gfiles s0 Hok (fo_nodup _ Hfo) Hne Hp Hg) as (s1 & E1 & D1 & Z1 & F1).
  rewrite E1.
  assert (Hdiff : forall g g', In g gfiles -> In g' gfiles -> gf_len g <> gf_len g' -> P droot (fst g) <> P droot (fst g')).
  { intros g g' Hi Hi' Hl E. apply P_inj in E. apply In_nth_error in Hi as [i Hi]. apply In_nth_error in Hi' as [i' Hi'].
    assert (i = i') by (eapply gnodup_idx; eauto using fo_nodup). subst. congruence. }
  assert (HC : GInv droot gfiles s0 s1 (map (fun g : gfileT => N.of_nat (gf_len g)) gfiles) []).
  { constructor.
    - exact D1.
    - intros f j Hf Hj. destruct (Hp f j Hf Hj) as (m & mo & Hq). exists m, mo. rewrite F1; [assumption|].
      intros g' Hg' _ E. rewrite E in Hq. exact (gstate0_not_dir _ _ _ _ _ (Hg g' Hg') Hq).
    - apply map_length.
    - intros i g Hi. assert (Hin : In g gfiles) by (eapply nth_error_In; eassumption).
      unfold gfstate. rewrite (nth_map_nth_error _ _ _ _ _ Hi).
      destruct (gf_len g) eqn:Eb.
      + right. split; [reflexivity|]. destruct (Z1 g Hin Eb) as (mt & mo & G). exists [], mt, mo.
        repeat split; auto. intros x Hx. unfold gf_len in *. lia.
      + left. split; [reflexivity|]. split; [lia|]. split; [intros x (d & fl & [] & _)|].
        apply (gstate0_ext droot s0); [|auto]. apply F1. intros g' Hg' Hb. apply Hdiff; auto. lia.
    - intros q Hq. apply F1. intros g Hi _. apply Hq. assumption. }
  destruct (gdo_entries_inv (pl_r pl) s1 _ [] [] HC Hjobs) as (s' & sz' & rd' & S' & E' & HC' & _ & J).
  fold names pre in E'. unfold names, pre in E'. rewrite E'.
  exists s', rd'. split; [reflexivity|]. split; [apply (gi_dirs _ _ _ _ _ _ HC')|]. split.
  - intros g Hgi. apply In_nth_error in Hgi as [i Hi].
    apply (gfstate_done droot s' sz' S' i g (gi_files _ _ _ _ _ _ HC' i g Hi)).
    intros x Hx. destruct (econt_covered _ _ Hx) as (kk & b & Hk & Hr).
    destruct (Hcomp i g kk b Hi Hk) as (k & d & fls & fl & G1 & G2 & G3 & G4 & G5).
    destruct (fl_matches fl) eqn:Em.
    + right. destruct (Hjobs _ _ _ _ G1 G2) as (g' & kk' & b' & H1 & _ & H3 & H4 & H5). cbn [fst snd] in *.
      rewrite G3, Hi in H1. inv H1. destruct (H5 Em) as (d0 & Eg & Ld & Hs).
      exists d0. split; [assumption|]. split; [assumption|].
      (* the flagged location is that of blob kk: same offset, same bytes *)
      rewrite G4 in H3. apply Nat2N.inj in H3. unfold dlen in Hs. rewrite <- H3, <- H4 in Hs.
      rewrite (proj2 (tile_in_econt _ _ _ Hk)), (slice_nth _ _ _ _ Hs) by exact Hr. reflexivity.
    + left. exists d, fl. split; [eapply J; eassumption|]. split; [assumption|].
      rewrite G4, Nat2N.id, G5. unfold dlen in Hr. lia.
  - intros q Hq. rewrite (gi_frame _ _ _ _ _ _ HC' q Hq). reflexivity.
Qed.
End GContents.
