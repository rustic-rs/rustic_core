(* C14 — what restore_exact asks of a node stream, and a worked example (Order.exampleY_tree). *)
From Verif.Base Require Import Tactics.
From Verif.C14 Require Import Model Witness Exact2 Exact4 Exact5.

(* the node stream of a snapshot: relative paths (single normal components joined), pre-order;
   unique paths, no empty path, every proper prefix of a path is a directory node of the stream,
   one (pack, location) = one byte string *)
Definition nodes_ok (nodes : list nodeT) : Prop :=
  NoDup (map fst nodes) /\ (forall x, In x nodes -> fst x <> []) /\
  (forall x j, In x nodes -> (0 < j < length (fst x))%nat -> exists mt mo, In (firstn j (fst x), IDir mt mo) nodes) /\
  consistent (files_of nodes).

Local Open Scope N_scope.
(* example: two files sharing blobs (one with an all-zero blob), a directory, a symlink; the
   destination holds an extra file and an extra directory with a file *)
Definition kA := mkB 100 0 [1; 2].
Definition kB := mkB 100 10 [0; 0].
Definition snapY : list node :=
  [ Node (nm 1) (IFile [kA; kB] 4 1000 420) [];
    Node (nm 3) (IDir 2000 493) [ Node (nm 1) (IFile [kB; kA; kB] 6 1000 384) []; Node (nm 3) (ILink 7) [] ] ].
Definition nodesY : list nodeT :=
  [ ([1], IFile [kA; kB] 4 1000 420); ([3], IDir 2000 493);
    ([3; 1], IFile [kB; kA; kB] 6 1000 384); ([3; 3], ILink 7) ].
Definition worldY : fs := world0 ++
  [ ([1; 2; 0], EFile [5] 3000 420); ([1; 2; 9], EDir 3000 493); ([1; 2; 9; 1], EFile [4] 3000 420) ].
