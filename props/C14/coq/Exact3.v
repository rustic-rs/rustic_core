(* C14 — restore_contents: the vocabulary of the proofs about the contents phase (Contents2):
   planned files below the destination root, the locations already processed, list facts. *)
From Verif.Base Require Import Tactics.
From Verif.C14 Require Import Model Proofs Exact1 Exact2.

Definition P (droot : apath) (f : fileT) : apath := droot ++ fst f.
Notation job := (list N * floc)%type.

Definition covered (S : list job) (i x : nat) : Prop :=
  exists d fl, In (d, fl) S /\ fl_idx fl = i /\ N.to_nat (fl_start fl) <= x < N.to_nat (fl_start fl) + length d.

Record files_ok (files : list fileT) : Prop := mkFO {
  fo_nodup : NoDup (map fst files);
  fo_ne : forall f, In f files -> fst f <> [];
  fo_cons : consistent files }.
Definition parents_ok droot (files : list fileT) (s : fs) : Prop :=
  forall f j, In f files -> 0 < j < length (fst f) -> isdir s (droot ++ firstn j (fst f)).

Lemma set_nth_length {A} (x : A) : forall l i, length (set_nth l i x) = length l.
Proof. induction l; destruct i; simpl; auto. Qed.
Lemma nth_set_nth_same {A} (x d : A) : forall l i, i < length l -> nth i (set_nth l i x) d = x.
Proof. induction l; destruct i; simpl; intros; try lia; auto. apply IHl. lia. Qed.
Lemma nth_set_nth_other {A} (x d : A) : forall l i j, i <> j -> nth j (set_nth l i x) d = nth j l d.
Proof. induction l; destruct i, j; simpl; intros; try congruence; auto. Qed.
Lemma set_nth_same {A} (x d : A) : forall l i, nth i l d = x -> set_nth l i x = l.
Proof. induction l; destruct i; simpl; intros; try congruence. f_equal. auto. Qed.
Lemma nth_map_nth_error {A B} (g : A -> B) d0 : forall l i a, nth_error l i = Some a -> nth i (map g l) d0 = g a.
Proof. induction l; destruct i; simpl; intros; try discriminate; [inv H; reflexivity|eauto]. Qed.
Lemma nodup_map_idx {A B} (g : A -> B) l i i' x x' :
  NoDup (map g l) -> nth_error l i = Some x -> nth_error l i' = Some x' -> g x = g x' -> i = i'.
Proof.
  intros Hn H1 H2 E. rewrite NoDup_nth_error in Hn. apply Hn.
  - rewrite map_length. exact (nth_error_Some_lt _ _ _ H1).
  - rewrite (map_nth_error g _ _ H1), (map_nth_error g _ _ H2). congruence.
Qed.
Lemma P_inj droot f f' : P droot f = P droot f' -> fst f = fst f'.
Proof. unfold P. apply app_inv_head. Qed.
Lemma su_P droot files f : files_ok files -> In f files -> strictly_under droot (P droot f) = true.
Proof. intros H Hi. apply su_app. apply (fo_ne _ H). assumption. Qed.

Lemma removelast_firstn_eq {A} (l : list A) j : j < length l -> firstn j (removelast l) = firstn j l.
Proof.
  intros H. rewrite removelast_firstn_len, firstn_firstn. f_equal. lia.
Qed.

Lemma parents_ok_set droot files s p e : parents_ok droot files s ->
  (forall m mo, fs_get s p <> Some (EDir m mo)) -> parents_ok droot files (fs_set s p e).
Proof.
  intros H Hnd f j Hf Hj. destruct (H f j Hf Hj) as (m & mo & Hq). exists m, mo.
  rewrite get_set_other; [assumption|]. intros ->. exact (Hnd _ _ Hq).
Qed.

Lemma covered_cons S d fl i x : covered ((d, fl) :: S) i x <->
  (fl_idx fl = i /\ N.to_nat (fl_start fl) <= x < N.to_nat (fl_start fl) + length d) \/ covered S i x.
Proof.
  split.
  - intros (d' & fl' & [H|H] & Hi); [inv H; left; exact Hi|right; exists d', fl'; auto].
  - intros [Hi|(d' & fl' & H & Hi)]; [exists d, fl; split; [left; reflexivity|exact Hi]|exists d', fl'; split; [right; exact H|exact Hi]].
Qed.
Lemma covered_cons_other S d fl i x : fl_idx fl <> i -> covered ((d, fl) :: S) i x -> covered S i x.
Proof. intros Hne H. apply covered_cons in H as [[E _]|H]; [congruence|exact H]. Qed.
Lemma covered_mono S S' i x : (forall j, In j S -> In j S') -> covered S i x -> covered S' i x.
Proof. intros H (d & fl & Hin & Hr). exists d, fl. auto. Qed.

Section Contents.
Variables (c : cfg) (o : opts) (droot : apath) (files : list fileT).
Let names := map (fun f : fileT => np (fst f)) files.
Let pre := map (fun _ : fileT => false) files.

Lemma fold_none_wd d : forall fls, fold_left (write_dest c o droot names pre d) fls None = None.
Proof. induction fls; simpl; auto. Qed.
End Contents.
