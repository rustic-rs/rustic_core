(* C14 — the plan invariant with REAL match flags: add_file for a path that holds nothing, a file
   of another size, or a file of the snapshot's size that gets compared blob by blob. *)
From Verif.Base Require Import Tactics Lists.
From Verif.C14 Require Import Model Proofs Exact1 Exact2 Exact3 Exact7 Contents2.

Definition gfsound (r : rinfo) (gfiles : list gfileT) : Prop :=
  forall k d fls fl, In (k, (d, fls)) r -> In fl fls ->
    exists g kk b, nth_error gfiles (fl_idx fl) = Some g /\ nth_error (snd (fst g)) kk = Some b /\
      fl_start fl = N.of_nat (blen (firstn kk (snd (fst g)))) /\ bkey b = k /\
      (fl_matches fl = true -> gmatch_ok g kk b).

Record GPlanInv (pl : plan) (gfiles : list gfileT) : Prop := mkGPI {
  gp_names : pl_names pl = map (fun g : gfileT => np (fst (fst g))) gfiles;
  gp_lens : pl_lengths pl = map (fun g : gfileT => N.of_nat (gf_len g)) gfiles;
  gp_pre : pl_pre pl = map gpre gfiles;
  gp_esound : esound (pl_r pl) (map fst gfiles);
  gp_fsound : gfsound (pl_r pl) gfiles;
  gp_complete : complete (pl_r pl) (map fst gfiles) }.

Lemma GPlanInv0 : GPlanInv plan0 [].
Proof.
  constructor; try reflexivity.
  - intros k d fls [].
  - intros k d fls fl [].
  - intros i f kk b H. destruct i; discriminate.
Qed.

Lemma gfsound_mono r gfiles g : gfsound r gfiles -> gfsound r (gfiles ++ [g]).
Proof.
  intros H k d fls fl Hi Hf. destruct (H _ _ _ _ Hi Hf) as (g0 & kk & b & H1 & H2).
  exists g0, kk, b. split; [|assumption]. rewrite nth_error_app1; [assumption|]. exact (nth_error_Some_lt _ _ _ H1).
Qed.

Lemma gfsound_insert r gfiles (g : gfileT) kk b d fl : gfsound r gfiles ->
  nth_error gfiles (fl_idx fl) = Some g -> nth_error (snd (fst g)) kk = Some b ->
  fl_start fl = N.of_nat (blen (firstn kk (snd (fst g)))) -> (fl_matches fl = true -> gmatch_ok g kk b) ->
  gfsound (r_insert r (bkey b) d fl) gfiles.
Proof.
  intros Hf H1 H2 H3 H4 k d' fls fl' H Hfl.
  apply (r_insert_inv_f _ _ _ _ _ _ _ _ H) in Hfl as [(fls0 & H0 & H5)|[-> ->]]; [eauto|]. exists g, kk, b. auto.
Qed.

Definition ins (r : rinfo) (x : blob * floc) : rinfo := r_insert r (bkey (fst x)) (b_data (fst x)) (snd x).

(* the locations of the last file, inserted one after the other, keep the three parts of the plan invariant *)
Lemma insert_locs_inv (gfiles : list gfileT) (g : gfileT) L :
  (forall k b fl, nth_error L k = Some (b, fl) ->
     nth_error (snd (fst g)) k = Some b /\ fl_idx fl = length gfiles /\
     fl_start fl = N.of_nat (blen (firstn k (snd (fst g)))) /\ (fl_matches fl = true -> gmatch_ok g k b)) ->
  forall r, esound r (map fst (gfiles ++ [g])) -> gfsound r (gfiles ++ [g]) ->
  complete_upto r (map fst (gfiles ++ [g])) (fun i _ => i < length gfiles) ->
  esound (fold_left ins L r) (map fst (gfiles ++ [g])) /\ gfsound (fold_left ins L r) (gfiles ++ [g]) /\
  complete_upto (fold_left ins L r) (map fst (gfiles ++ [g])) (fun i kk => i < length gfiles \/ kk < length L).
Proof.
  assert (Hfile : nth_error (gfiles ++ [g]) (length gfiles) = Some g) by apply nth_error_mid.
  induction L as [|[b fl] L IH] using rev_ind; intros HL r He Hf Hc.
  - split; [exact He|]. split; [exact Hf|]. intros i f kk b Hi Hk [H|H]; [eauto|simpl in H; lia].
  - destruct (HL _ _ _ (nth_error_mid L [] (b, fl))) as (Hb & Hi & Hs & Hm).
    destruct (IH (fun k b' fl' H => HL k b' fl' (eq_trans (nth_error_app1 _ _ (nth_error_Some_lt _ _ _ H)) H)) r He Hf Hc)
      as (He' & Hf' & Hc').
    rewrite fold_left_app. cbn [fold_left]. unfold ins at 1 3 5. cbn [fst snd]. split; [|split].
    + apply (esound_insert _ _ (fst g) b _ He'); [apply in_map; exact (nth_error_In _ _ Hfile)|exact (nth_error_In _ _ Hb)].
    + rewrite <- Hi in Hfile. exact (gfsound_insert _ _ g _ b _ fl Hf' Hfile Hb Hs Hm).
    + eapply complete_upto_insert; [exact Hc'|exact (map_nth_error fst _ _ Hfile)|exact Hb|exact Hi|exact Hs|].
      intros i f kk b' Hi' _ Hbd. apply nth_error_Some_lt in Hi'. rewrite map_length in Hi'.
      rewrite app_length in Hbd, Hi'. simpl in Hbd, Hi'. cbv beta. lia.
Qed.

(* what stands at the file's path, and that the file is planned (not accepted as it is) *)
Inductive planned (o : opts) (s : fs) (p : apath) (size mt : N) : option (list N) -> Prop :=
| pl_absent : fs_get s p = None -> planned o s p size mt None
| pl_other_size d0 m mo : fs_get s p = Some (EFile d0 m mo) -> nlen d0 <> size -> planned o s p size mt (Some d0)
| pl_compared d0 m mo : fs_get s p = Some (EFile d0 m mo) -> nlen d0 = size -> size <> 0%N ->
    (o_verify o = true \/ m <> mt) -> planned o s p size mt (Some d0).

Lemma add_file_general o droot s pl (gfiles : list gfileT) l blobs size mt base :
  GPlanInv pl gfiles ->
  (base <> None -> size = N.of_nat (blen blobs)) -> planned o s (droot ++ l) size mt base ->
  GPlanInv (add_file o droot s pl (np l) blobs size mt) (gfiles ++ [((l, blobs), base)]).
Proof.
  intros [Hn Hl Hp He Hf Hc] Hsz Hpl. set (g := ((l, blobs), base)).
  assert (Hlen : length (pl_names pl) = length gfiles) by (rewrite Hn; apply map_length).
  (* whatever the reader: it holds the existing file if there is one *)
  assert (Hfin : forall openf, (forall rem, openf = Some rem -> base = Some rem /\ length rem = blen blobs) ->
    GPlanInv (let '(r', pos) := plan_blobs (length (pl_names pl)) openf 0 blobs (pl_r pl) in
              mkPl (pl_names pl ++ [np l]) (pl_lengths pl ++ [pos]) (pl_pre pl ++ [gpre g]) r') (gfiles ++ [g])).
  { intros openf Hop. rewrite plan_blobs_locs, Hlen. fold ins.
    destruct (insert_locs_inv gfiles g (file_locs (length gfiles) openf 0 blobs)) with (r := pl_r pl) as (He' & Hf' & Hc').
    - intros k b fl H. apply file_locs_nth in H as (H1 & H2 & H3 & H4). repeat split; auto.
      intros Hm. apply H4 in Hm. destruct openf as [rem|]; [|destruct Hm]. destruct (Hop rem eq_refl) as [Eb Ld]. exists rem. auto.
    - rewrite map_app. apply esound_mono, He.
    - apply gfsound_mono, Hf.
    - intros i f kk b Hi Hk Hlt. rewrite map_app, nth_error_app1 in Hi by (rewrite map_length; assumption). apply (Hc i f kk b Hi Hk I).
    - rewrite file_locs_length in Hc'. constructor; cbn [pl_names pl_lengths pl_pre pl_r].
      + rewrite Hn, map_app. reflexivity.
      + rewrite Hl, map_app. reflexivity.
      + rewrite Hp, map_app. reflexivity.
      + exact He'.
      + exact Hf'.
      + intros i f kk b Hi Hk _. apply (Hc' i f kk b Hi Hk). pose proof (nth_error_Some_lt _ _ _ Hi) as Hlt.
        rewrite map_length, app_length in Hlt. simpl in Hlt.
        destruct (Nat.lt_ge_cases i (length gfiles)); [left; assumption|right].
        replace i with (length gfiles) in Hi by lia.
        rewrite (map_nth_error fst _ _ (nth_error_mid gfiles [] g)) in Hi. inv Hi. exact (nth_error_Some_lt _ _ _ Hk). }
  unfold add_file, get_matching_file. rewrite dpath_np.
  destruct Hpl as [Hg|d0 m mo Hg Hne|d0 m mo Hg Heq Hnz Hcmp]; rewrite Hg.
  - apply Hfin. discriminate.
  - replace (nlen d0 =? size)%N with false by (symmetry; apply N.eqb_neq; assumption). apply Hfin. discriminate.
  - replace (nlen d0 =? size)%N with true by (symmetry; apply N.eqb_eq; assumption).
    replace (size =? 0)%N with false by (symmetry; apply N.eqb_neq; assumption).
    replace (negb (o_verify o) && (m =? mt)%N) with false.
    + apply Hfin. intros rem [= <-]. split; [reflexivity|]. rewrite Hsz in Heq by discriminate. unfold nlen in Heq. lia.
    + symmetry. destruct Hcmp as [Hv|Hm]; [rewrite Hv; reflexivity|]. apply andb_false_iff. right. apply N.eqb_neq. assumption.
Qed.

(* the premises of Contents2.restore_contents_general follow from GPlanInv *)
Lemma GPlanInv_jobs pl gfiles : consistent (map fst gfiles) -> GPlanInv pl gfiles ->
  (forall k d fls fl, In (k, (d, fls)) (pl_r pl) -> In fl fls -> gvjob gfiles (d, fl)) /\
  (forall i g kk b, nth_error gfiles i = Some g -> nth_error (snd (fst g)) kk = Some b ->
     exists k d fls fl, In (k, (d, fls)) (pl_r pl) /\ In fl fls /\ fl_idx fl = i /\
       fl_start fl = N.of_nat (blen (firstn kk (snd (fst g)))) /\ d = b_data b).
Proof.
  intros Hcons [Hn Hl Hp He Hf Hc]. split.
  - intros k d fls fl Hi Hfl. destruct (Hf _ _ _ _ Hi Hfl) as (g & kk & b & H1 & H2 & H3 & H4 & H5).
    destruct (He _ _ _ Hi) as (f' & b' & X1 & X2 & X3 & X4).
    assert (Hd : d = b_data b).
    { subst d. apply (Hcons f' (fst g) b' b); auto; [apply in_map; eapply nth_error_In; eassumption|eapply nth_error_In; eassumption|congruence]. }
    exists g, kk, b. auto.
  - intros i g kk b Hi Hk.
    destruct (Hc i (fst g) kk b (map_nth_error fst _ _ Hi) Hk I) as (d & fls & fl & G1 & G2 & G3 & G4).
    destruct (He _ _ _ G1) as (f' & b' & X1 & X2 & X3 & X4).
    exists (bkey b), d, fls, fl. repeat split; auto.
    subst d. apply (Hcons f' (fst g) b' b); auto; [apply in_map; eapply nth_error_In; eassumption|eapply nth_error_In; eassumption].
Qed.

(* add_file's plans are executed by restore_contents: whatever mix of absent, other-size and compared
   files the plan was built for; the sparse repair matters only if one of them existed before *)
Theorem restore_contents_planned c o droot (gfiles : list gfileT) s0 pl :
  (forall g, In g gfiles -> gpre g = true -> c_sparse_pre c = true) ->
  files_ok (map fst gfiles) -> GPlanInv pl gfiles ->
  dirs_ok droot s0 -> parents_ok droot (map fst gfiles) s0 -> (forall g, In g gfiles -> gstate0 droot s0 g) ->
  exists s' reads, restore_contents c o droot s0 pl = (OOk, s', reads) /\ dirs_ok droot s' /\
    (forall g, In g gfiles -> exists mt mo, fs_get s' (P droot (fst g)) = Some (EFile (econt (snd (fst g))) mt mo)) /\
    (forall q, (forall g, In g gfiles -> q <> P droot (fst g)) -> fs_get s' q = fs_get s0 q).
Proof.
  intros Hsp Hfo HP. destruct (GPlanInv_jobs pl gfiles (fo_cons _ Hfo) HP) as [Hj Hc].
  apply (restore_contents_general c o droot gfiles s0 Hfo Hsp pl); auto; apply HP.
Qed.

(* The plan invariant for files that are not in the destination is the general one with nothing
   standing at any path. *)
Definition absent_all (files : list fileT) : list gfileT := map (fun f => (f, None)) files.

Lemma fst_absent_all files : map fst (absent_all files) = files.
Proof. unfold absent_all. rewrite map_map. apply map_id. Qed.

Lemma PlanInv_absent pl files : PlanInv pl files <-> GPlanInv pl (absent_all files).
Proof.
  assert (Hnth : forall i g, nth_error (absent_all files) i = Some g <-> snd g = None /\ nth_error files i = Some (fst g)).
  { intros i [f base]. unfold absent_all. rewrite nth_error_map. destruct (nth_error files i); simpl; split; intros H.
    - inv H. auto.
    - destruct H as [-> H]. inv H. reflexivity.
    - discriminate.
    - destruct H. discriminate. }
  (* no flag is set, since nothing stands anywhere *)
  assert (Hfs : fsound (pl_r pl) files <-> gfsound (pl_r pl) (absent_all files)).
  { split; intros Hf k d fls fl Hi Hfl.
    - destruct (Hf _ _ _ _ Hi Hfl) as (Hm & f & kk & b & H1 & H2 & H3 & H4).
      exists (f, None), kk, b. rewrite Hnth. repeat split; auto. congruence.
    - destruct (Hf _ _ _ _ Hi Hfl) as (g & kk & b & H1 & H2 & H3 & H4 & H5).
      apply Hnth in H1 as [Hb H1]. split; [|exists (fst g), kk, b; auto].
      destruct (fl_matches fl); [|reflexivity]. destruct (H5 eq_refl) as (d0 & E & _). congruence. }
  assert (E1 : map (fun g : gfileT => np (fst (fst g))) (absent_all files) = map (fun f => np (fst f)) files) by apply map_map.
  assert (E2 : map (fun g : gfileT => N.of_nat (gf_len g)) (absent_all files) = map (fun f => N.of_nat (blen (snd f))) files) by apply map_map.
  assert (E3 : map gpre (absent_all files) = map (fun _ => false) files) by apply map_map.
  split; intros [Hn Hl Hp He Hf Hc].
  - constructor; [rewrite E1|rewrite E2|rewrite E3|rewrite fst_absent_all|apply Hfs|rewrite fst_absent_all]; assumption.
  - rewrite E1 in Hn. rewrite E2 in Hl. rewrite E3 in Hp. rewrite fst_absent_all in He, Hc.
    constructor; try assumption. apply Hfs, Hf.
Qed.

Lemma PlanInv0 : PlanInv plan0 [].
Proof. apply (PlanInv_absent plan0 []), GPlanInv0. Qed.

Lemma add_file_fresh o droot s pl files l blobs size mt :
  PlanInv pl files -> fs_get s (droot ++ l) = None ->
  PlanInv (add_file o droot s pl (np l) blobs size mt) (files ++ [(l, blobs)]).
Proof.
  intros HP Hg. apply PlanInv_absent. unfold absent_all. rewrite map_app.
  apply add_file_general; [apply PlanInv_absent; assumption|congruence|apply pl_absent; assumption].
Qed.

(* restore_contents on a plan for files none of which exists: any cfg (no file existed before) *)
Theorem restore_contents_fresh c o droot files s0 : files_ok files -> forall pl,
  PlanInv pl files -> dirs_ok droot s0 -> parents_ok droot files s0 ->
  (forall f, In f files -> fs_get s0 (P droot f) = None) ->
  exists s' reads, restore_contents c o droot s0 pl = (OOk, s', reads) /\
    dirs_ok droot s' /\
    (forall f, In f files -> exists mt mo, fs_get s' (P droot f) = Some (EFile (econt (snd f)) mt mo)) /\
    (forall q, (forall f, In f files -> q <> P droot f) -> fs_get s' q = fs_get s0 q).
Proof.
  intros Hfo pl HP Hok Hpar Hg. apply PlanInv_absent in HP.
  assert (Hin : forall g, In g (absent_all files) <-> snd g = None /\ In (fst g) files).
  { intros [f base]. unfold absent_all. rewrite in_map_iff. split; [intros (f' & E & H); inv E; auto|].
    simpl. intros [-> H]. eauto. }
  destruct (restore_contents_planned c o droot (absent_all files) s0 pl) as (s' & reads & E & D & C & F);
    rewrite ?fst_absent_all; auto.
  - intros g Hgi Hpre. apply Hin in Hgi as [Hb _]. unfold gpre in Hpre. rewrite Hb in Hpre. discriminate.
  - intros g Hgi. apply Hin in Hgi as [Hb Hf]. unfold gstate0. rewrite Hb. auto.
  - exists s', reads. split; [exact E|]. split; [exact D|]. split.
    + intros f Hf. apply (C (f, None)). apply Hin. auto.
    + intros q Hq. apply F. intros g Hgi. apply Hin in Hgi as [_ Hf]. auto.
Qed.
