(* C14 — a worked instance of the full exactness statement (Props.restore_exact_instance_partial):
   identical / stale / other bytes / shorter / longer / missing files, a symlink, extras; files of
   two and three blobs with a shared blob. *)
From Verif.Base Require Import Tactics.
From Verif.C14 Require Import Model Witness.
Local Open Scope N_scope.

Definition bA := mkB 100 0 [1; 2].
Definition bB := mkB 100 10 [0; 0].
Definition bC := mkB 101 0 [3].
Definition snapX : list node :=
  [ Node (nm 1) (IFile [bA; bB] 4 1000 420) [];               (* identical in the destination *)
    Node (nm 2) (IFile [bA; bC] 3 1000 420) [];               (* other bytes, same size, other mtime *)
    Node (nm 3) (IDir 2000 493)
      [ Node (nm 1) (IFile [bB; bA; bC] 5 1000 384) [];       (* shorter in the destination *)
        Node (nm 2) (IFile [bC] 1 1000 420) [];               (* missing *)
        Node (nm 3) (ILink 7) [] ];                           (* missing *)
    Node (nm 4) (IFile [bA] 2 1000 420) [];                   (* longer in the destination *)
    Node (nm 5) (IFile [] 0 1000 420) [] ].                   (* non-empty in the destination *)
Definition worldX : fs := world0 ++
  [ ([1; 2; 1], EFile [1; 2; 0; 0] 1000 420);
    ([1; 2; 2], EFile [1; 9; 9] 3000 420);
    ([1; 2; 3], EDir 3000 448);
    ([1; 2; 3; 1], EFile [0; 0; 1] 3000 384);
    ([1; 2; 4], EFile [1; 2; 8; 8] 3000 420);
    ([1; 2; 5], EFile [6] 3000 420);
    ([1; 2; 0], EFile [5] 3000 420);                          (* extra file *)
    ([1; 2; 3; 9], EDir 3000 493);                            (* extra dir with a file *)
    ([1; 2; 3; 9; 1], EFile [4] 3000 420) ].
Definition expected_snapshot_paths : list (apath * entry) :=
  [ ([1; 2; 1], EFile [1; 2; 0; 0] 1000 420); ([1; 2; 2], EFile [1; 2; 3] 1000 420);
    ([1; 2; 3], EDir 2000 493); ([1; 2; 3; 1], EFile [0; 0; 1; 2; 3] 1000 384);
    ([1; 2; 3; 2], EFile [3] 1000 420); ([1; 2; 3; 3], ELink 7);
    ([1; 2; 4], EFile [1; 2] 1000 420); ([1; 2; 5], EFile [] 1000 420) ].
Definition extras : list (apath * entry) :=
  [ ([1; 2; 0], EFile [5] 3000 420); ([1; 2; 3; 9], EDir 3000 493); ([1; 2; 3; 9; 1], EFile [4] 3000 420) ].
Definition holds (s : fs) (l : list (apath * entry)) : Prop := Forall (fun x => fs_get s (fst x) = Some (snd x)) l.
Definition absent (s : fs) (l : list (apath * entry)) : Prop := Forall (fun x => fs_get s (fst x) = None) l.
