(* C20 — boolean equalities, lists counted in N (the model's ranged read is Spec.range_of), and
   the hex codec: Id::parse_some accepts exactly the names of 64 hex digits and inverts Id::to_hex. *)
From Verif.Base Require Import Tactics.
From Verif.C20 Require Import ModelBase Extracted Model Spec.
Local Open Scope N_scope.

Lemma list_eqb_iff {A} (eqb : A -> A -> bool) :
  (forall x y, eqb x y = true <-> x = y) ->
  forall a b, list_eqb eqb a b = true <-> a = b.
Proof.
  intros H a. induction a as [|x a IH]; intros [|y b]; simpl; split; intro E; try reflexivity; try discriminate.
  - apply andb_true_iff in E. destruct E as [E1 E2]. apply H in E1. apply IH in E2. congruence.
  - inv E. apply andb_true_iff. split; [apply H; reflexivity | apply IH; reflexivity].
Qed.

Lemma name_eqb_iff a b : name_eqb a b = true <-> a = b.
Proof. apply list_eqb_iff. intros; apply N.eqb_eq. Qed.
Lemma path_eqb_iff a b : path_eqb a b = true <-> a = b.
Proof. apply list_eqb_iff. apply name_eqb_iff. Qed.
Lemma id_eqb_iff a b : id_eqb a b = true <-> a = b.
Proof. exact (name_eqb_iff a b). Qed.
Lemma ft_eqb_iff a b : ft_eqb a b = true <-> a = b.
Proof. destruct a, b; simpl; split; intro; try reflexivity; discriminate. Qed.
Lemma key_eqb_iff a b : key_eqb a b = true <-> a = b.
Proof.
  destruct a as [t i], b as [t' i']. unfold key_eqb; simpl. rewrite andb_true_iff, ft_eqb_iff, id_eqb_iff.
  split; [intros [-> ->]; reflexivity | intro E; inv E; auto].
Qed.
Lemma path_eqb_neq p q : p <> q -> path_eqb p q = false.
Proof. intro H. destruct (path_eqb p q) eqn:E; [apply path_eqb_iff in E; contradiction | reflexivity]. Qed.
Lemma name_eqb_refl p : name_eqb p p = true.
Proof. apply name_eqb_iff; reflexivity. Qed.
Lemma ft_eqb_refl t : ft_eqb t t = true.
Proof. destruct t; reflexivity. Qed.

Lemma lenN_length {A} (l : list A) : lenN l = N.of_nat (length l).
Proof. induction l; simpl; [reflexivity | rewrite IHl; lia]. Qed.

Lemma takeN_firstn {A} (l : list A) : forall n, takeN n l = firstn (N.to_nat n) l.
Proof.
  induction l as [|x l IH]; intro n; simpl.
  - destruct (N.to_nat n); reflexivity.
  - destruct (N.eqb_spec n 0) as [->|Hn]; [reflexivity|].
    replace (N.to_nat n) with (S (N.to_nat (N.pred n))) by lia. simpl. rewrite IH. reflexivity.
Qed.
Lemma dropN_skipn {A} (l : list A) : forall n, dropN n l = skipn (N.to_nat n) l.
Proof.
  induction l as [|x l IH]; intro n; simpl.
  - destruct (N.to_nat n); reflexivity.
  - destruct (N.eqb_spec n 0) as [->|Hn]; [reflexivity|].
    replace (N.to_nat n) with (S (N.to_nat (N.pred n))) by lia. simpl. rewrite IH. reflexivity.
Qed.

Lemma length_range (b : bytes) off len : off + len <= N.of_nat (length b) ->
  length (firstn (N.to_nat len) (skipn (N.to_nat off) b)) = N.to_nat len.
Proof. intro H. rewrite firstn_length, skipn_length. lia. Qed.

Lemma slice_range b off len :
  (if lenN (slice off len b) =? len then Ok (slice off len b) else Err) = range_of b off len.
Proof.
  unfold slice, range_of. rewrite takeN_firstn, dropN_skipn, lenN_length.
  destruct (N.leb_spec (off + len) (N.of_nat (length b))) as [H|H].
  - rewrite length_range, N2Nat.id, N.eqb_refl by assumption. reflexivity.
  - destruct (N.eqb_spec len 0) as [->|Hn]; [reflexivity|].
    rewrite (proj2 (N.eqb_neq _ len)); [reflexivity|]. rewrite firstn_length, skipn_length. lia.
Qed.

Lemma hex_val_digit n : n < 16 -> hex_val (hex_digit n) = Some n.
Proof.
  intro H. unfold hex_digit, hex_val.
  destruct (N.ltb_spec n 10).
  - replace ((48 <=? 48 + n) && (48 + n <=? 57)) with true by lia. f_equal; lia.
  - replace ((48 <=? 87 + n) && (87 + n <=? 57)) with false by lia.
    replace ((97 <=? 87 + n) && (87 + n <=? 102)) with true by lia. f_equal; lia.
Qed.

Lemma hex_val_spec c : match hex_val c with Some v => hexchar c /\ v < 16 | None => ~ hexchar c end.
Proof.
  unfold hex_val, hexchar.
  destruct ((48 <=? c) && (c <=? 57)) eqn:E1; [lia|].
  destruct ((97 <=? c) && (c <=? 102)) eqn:E2; [lia|].
  destruct ((65 <=? c) && (c <=? 70)) eqn:E3; lia.
Qed.

Lemma hex_decode_encode b : Forall (fun x => x < 256) b -> hex_decode (hex_encode b) = Some b.
Proof.
  induction 1 as [|x b Hx Hb IH]; [reflexivity|].
  unfold hex_encode in *. cbn [flat_map app hex_decode].
  rewrite (hex_val_digit (x / 16)) by (apply N.div_lt_upper_bound; [discriminate | exact Hx]).
  rewrite (hex_val_digit (x mod 16)) by (apply N.mod_lt; discriminate).
  rewrite IH, <- N.div_mod'. reflexivity.
Qed.

Lemma length_hex_encode b : length (hex_encode b) = (2 * length b)%nat.
Proof. induction b; simpl; [reflexivity|]. unfold hex_encode in *. simpl. rewrite IHb. lia. Qed.

(* hex_decode takes two characters at a time *)
Lemma list_ind2 {A} (P : list A -> Prop) :
  P [] -> (forall x, P [x]) -> (forall x y l, P l -> P (x :: y :: l)) -> forall l, P l.
Proof.
  intros H0 H1 H2. fix IH 1. intros [|x [|y l]]; [apply H0 | apply H1 | apply H2; apply IH].
Qed.

Lemma hex_decode_spec s :
  match hex_decode s with
  | Some b => length s = (2 * length b)%nat /\ Forall hexchar s /\ Forall (fun x => x < 256) b
  | None => ~ (Forall hexchar s /\ Nat.even (length s) = true)
  end.
Proof.
  induction s as [| x | x y s IH] using list_ind2; cbn [hex_decode].
  - simpl; auto.
  - intros [_ E]. discriminate.
  - pose proof (hex_val_spec x) as Hx. pose proof (hex_val_spec y) as Hy.
    destruct (hex_val x) as [a|], (hex_val y) as [c|], (hex_decode s) as [t|];
      try (intros [F E]; inversion F as [|? ? Fx F']; inversion F' as [|? ? Fy Fs]; subst; tauto).
    destruct IH as (L & F1 & F2). simpl. repeat split.
    + lia.
    + constructor; [tauto|]. constructor; tauto.
    + constructor; [lia | assumption].
Qed.

Lemma parse_id_eq s : parse_id s = if (length s =? 64)%nat then hex_decode s else None.
Proof.
  unfold parse_id, id_len. rewrite lenN_length. cbv zeta.
  destruct (Nat.eqb_spec (length s) 64) as [->|Hn]; [reflexivity|].
  destruct (N.eqb_spec (N.of_nat (length s) mod 2) 0) as [E1|]; [|reflexivity].
  destruct (N.eqb_spec (N.of_nat (length s) / 2) 32) as [E2|]; [|reflexivity].
  pose proof (N.div_mod' (N.of_nat (length s)) 2) as D. rewrite E1, E2 in D. destruct (Hn (Nat2N.inj _ 64 D)).
Qed.

Lemma parse_id_spec s : match parse_id s with Some i => is_hex64 s /\ wf_id i | None => ~ is_hex64 s end.
Proof.
  rewrite parse_id_eq. unfold is_hex64, wf_id, id_len. pose proof (hex_decode_spec s) as H.
  destruct (Nat.eqb_spec (length s) 64) as [L|]; [|tauto].
  rewrite L in H. destruct (hex_decode s); [intuition lia | tauto].
Qed.

Lemma length_to_hex i : wf_id i -> length (to_hex i) = 64%nat.
Proof. intros [L _]. unfold to_hex. rewrite length_hex_encode, L. reflexivity. Qed.

Lemma parse_id_to_hex i : wf_id i -> parse_id (to_hex i) = Some i.
Proof.
  intro H. rewrite parse_id_eq, length_to_hex by assumption. apply hex_decode_encode, H.
Qed.

Lemma wf_idb_iff i : wf_idb i = true <-> wf_id i.
Proof.
  unfold wf_idb, wf_id. rewrite andb_true_iff, lenN_length, N.eqb_eq, forallb_forall, Forall_forall.
  split; intros [A B]; split.
  - rewrite <- A. symmetry. apply Nat2N.id.
  - intros x Hx. apply N.ltb_lt, B, Hx.
  - rewrite A. apply N2Nat.id.
  - intros x Hx. apply N.ltb_lt, B, Hx.
Qed.

Lemma wf_zero_id : wf_id zero_id.
Proof. apply wf_idb_iff. reflexivity. Qed.
