(* C20 — association lists over a boolean equality that decides equality of keys. *)
From Verif.Base Require Import Tactics.
From Verif.C20 Require Import ModelBase.

Lemma in_keys {K V} (f : list (K * V)) k : In k (map fst f) <-> exists v, In (k, v) f.
Proof.
  rewrite in_map_iff. split; [intros ([q v] & E & H); simpl in E; subst; eauto | intros (v & H); exists (k, v); auto].
Qed.

Section AL.
  Context {K V : Type} (eqb : K -> K -> bool) (eqb_iff : forall a b, eqb a b = true <-> a = b).

  Lemma al_eqb_refl k : eqb k k = true.
  Proof. apply eqb_iff; reflexivity. Qed.
  Lemma al_eqb_spec a b : reflect (a = b) (eqb a b).
  Proof. apply iff_reflect. symmetry. apply eqb_iff. Qed.
  Lemma al_negb_eqb a b : negb (eqb a b) = true <-> a <> b.
  Proof. destruct (al_eqb_spec a b); simpl; split; congruence. Qed.

  Lemma al_in_del (f : list (K * V)) k e : In e (al_del eqb f k) <-> In e f /\ fst e <> k.
  Proof.
    unfold al_del. rewrite filter_In, al_negb_eqb. reflexivity.
  Qed.

  Lemma al_keys_del_eq (f : list (K * V)) k :
    map fst (al_del eqb f k) = filter (fun q => negb (eqb q k)) (map fst f).
  Proof.
    induction f as [|[q v] f IH]; simpl; [reflexivity|]. destruct (eqb q k); simpl; rewrite IH; reflexivity.
  Qed.

  Lemma al_keys_del (f : list (K * V)) k k' :
    In k' (map fst (al_del eqb f k)) <-> In k' (map fst f) /\ k' <> k.
  Proof.
    rewrite al_keys_del_eq, filter_In, al_negb_eqb. reflexivity.
  Qed.

  Lemma al_nodup_del (f : list (K * V)) k : NoDup (map fst f) -> NoDup (map fst (al_del eqb f k)).
  Proof. rewrite al_keys_del_eq. apply NoDup_filter. Qed.

  Lemma al_nodup_put (f : list (K * V)) k v : NoDup (map fst f) -> NoDup (map fst (al_put eqb f k v)).
  Proof.
    intro H. unfold al_put. simpl. constructor; [rewrite al_keys_del; tauto | apply al_nodup_del; assumption].
  Qed.

  Lemma al_get_del (f : list (K * V)) k k' :
    al_get eqb (al_del eqb f k) k' = if eqb k k' then None else al_get eqb f k'.
  Proof.
    induction f as [|[q v] f IH]; simpl; [destruct (eqb k k'); reflexivity|].
    destruct (al_eqb_spec q k) as [->|N]; simpl; rewrite IH; [destruct (eqb k k'); reflexivity|].
    destruct (al_eqb_spec k k') as [E|]; [subst k' | reflexivity]. destruct (al_eqb_spec q k); [contradiction | reflexivity].
  Qed.

  Lemma al_get_put (f : list (K * V)) k v k' :
    al_get eqb (al_put eqb f k v) k' = if eqb k k' then Some v else al_get eqb f k'.
  Proof. unfold al_put. simpl. rewrite al_get_del. destruct (eqb k k'); reflexivity. Qed.

  Lemma al_del_absent (f : list (K * V)) k : al_get eqb f k = None -> al_del eqb f k = f.
  Proof.
    induction f as [|[q v] f IH]; simpl; [reflexivity|].
    destruct (eqb q k); [discriminate|]. intro H. simpl. f_equal. apply IH. assumption.
  Qed.

  Lemma al_del_put_same (f : list (K * V)) k v : al_del eqb (al_put eqb f k v) k = al_del eqb f k.
  Proof.
    unfold al_put, al_del at 1. simpl. rewrite al_eqb_refl. apply al_del_absent.
    rewrite al_get_del, al_eqb_refl. reflexivity.
  Qed.

  Definition al_upd (f : list (K * V)) k (o : option V) : list (K * V) :=
    match o with Some v => al_put eqb f k v | None => al_del eqb f k end.

  Lemma al_get_upd f k o k' : al_get eqb (al_upd f k o) k' = if eqb k k' then o else al_get eqb f k'.
  Proof. destruct o; [apply al_get_put | apply al_get_del]. Qed.

  Lemma al_nodup_upd f k o : NoDup (map fst f) -> NoDup (map fst (al_upd f k o)).
  Proof. destruct o; [apply al_nodup_put | apply al_nodup_del]. Qed.

  Lemma al_in_upd f k o k' v : In (k', v) (al_upd f k o) -> k' = k /\ o = Some v \/ In (k', v) f.
  Proof.
    destruct o as [w|]; simpl; [intros [E|H]; [inv E; auto|] | intro H]; apply al_in_del in H; tauto.
  Qed.

  Lemma al_keys_upd f k o k' : In k' (map fst (al_upd f k o)) -> k' = k /\ o <> None \/ In k' (map fst f).
  Proof.
    rewrite !in_keys. intros (v & H). apply al_in_upd in H.
    destruct H as [[-> ->]|H]; [left; split; [reflexivity | discriminate] | right; eauto].
  Qed.

  Lemma al_get_key_in (f : list (K * V)) k : al_get eqb f k <> None <-> In k (map fst f).
  Proof.
    induction f as [|[q w] f IH]; simpl; [split; [congruence | contradiction]|].
    destruct (al_eqb_spec q k) as [->|N]; [split; [auto | discriminate]|].
    rewrite IH. split; [auto | intros [E|H]; [contradiction | assumption]].
  Qed.

  Lemma al_get_none (f : list (K * V)) k : al_get eqb f k = None <-> ~ In k (map fst f).
  Proof.
    rewrite <- al_get_key_in. destruct (al_get eqb f k); intuition congruence.
  Qed.

  Lemma al_get_some_in (f : list (K * V)) k v : al_get eqb f k = Some v -> In (k, v) f.
  Proof.
    induction f as [|[q w] f IH]; simpl; [discriminate|].
    destruct (al_eqb_spec q k) as [->|N]; intro H; [inv H; left; reflexivity | right; apply IH; assumption].
  Qed.

  Lemma al_get_in (f : list (K * V)) k v : NoDup (map fst f) -> (al_get eqb f k = Some v <-> In (k, v) f).
  Proof.
    intro ND. split; [apply al_get_some_in|].
    induction f as [|[q w] f IH]; simpl; [contradiction|]. inversion ND as [|? ? Hq ND']; subst.
    intros [E|H]; [inv E; rewrite al_eqb_refl; reflexivity|].
    destruct (al_eqb_spec q k) as [->|N]; [exfalso; apply Hq, in_keys; eauto | apply IH; assumption].
  Qed.
End AL.

(* what a function yields from the entries has no duplicates when each entry yields at most
   one element and that element tells the entry's key *)
Lemma al_nodup_flat_map {K V B} (h : K * V -> list B) (key : B -> K) (f : list (K * V)) :
  NoDup (map fst f) -> (forall e b, In e f -> In b (h e) -> h e = [b] /\ key b = fst e) -> NoDup (flat_map h f).
Proof.
  induction f as [|e f IH]; simpl; intros ND H; [constructor|]. inversion ND as [|? ? Hn ND']; subst.
  assert (IH' : NoDup (flat_map h f)) by (apply IH; auto).
  destruct (h e) as [|b r] eqn:E; [assumption|]. destruct (H e b) as [Hb Kb]; [auto | rewrite E; left; reflexivity|].
  rewrite E in Hb. inv Hb. simpl. constructor; [|assumption].
  intro X. apply in_flat_map in X. destruct X as (e' & He' & X). destruct (H e' b (or_intror He') X) as [_ K'].
  apply Hn. rewrite <- Kb, K'. apply in_map, He'.
Qed.
