(* C20 — executable model of the directory backend (crates/backend/src/local.rs), of the
   id/hex codec (crates/core/src/id.rs, crate `hex`) and of the path/listing logic of the
   object-store adapter (crates/backend/src/opendal.rs).  Definitions only.

   The file system is a finite map  path -> bytes  (association list), directories are
   implicit (write_bytes does create_dir_all first; theorem path_prefix_free shows that no
   file path of the layout is a directory of another one), rename is atomic. *)
From Verif.Base Require Import Tactics.
From Verif.C20 Require Import ModelBase Extracted.
Local Open Scope N_scope.

(* ---------- hex codec (crate hex: encode_to_slice lower case, decode_to_slice) ---------- *)
Definition hex_digit (n : N) : N := if n <? 10 then 48 + n else 87 + n.
Definition hex_encode (b : bytes) : name :=
  flat_map (fun x => [hex_digit (x / 16); hex_digit (x mod 16)]) b.

Definition hex_val (c : N) : option N :=
  if (48 <=? c) && (c <=? 57) then Some (c - 48)          (* '0'..'9' *)
  else if (97 <=? c) && (c <=? 102) then Some (c - 87)    (* 'a'..'f' *)
  else if (65 <=? c) && (c <=? 70) then Some (c - 55)     (* 'A'..'F' *)
  else None.

Fixpoint hex_decode (s : name) : option bytes :=
  match s with
  | [] => Some []
  | h :: l :: r =>
      match hex_val h, hex_val l, hex_decode r with
      | Some a, Some b, Some t => Some (16 * a + b :: t)
      | _, _, _ => None
      end
  | _ => None
  end.

(* Id::from_str = hex::decode_to_slice(s, &mut [u8; LEN]): odd length and a length other
   than 2*LEN are errors; Id::parse_some = from_str(..).ok() *)
Definition parse_id (s : name) : option id :=
  let n := lenN s in
  if negb (n mod 2 =? 0) then None
  else if negb (n / 2 =? id_len) then None
  else hex_decode s.

Definition to_hex (i : id) : name := hex_encode i.
Definition zero_id : id := repeat 0 (N.to_nat id_len).      (* Id::default() *)

(* ---------- LocalBackend::base_path / filename / path ---------- *)
Definition lb_base_path (t : file_type) (i : id) : path :=
  match t with
  | Config => []
  | Pack => [lb_data_dir; takeN lb_prefix_len (to_hex i)]
  | _ => [dirname t]
  end.
Definition lb_filename (t : file_type) (i : id) : name :=
  match t with Config => lb_config_name | _ => to_hex i end.
Definition lb_path (t : file_type) (i : id) : path := lb_base_path t i ++ [lb_filename t i].
(* the temporary file: <parent>[/<lb_tmp_dir>]/<final name><lb_tmp_suffix>; both parts are
   regenerated from write_bytes (today: no sub-directory, suffix "-tmp-") *)
Definition lb_tmp_path (t : file_type) (i : id) : path :=
  lb_base_path t i ++ lb_tmp_dir ++ [lb_filename t i ++ lb_tmp_suffix].

(* OpenDALBackend::path *)
Definition od_path (t : file_type) (i : id) : path :=
  match t with
  | Config => [od_config_name]
  | Pack => [od_data_dir; takeN od_prefix_len (to_hex i); to_hex i]
  | _ => [dirname t; to_hex i]
  end.

(* ---------- the file system ---------- *)
Definition fs := list (path * bytes).
Definition fs_get : fs -> path -> option bytes := al_get path_eqb.
Definition fs_del : fs -> path -> fs := al_del path_eqb.
Definition fs_put : fs -> path -> bytes -> fs := al_put path_eqb.
(* rename(2): atomically replaces the destination; a missing source leaves everything *)
Definition fs_rename (f : fs) (src dst : path) : fs :=
  match fs_get f src with
  | Some b => fs_put (fs_del f src) dst b
  | None => f
  end.

(* ---------- listing ---------- *)
(* WalkDir::new(root/<dirname>) yields the root itself and everything below it; only
   regular files are kept; the root is a directory in every state the model describes, so
   a listed file has at least one component after <dirname> *)
Definition under (d : name) (p : path) : bool :=
  match p with
  | h :: _ :: _ => name_eqb h d
  | _ => false
  end.
Definition last_name (p : path) : name := last p [].
Definition entry_id (t : file_type) (p : path) : option id :=
  if under (dirname t) p then parse_id (last_name p) else None.
(* u64 file length -> u32 (try_into) *)
Definition u32_of_len (b : bytes) : option N :=
  let n := lenN b in if n <? 2 ^ 32 then Some n else None.

Definition walk_ids (t : file_type) (f : fs) : list id :=
  flat_map (fun e => match entry_id t (fst e) with Some i => [i] | None => [] end) f.
Definition walk_sizes (t : file_type) (f : fs) : list (id * N) :=
  flat_map (fun e => match entry_id t (fst e) with
                     | Some i => match u32_of_len (snd e) with Some n => [(i, n)] | None => [] end
                     | None => []
                     end) f.

Definition lb_list (f : fs) (t : file_type) : list id :=
  match t with
  | Config => match fs_get f [lb_list_config_name] with Some _ => [zero_id] | None => [] end
  | _ => walk_ids t f
  end.
Definition lb_list_with_size (f : fs) (t : file_type) : list (id * N) :=
  match t with
  | Config => match fs_get f [dirname Config] with
              | Some b => [(zero_id, match u32_of_len b with Some n => n | None => 0 end)]
              | None => []
              end
  | _ => walk_sizes t f
  end.
Definition od_list (f : fs) (t : file_type) : list id :=
  match t with
  | Config => match fs_get f [od_list_config_name] with Some _ => [zero_id] | None => [] end
  | _ => walk_ids t f
  end.
Definition od_list_with_size (f : fs) (t : file_type) : list (id * N) :=
  match t with
  | Config => match fs_get f [od_stat_config_name] with
              | Some b => [(zero_id, match u32_of_len b with Some n => n | None => 0 end)]
              | None => []
              end
  | _ => walk_sizes t f
  end.

(* ---------- reads ---------- *)
Definition slice (off len : N) (b : bytes) : bytes := takeN len (dropN off b).

Definition lb_read_full (f : fs) (t : file_type) (i : id) : res bytes :=
  match fs_get f (lb_path t i) with Some b => Ok b | None => Err end.
(* File::open; seek(Start(offset)) (seeking past the end succeeds); read_exact(length bytes):
   succeeds iff that many bytes are available at the position *)
Definition lb_read_partial (f : fs) (t : file_type) (i : id) (off len : N) : res bytes :=
  match fs_get f (lb_path t i) with
  | None => Err
  | Some b => let s := slice off len b in if lenN s =? len then Ok s else Err
  end.

Definition od_read_full (f : fs) (t : file_type) (i : id) : res bytes :=
  match fs_get f (od_path t i) with Some b => Ok b | None => Err end.
(* range = offset .. (offset + length computed in u32: overflow panics in a debug build);
   the fs and memory services answer a range that is not inside the file with an error
   (observed, see NOTES.md) and an empty range with the empty string - even for a missing file *)
Definition od_read_partial (f : fs) (t : file_type) (i : id) (off len : N) : res bytes :=
  if 2 ^ 32 <=? off + len then Panic
  else if len =? 0 then Ok []        (* an empty range is answered without looking at the file *)
  else match fs_get f (od_path t i) with
       | None => Err
       | Some b => let s := slice off len b in if lenN s =? len then Ok s else Err
       end.

(* ---------- write_bytes as micro-steps ---------- *)
(* the order the model assumes; Props.write_order_as_modelled compares it with the order
   regenerated from the source *)
Definition modelled_write_order : list wstep := [WMkdir; WOpenTrunc; WSetLen; WCopy; WSync; WRename].
Definition is_hook (s : wstep) : bool := match s with WHook => true | _ => false end.

Inductive wstage :=
| SOpened                 (* temp file created/truncated: empty *)
| SSized                  (* set_len: <length> zero bytes *)
| SCopied (k : nat)       (* io::copy has written the first k bytes *)
| SSynced                 (* complete temp file, sync_all done; the hook point / crash point *)
| SRenamed                (* published *)
| SAborted (k : nat).     (* an I/O error during the copy: temp file removed, Err returned *)

Definition tmp_content (c : bytes) (k : nat) : bytes :=
  firstn k c ++ repeat 0 (length c - k).

Definition micro_state (f : fs) (t : file_type) (i : id) (c : bytes) (st : wstage) : fs :=
  let tmp := lb_tmp_path t i in
  match st with
  | SOpened => fs_put f tmp []
  | SSized => fs_put f tmp (repeat 0 (length c))
  | SCopied k => fs_put f tmp (tmp_content c k)
  | SSynced => fs_put f tmp c
  | SRenamed => fs_rename (fs_put f tmp c) tmp (lb_path t i)
  | SAborted k => fs_del (fs_put f tmp (tmp_content c k)) tmp
  end.

Definition lb_write (f : fs) (t : file_type) (i : id) (c : bytes) : fs := micro_state f t i c SRenamed.
Definition od_write (f : fs) (t : file_type) (i : id) (c : bytes) : fs := fs_put f (od_path t i) c.

(* fs::remove_file: error when the file does not exist; opendal delete: idempotent *)
Definition lb_remove (f : fs) (t : file_type) (i : id) : fs * res unit :=
  match fs_get f (lb_path t i) with
  | Some _ => (fs_del f (lb_path t i), Ok tt)
  | None => (f, Err)
  end.
Definition od_remove (f : fs) (t : file_type) (i : id) : fs * res unit :=
  (fs_del f (od_path t i), Ok tt).

(* the adapter, statement by statement: write_bytes = drop empty chunks; operator.write(path)
   - one put, no look at the previous state, no early exit; remove = operator.delete(path);
   read_full = operator.read(path); read_partial = operator.read_options(path, range);
   list = [Config: return exists("config")] lister(<dirname>/, recursive) filtered by
   is_file + Id::parse_some (the `return None` of the filter); list_with_size likewise with stat.
   Props.opendal_calls_as_modelled compares this table with the one regenerated from the source. *)
Definition modelled_od_calls (f : odfn) : list odcall :=
  match f with
  | FWrite => [OcFilterEmpty; OcWrite]
  | FRemove => [OcDelete]
  | FReadFull => [OcRead]
  | FReadPartial => [OcReadOptions]
  | FList => [OcEarlyReturn; OcExists; OcLister; OcEarlyReturn]
  | FSizes => [OcEarlyReturn; OcStat; OcLister; OcEarlyReturn]
  end.
(* the directory backend's other methods, statement by statement: read_full = fs::read(path);
   read_partial = File::open; seek(Start(off)); read_exact(len bytes); list = [Config: return
   exists] WalkDir(<dirname>) keeping is_file entries whose name Id::parse_some accepts;
   list_with_size likewise with the metadata length; remove = fs::remove_file (+ the optional
   post-delete command).  Props.local_calls_as_modelled compares with the regenerated table. *)
Definition modelled_lb_calls (f : lbfn) : list lbcall :=
  match f with
  | LReadFull => [LcFsRead]
  | LReadPartial => [LcFileOpen; LcSeek; LcReadExact]
  | LList => [LcReturn; LcExists; LcWalkDir; LcIsFile; LcReturn; LcParseSome]
  | LSizes => [LcExists; LcReturn; LcMetadata; LcReturn; LcWalkDir; LcIsFile; LcReturn; LcParseSome; LcMetadata]
  | LRemove => [LcRemoveFile; LcCommand]
  end.
(* layers that hand every request and every answer through unchanged (retry repeats a failed
   request, throttle delays, concurrent-limit queues, logging logs): taken as a fact about opendal *)
Definition passthrough (l : odlayer) : bool := match l with LOther => false | _ => true end.

(* ---------- operations ---------- *)
Inductive flavour := Local | OpenDAL.

Inductive op :=
| OWrite (t : file_type) (i : id) (c : bytes)
| ORead (t : file_type) (i : id)
| OPartial (t : file_type) (i : id) (off len : N)
| OList (t : file_type)
| OSizes (t : file_type)
| ORemove (t : file_type) (i : id).

Inductive result :=
| RUnit (r : res unit)
| RBytes (r : res bytes)
| RIds (l : list id)
| RSizes (l : list (id * N)).

Definition step (fl : flavour) (f : fs) (o : op) : fs * result :=
  match fl, o with
  | Local, OWrite t i c => (lb_write f t i c, RUnit (Ok tt))
  | Local, ORead t i => (f, RBytes (lb_read_full f t i))
  | Local, OPartial t i off len => (f, RBytes (lb_read_partial f t i off len))
  | Local, OList t => (f, RIds (lb_list f t))
  | Local, OSizes t => (f, RSizes (lb_list_with_size f t))
  | Local, ORemove t i => let '(f', r) := lb_remove f t i in (f', RUnit r)
  | OpenDAL, OWrite t i c => (od_write f t i c, RUnit (Ok tt))
  | OpenDAL, ORead t i => (f, RBytes (od_read_full f t i))
  | OpenDAL, OPartial t i off len => (f, RBytes (od_read_partial f t i off len))
  | OpenDAL, OList t => (f, RIds (od_list f t))
  | OpenDAL, OSizes t => (f, RSizes (od_list_with_size f t))
  | OpenDAL, ORemove t i => let '(f', r) := od_remove f t i in (f', RUnit r)
  end.

Fixpoint run (fl : flavour) (f : fs) (ops : list op) : fs * list result :=
  match ops with
  | [] => (f, [])
  | o :: r => let '(f1, x) := step fl f o in let '(f2, xs) := run fl f1 r in (f2, x :: xs)
  end.
