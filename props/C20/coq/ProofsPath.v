(* C20 — the path layout.  The listing of a type's directory reads a key's path back into its
   id (entry_id_canonical), so paths determine keys; a path's first component fixes its depth,
   so no path is a directory on the way to another; a temporary name has the wrong length to parse. *)
From Verif.Base Require Import Tactics.
From Verif.C20 Require Import ModelBase Extracted Model Spec ProofsHex.
Local Open Scope N_scope.

Lemma last_name_path t i : last_name (lb_path t i) = lb_filename t i.
Proof. apply last_last. Qed.
Lemma last_name_tmp t i : last_name (lb_tmp_path t i) = lb_filename t i ++ lb_tmp_suffix.
Proof. unfold lb_tmp_path. rewrite app_assoc. apply last_last. Qed.

Lemma od_path_eq t i : od_path t i = lb_path t i.
Proof. destruct t; reflexivity. Qed.
Lemma od_list_eq f t : od_list f t = lb_list f t.
Proof. destruct t; reflexivity. Qed.
Lemma od_sizes_eq f t : od_list_with_size f t = lb_list_with_size f t.
Proof. destruct t; reflexivity. Qed.

Lemma config_paths :
  [lb_list_config_name] = lb_path Config zero_id /\ [dirname Config] = lb_path Config zero_id /\
  [od_list_config_name] = lb_path Config zero_id /\ [od_stat_config_name] = lb_path Config zero_id.
Proof. repeat split; reflexivity. Qed.

Lemma dirname_eqb t t' : name_eqb (dirname t) (dirname t') = ft_eqb t t'.
Proof. destruct t, t'; reflexivity. Qed.

Lemma dirname_inj t t' : dirname t = dirname t' -> t = t'.
Proof. intro E. apply ft_eqb_iff. rewrite <- dirname_eqb. apply name_eqb_iff, E. Qed.

(* for Pack this is lb_data_dir = dirname Pack: two constants regenerated separately *)
Lemma base_path_hd t i l : t <> Config -> hd [] (lb_base_path t i ++ l) = dirname t.
Proof. destruct t; [contradiction | reflexivity..]. Qed.
Lemma under_path t i d : t <> Config -> under d (lb_path t i) = name_eqb (dirname t) d.
Proof. destruct t; [contradiction | reflexivity..]. Qed.

Lemma config_dec t : {t = Config} + {t <> Config}.
Proof. destruct t; [left; reflexivity | right; discriminate..]. Qed.

Lemma entry_id_canonical t i t' : wf_id i -> t' <> Config ->
  entry_id t' (lb_path t i) = if ft_eqb t t' then Some i else None.
Proof.
  intros Hi Hc. unfold entry_id. destruct (config_dec t) as [->|Ht].
  - destruct t'; [contradiction | reflexivity..].
  - rewrite under_path, dirname_eqb, last_name_path by assumption.
    destruct (ft_eqb t t'); [|reflexivity]. destruct t; [contradiction | apply parse_id_to_hex, Hi ..].
Qed.

Lemma lb_path_inj t i t' i' : wf_id i -> wf_id i' -> t <> Config ->
  lb_path t i = lb_path t' i' -> (t', i') = (t, i).
Proof.
  (* t's listing parses both sides of E as the same id *)
  intros Hi Hi' Ht E. pose proof (entry_id_canonical t' i' t Hi' Ht) as P.
  rewrite <- E, entry_id_canonical, ft_eqb_refl in P by assumption.
  destruct (ft_eqb t' t) eqn:X; [apply ft_eqb_iff in X; congruence | discriminate].
Qed.

Lemma lb_path_norm t i : lb_path t i = lb_path (fst (norm t i)) (snd (norm t i)).
Proof. destruct t; reflexivity. Qed.

Lemma norm_nonconfig t i : t <> Config -> norm t i = (t, i).
Proof. destruct t; [contradiction | reflexivity..]. Qed.
Lemma norm_fst_nonconfig t t' i i' : t <> Config -> norm t' i' = (t, i) -> t' = t /\ i' = i.
Proof. destruct t'; simpl; intros H E; inv E; auto. contradiction. Qed.

Lemma norm_path_iff t i t' i' : wf_id i -> wf_id i' ->
  (lb_path t i = lb_path t' i' <-> norm t i = norm t' i').
Proof.
  intros Hi Hi'. split; intro E; [|rewrite (lb_path_norm t i), (lb_path_norm t' i'), E; reflexivity].
  (* lb_path_inj wants the type on the left of E not Config *)
  destruct (config_dec t) as [->|Ht]; [destruct (config_dec t') as [->|Ht']; [reflexivity | symmetry in E]|];
    apply lb_path_inj in E; try assumption; inv E; [contradiction | reflexivity].
Qed.

(* paths the backend ever creates: final and temporary *)
Definition created (p : path) : Prop :=
  exists t i, wf_id i /\ (p = lb_path t i \/ p = lb_tmp_path t i).

Lemma root_names_no_dirs x t : In x [lb_config_name; lb_config_name ++ lb_tmp_suffix] -> t <> Config -> x <> dirname t.
Proof. intros [<-|[<-|[]]] Ht; destruct t; try contradiction; discriminate. Qed.

(* a file or temporary file [x] of key (t, i) is no directory on the way to anything in the
   directory of a key: that would lie deeper, so below a type directory; at the root x is not
   named like one, elsewhere x lies below the same one, at the same depth *)
Lemma base_path_prefix_free t i x rest t' i' y :
  In x [lb_filename t i; lb_filename t i ++ lb_tmp_suffix] -> rest <> [] ->
  (lb_base_path t i ++ [x]) ++ rest <> lb_base_path t' i' ++ [y].
Proof.
  intros Hx Hr E.
  assert (L : (length (lb_base_path t i) < length (lb_base_path t' i'))%nat).
  { apply (f_equal (@length _)) in E. rewrite !app_length in E. destruct rest; [congruence|]. simpl in E. lia. }
  assert (Ht' : t' <> Config) by (intros ->; exact (Nat.nlt_0_r _ L)).
  apply (f_equal (hd [])) in E. rewrite <- app_assoc, (base_path_hd t' i') in E by assumption.
  destruct t; [exact (root_names_no_dirs x t' Hx Ht' E) | ..];
    (rewrite base_path_hd in E by discriminate; apply dirname_inj in E; subst t'; exact (Nat.lt_irrefl _ L)).
Qed.

(* the regenerated suffix makes the temporary name unparseable whatever directory it is in:
   neither 64 nor 6 ("config") characters plus the suffix give 64 characters *)
Lemma tmp_suffix_ok : (length lb_tmp_suffix <> 0 /\ length lb_tmp_suffix <> 58)%nat.
Proof. split; vm_compute; discriminate. Qed.

Lemma length_filename t i : wf_id i -> length (lb_filename t i) = 64%nat \/ length (lb_filename t i) = 6%nat.
Proof. intro H. destruct t; [right; reflexivity | left; apply length_to_hex, H ..]. Qed.

Lemma length_tmp_name t i : wf_id i ->
  length (lb_filename t i ++ lb_tmp_suffix) <> 64%nat /\ length (lb_filename t i ++ lb_tmp_suffix) <> 6%nat.
Proof.
  intro Hi. rewrite app_length. pose proof tmp_suffix_ok. destruct (length_filename t i Hi) as [-> | ->]; lia.
Qed.

Lemma tmp_name_unparsed t i : wf_id i -> parse_id (lb_filename t i ++ lb_tmp_suffix) = None.
Proof.
  intro Hi. rewrite parse_id_eq. destruct (Nat.eqb_spec (length (lb_filename t i ++ lb_tmp_suffix)) 64) as [E|]; [|reflexivity].
  destruct (proj1 (length_tmp_name t i Hi) E).
Qed.

Lemma tmp_entry_none t i t' : wf_id i -> entry_id t' (lb_tmp_path t i) = None.
Proof.
  intro Hi. unfold entry_id. rewrite last_name_tmp, tmp_name_unparsed by assumption.
  destruct (under _ _); reflexivity.
Qed.

Lemma tmp_not_listable t i : wf_id i -> ~ listable (lb_tmp_path t i).
Proof. intros Hi (t' & _ & H). apply H, tmp_entry_none, Hi. Qed.

Lemma tmp_not_canonical t i : wf_id i -> ~ canonical (lb_tmp_path t i).
Proof.
  intros Hi (t' & i' & Hi' & E). apply (f_equal (fun p => length (last_name p))) in E.
  rewrite last_name_tmp, last_name_path in E. destruct (length_tmp_name t i Hi) as [A B].
  destruct (length_filename t' i' Hi') as [L|L]; rewrite L in E; contradiction.
Qed.
