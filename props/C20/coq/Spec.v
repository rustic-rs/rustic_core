(* C20 — the specification: an exact map from (file type, id) to bytes.
   Executable (it is the oracle of the correspondence run) and declarative: reads are
   lookups, ranged reads are firstn/skipn of the stored bytes, listings are the domain
   with the true sizes.  The Config file has no id of its own: every id names the one
   config file, which is listed under the all-zero id (Id::default()). *)
From Verif.Base Require Import Tactics.
From Verif.C20 Require Import ModelBase Extracted Model.
Local Open Scope N_scope.

Definition key := (file_type * id)%type.
Definition id_eqb : id -> id -> bool := list_eqb N.eqb.
Definition key_eqb (a b : key) : bool := ft_eqb (fst a) (fst b) && id_eqb (snd a) (snd b).
Definition norm (t : file_type) (i : id) : key :=
  match t with Config => (Config, zero_id) | _ => (t, i) end.

Definition amap := list (key * bytes).
Definition am_get : amap -> key -> option bytes := al_get key_eqb.
Definition am_del : amap -> key -> amap := al_del key_eqb.
Definition am_put : amap -> key -> bytes -> amap := al_put key_eqb.

Definition am_ids (m : amap) (t : file_type) : list id :=
  flat_map (fun e => if ft_eqb (fst (fst e)) t then [snd (fst e)] else []) m.
Definition am_sizes (m : amap) (t : file_type) : list (id * N) :=
  flat_map (fun e => if ft_eqb (fst (fst e)) t then [(snd (fst e), N.of_nat (length (snd e)))] else []) m.

Definition am_read (m : amap) (t : file_type) (i : id) : res bytes :=
  match am_get m (norm t i) with Some b => Ok b | None => Err end.

(* a range inside the file: exactly those bytes.  A range reaching beyond the end: an
   error - except that an empty range (len = 0) is answered with the empty string wherever
   it starts (the object-store adapter answers it even for a missing file).  The adapter
   computes off+len in u32 (panic on overflow in a debug build). *)
Definition range_of (b : bytes) (off len : N) : res bytes :=
  if off + len <=? N.of_nat (length b)
  then Ok (firstn (N.to_nat len) (skipn (N.to_nat off) b))
  else if len =? 0 then Ok [] else Err.

Definition am_partial (fl : flavour) (m : amap) (t : file_type) (i : id) (off len : N) : res bytes :=
  match fl with
  | Local =>
      match am_get m (norm t i) with None => Err | Some b => range_of b off len end
  | OpenDAL =>
      if 2 ^ 32 <=? off + len then Panic
      else if len =? 0 then Ok []
      else match am_get m (norm t i) with None => Err | Some b => range_of b off len end
  end.

Definition am_remove (fl : flavour) (m : amap) (t : file_type) (i : id) : amap * res unit :=
  match am_get m (norm t i), fl with
  | Some _, _ => (am_del m (norm t i), Ok tt)
  | None, Local => (m, Err)
  | None, OpenDAL => (m, Ok tt)
  end.

Definition am_step (fl : flavour) (m : amap) (o : op) : amap * result :=
  match o with
  | OWrite t i c => (am_put m (norm t i) c, RUnit (Ok tt))
  | ORead t i => (m, RBytes (am_read m t i))
  | OPartial t i off len => (m, RBytes (am_partial fl m t i off len))
  | OList t => (m, RIds (am_ids m t))
  | OSizes t => (m, RSizes (am_sizes m t))
  | ORemove t i => let '(m', r) := am_remove fl m t i in (m', RUnit r)
  end.

Fixpoint am_run (fl : flavour) (m : amap) (ops : list op) : amap * list result :=
  match ops with
  | [] => (m, [])
  | o :: r => let '(m1, x) := am_step fl m o in let '(m2, xs) := am_run fl m1 r in (m2, x :: xs)
  end.

(* listings are sets: the order WalkDir / the object store yields is not specified *)
Definition res_equiv (a b : result) : Prop :=
  match a, b with
  | RIds l1, RIds l2 => Permutation l1 l2
  | RSizes l1, RSizes l2 => Permutation l1 l2
  | _, _ => a = b
  end.

(* ---------- well-formedness ---------- *)
Definition wf_id (i : id) : Prop := length i = N.to_nat id_len /\ Forall (fun b => b < 256) i.
Definition wf_idb (i : id) : bool := (lenN i =? id_len) && forallb (fun b => b <? 256) i.

(* operations the property quantifies over: 32-byte ids, contents shorter than 4 GiB
   (list_with_size reports u32 sizes), u32 offsets and lengths, whatever the flavour (the
   adapter's off + len >= 2^32 is not excluded: am_partial specifies the panic) *)
Definition wf_op (fl : flavour) (o : op) : Prop :=
  match o with
  | OWrite t i c => wf_id i /\ N.of_nat (length c) < 2 ^ 32
  | ORead t i => wf_id i
  | OPartial t i off len => wf_id i /\ off < 2 ^ 32 /\ len < 2 ^ 32
  | OList _ | OSizes _ => True
  | ORemove t i => wf_id i
  end.

Definition read_only (o : op) : bool :=
  match o with OWrite _ _ _ | ORemove _ _ => false | _ => true end.

(* ---------- names ---------- *)
Definition hexchar (c : N) : Prop :=
  (48 <= c <= 57) \/ (97 <= c <= 102) \/ (65 <= c <= 70).
Definition is_hex64 (s : name) : Prop := length s = 64%nat /\ Forall hexchar s.

(* ---------- the refinement relation ---------- *)
(* canonical = the path of some key; listable = some type's directory walk parses it *)
Definition canonical (p : path) : Prop := exists t i, wf_id i /\ p = lb_path t i.
Definition listable (p : path) : Prop := exists t, t <> Config /\ entry_id t p <> None.

Record R (f : fs) (m : amap) : Prop := {
  R_nodup : NoDup (map fst f);
  R_get : forall t i, wf_id i -> fs_get f (lb_path t i) = am_get m (norm t i);
  (* every other file (foreign, temporary, left over by a crash) has a name no listing parses *)
  R_stray : forall p, In p (map fst f) -> canonical p \/ ~ listable p;
  R_mnodup : NoDup (map fst m);
  R_mkeys : forall k, In k (map fst m) -> exists t i, wf_id i /\ k = norm t i;
  R_small : forall k b, In (k, b) m -> N.of_nat (length b) < 2 ^ 32
}.
