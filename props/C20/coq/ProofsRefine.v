(* C20 — the refinement relation R: kept by every change of one binding, at a key's path (with
   the same change of the map) or at a stray path; under R both listings of the file system are
   those of the map. *)
From Verif.Base Require Import Tactics Lists.
From Verif.C20 Require Import ModelBase Extracted Model Spec ProofsHex ProofsPath ProofsAssoc.
Local Open Scope N_scope.

(* fs_put / fs_del and am_put / am_del are al_upd with Some / None *)
Lemma R_upd f m t i o : R f m -> wf_id i ->
  match o with Some c => N.of_nat (length c) < 2 ^ 32 | None => True end ->
  R (al_upd path_eqb f (lb_path t i) o) (al_upd key_eqb m (norm t i) o).
Proof.
  intros [A B C D E F] Hi Hc. constructor.
  - apply al_nodup_upd; [apply path_eqb_iff | assumption].
  - intros t' i' Hi'. unfold fs_get, am_get. rewrite (al_get_upd _ path_eqb_iff), (al_get_upd _ key_eqb_iff).
    replace (key_eqb (norm t i) (norm t' i')) with (path_eqb (lb_path t i) (lb_path t' i'))
      by (apply eq_true_iff_eq; rewrite path_eqb_iff, key_eqb_iff; apply norm_path_iff; assumption).
    destruct (path_eqb _ _); [reflexivity | apply B, Hi'].
  - intros q Hq. apply (al_keys_upd _ path_eqb_iff) in Hq.
    destruct Hq as [[-> _]|Hq]; [left; exists t, i; auto | apply C, Hq].
  - apply al_nodup_upd; [apply key_eqb_iff | assumption].
  - intros k Hk. apply (al_keys_upd _ key_eqb_iff) in Hk.
    destruct Hk as [[-> _]|Hk]; [exists t, i; auto | apply E, Hk].
  - intros k b Hk. apply (al_in_upd _ key_eqb_iff) in Hk.
    destruct Hk as [[_ ->]|Hk]; [exact Hc | exact (F k b Hk)].
Qed.

Lemma R_stray_upd f m p o : R f m -> ~ canonical p ->
  match o with Some _ => ~ listable p | None => True end -> R (al_upd path_eqb f p o) m.
Proof.
  intros [A B C D E F] Hc Hl. constructor; try assumption.
  - apply al_nodup_upd; [apply path_eqb_iff | assumption].
  - intros t i Hi. unfold fs_get. rewrite (al_get_upd _ path_eqb_iff), path_eqb_neq; [apply B, Hi|].
    intros ->. apply Hc. exists t, i. auto.
  - intros q Hq. apply (al_keys_upd _ path_eqb_iff) in Hq.
    destruct Hq as [[-> Ho]|Hq]; [right; destruct o; [exact Hl | contradiction] | apply C, Hq].
Qed.

Lemma lb_write_eq f t i c :
  lb_write f t i c = fs_put (fs_del f (lb_tmp_path t i)) (lb_path t i) c.
Proof.
  unfold lb_write, micro_state, fs_rename, fs_get, fs_put, fs_del.
  rewrite (al_get_put _ path_eqb_iff), (al_eqb_refl _ path_eqb_iff), (al_del_put_same _ path_eqb_iff). reflexivity.
Qed.

(* every stage of a write but the last changes the temporary file only *)
Lemma micro_R f m t i c st : R f m -> wf_id i -> st <> SRenamed -> R (micro_state f t i c st) m.
Proof.
  intros HR Hi Hs. pose proof (tmp_not_canonical t i Hi) as Hc.
  assert (P : forall x, R (fs_put f (lb_tmp_path t i) x) m)
    by (intro x; apply (R_stray_upd f m _ (Some x)); [assumption.. | apply tmp_not_listable, Hi]).
  destruct st; try apply P; [contradiction | apply (R_stray_upd _ m _ None); [apply P | assumption | exact I]].
Qed.

Lemma R_write f m t i c : R f m -> wf_id i -> N.of_nat (length c) < 2 ^ 32 ->
  R (lb_write f t i c) (am_put m (norm t i) c).
Proof.
  intros HR Hi Hc. rewrite lb_write_eq. apply (R_upd _ m t i (Some c)); try assumption.
  apply (R_stray_upd f m _ None); [assumption | apply tmp_not_canonical, Hi | exact I].
Qed.

Lemma fs_get_in f m p b : R f m -> (fs_get f p = Some b <-> In (p, b) f).
Proof. intro HR. apply al_get_in; [apply path_eqb_iff | apply HR]. Qed.
Lemma am_get_in f m k b : R f m -> (am_get m k = Some b <-> In (k, b) m).
Proof. intro HR. apply al_get_in; [apply key_eqb_iff | apply HR]. Qed.

Lemma R_entries f m t i b : R f m ->
  (In ((t, i), b) m <-> wf_id i /\ norm t i = (t, i) /\ In (lb_path t i, b) f).
Proof.
  intro HR. rewrite <- (am_get_in f m), <- (fs_get_in f m) by assumption. split.
  - intro H. destruct (R_mkeys _ _ HR (t, i)) as (t' & i' & Hi' & Y).
    { apply (al_get_key_in _ key_eqb_iff). unfold am_get in H. congruence. }
    assert (wf_id i /\ norm t i = (t, i)) as [Hi Hn] by (destruct t'; inv Y; auto using wf_zero_id).
    rewrite (R_get _ _ HR), Hn; auto.
  - intros (Hi & Hn & H). rewrite <- Hn, <- (R_get _ _ HR); assumption.
Qed.

Lemma R_listed f m t p b i : R f m -> t <> Config -> In (p, b) f -> entry_id t p = Some i ->
  p = lb_path t i /\ In ((t, i), b) m.
Proof.
  intros HR Ht Hp He.
  destruct (R_stray _ _ HR p) as [(t' & i' & Hi' & ->)|Hl]; [apply in_keys; eauto | |].
  - rewrite entry_id_canonical in He by assumption.
    destruct (ft_eqb t' t) eqn:X; [|discriminate]. apply ft_eqb_iff in X. inv He.
    split; [reflexivity|]. apply (R_entries f m); auto using norm_nonconfig.
  - exfalso. apply Hl. exists t. split; [assumption | congruence].
Qed.

Lemma u32_small b : N.of_nat (length b) < 2 ^ 32 -> u32_of_len b = Some (N.of_nat (length b)).
Proof. intro H. unfold u32_of_len. rewrite lenN_length. destruct (N.ltb_spec (N.of_nat (length b)) (2 ^ 32)); [reflexivity | lia]. Qed.
Lemma u32_some b n : u32_of_len b = Some n -> n = N.of_nat (length b).
Proof. unfold u32_of_len. rewrite lenN_length. destruct (_ <? _); intro H; inv H. reflexivity. Qed.
Lemma R_u32 f m k b : R f m -> In (k, b) m -> u32_of_len b = Some (N.of_nat (length b)).
Proof. intros HR H. apply u32_small, (R_small _ _ HR k b H). Qed.

Lemma lb_list_walk f t : t <> Config -> lb_list f t = walk_ids t f.
Proof. destruct t; [contradiction | reflexivity..]. Qed.
Lemma lb_sizes_walk f t : t <> Config -> lb_list_with_size f t = walk_sizes t f.
Proof. destruct t; [contradiction | reflexivity..]. Qed.

Lemma am_ids_sizes m t : am_ids m t = map fst (am_sizes m t).
Proof.
  unfold am_ids, am_sizes. rewrite map_flat_map. apply flat_map_ext. intro e. destruct (ft_eqb _ t); reflexivity.
Qed.

Lemma am_sizes_in m t i n : In (i, n) (am_sizes m t) <-> exists b, In ((t, i), b) m /\ n = N.of_nat (length b).
Proof.
  unfold am_sizes. rewrite in_flat_map. split.
  - intros ([[t' i'] b] & H & X). simpl in X. destruct (ft_eqb t' t) eqn:Y; [|contradiction].
    apply ft_eqb_iff in Y. destruct X as [X|[]]. inv X. eauto.
  - intros (b & H & ->). exists ((t, i), b). split; [assumption|]. simpl. rewrite ft_eqb_refl. left; reflexivity.
Qed.

Lemma am_ids_in m t i : In i (am_ids m t) <-> exists b, In ((t, i), b) m.
Proof.
  rewrite am_ids_sizes, in_keys. split.
  - intros (n & H). apply am_sizes_in in H. destruct H as (b & H & _). eauto.
  - intros (b & H). exists (N.of_nat (length b)). apply am_sizes_in. eauto.
Qed.

Lemma am_ids_nodup m t : NoDup (map fst m) -> NoDup (am_ids m t).
Proof.
  intro D. apply (al_nodup_flat_map _ (fun x => (t, x))); [assumption|].
  intros [[t' i'] b] x _. simpl. destruct (ft_eqb t' t) eqn:X; [|contradiction].
  apply ft_eqb_iff in X. intros [<-|[]]. subst. auto.
Qed.

Lemma am_sizes_nodup m t : NoDup (map fst m) -> NoDup (am_sizes m t).
Proof. intro D. apply (NoDup_map_inv fst). rewrite <- am_ids_sizes. apply am_ids_nodup, D. Qed.

Lemma lb_sizes_in f m t i n : R f m ->
  (In (i, n) (lb_list_with_size f t) <-> exists b, In ((t, i), b) m /\ n = N.of_nat (length b)).
Proof.
  intro HR. destruct (config_dec t) as [->|Ht].
  - unfold lb_list_with_size. change [dirname Config] with (lb_path Config zero_id).
    rewrite (R_get _ _ HR Config zero_id wf_zero_id). cbn [norm]. split.
    + destruct (am_get m (Config, zero_id)) as [b|] eqn:G; [|contradiction]. intros [X|[]]. inv X.
      apply (am_get_in f m) in G; [|assumption]. exists b. rewrite (R_u32 f m _ b HR G). auto.
    + intros (b & H & ->). destruct (proj1 (R_entries f m Config i b HR) H) as (_ & Hn & _). inv Hn.
      rewrite (proj2 (am_get_in f m _ b HR) H), (R_u32 f m _ b HR H). left; reflexivity.
  - rewrite lb_sizes_walk by assumption. unfold walk_sizes. rewrite in_flat_map. split.
    + intros ([p b] & H & X). simpl in X. destruct (entry_id t p) as [j|] eqn:G; [|contradiction].
      destruct (u32_of_len b) as [k|] eqn:U; [|contradiction]. destruct X as [X|[]]. inv X.
      apply u32_some in U. destruct (R_listed f m t p b i HR Ht H G). eauto.
    + intros (b & H & ->). pose proof (R_u32 f m _ b HR H) as U. apply (R_entries f m) in H; [|assumption].
      destruct H as (Hi & _ & H). exists (lb_path t i, b). split; [assumption|]. simpl.
      rewrite entry_id_canonical, ft_eqb_refl, U by assumption. left; reflexivity.
Qed.

Lemma lb_sizes_nodup f m t : R f m -> NoDup (lb_list_with_size f t).
Proof.
  intro HR. destruct (config_dec t) as [->|Ht].
  - unfold lb_list_with_size. destruct (fs_get f [dirname Config]); auto using NoDup, in_nil.
  - rewrite lb_sizes_walk by assumption.
    apply (al_nodup_flat_map _ (fun x => lb_path t (fst x))); [apply HR|].
    intros [p b] x H. simpl. destruct (entry_id t p) as [j|] eqn:G; [|contradiction].
    destruct (u32_of_len b); [|contradiction]. intros [<-|[]].
    destruct (R_listed f m t p b j HR Ht H G) as [-> _]. auto.
Qed.

Lemma sizes_perm f m t : R f m -> Permutation (lb_list_with_size f t) (am_sizes m t).
Proof.
  intro HR. apply NoDup_Permutation.
  - apply (lb_sizes_nodup f m), HR.
  - apply am_sizes_nodup, HR.
  - intros [i n]. rewrite (lb_sizes_in f m), am_sizes_in by assumption. reflexivity.
Qed.

(* the plain listings are the first components of the sized ones: under R no listed file is too
   long for list_with_size *)
Lemma lb_list_sizes f m t : R f m -> lb_list f t = map fst (lb_list_with_size f t).
Proof.
  intro HR. destruct (config_dec t) as [->|Ht].
  - unfold lb_list, lb_list_with_size. change [lb_list_config_name] with [dirname Config].
    destruct (fs_get f [dirname Config]); reflexivity.
  - rewrite lb_list_walk, lb_sizes_walk by assumption. unfold walk_ids, walk_sizes. rewrite map_flat_map.
    apply flat_map_ext_In. intros [p b] H. simpl. destruct (entry_id t p) as [i|] eqn:G; [|reflexivity].
    destruct (R_listed f m t p b i HR Ht H G) as [_ X]. rewrite (R_u32 f m _ b HR X). reflexivity.
Qed.

Lemma ids_perm f m t : R f m -> Permutation (lb_list f t) (am_ids m t).
Proof. intro HR. rewrite (lb_list_sizes f m), am_ids_sizes by assumption. apply Permutation_map, sizes_perm, HR. Qed.
