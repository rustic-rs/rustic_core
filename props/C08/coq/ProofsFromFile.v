(* C08 — PackHeader::from_file: what its one or two reads return on any file for every size hint,
   hence its result in closed form; on a file of the shape  data ++ header ++ LE32 |header|  it
   returns the header's entries whenever the header decrypts, parses and has the sizes the file
   shows; in particular on every well-formed pack.  Then read_headers / rebuild_index over such packs. *)
From Verif.Base Require Import Tactics Lists.
From Verif.C08 Require Import Extracted Model Spec ProofsCodec.
Local Open Scope N_scope.

Section Reads.
Variables (f : bytes) (sg : N).
Hypothesis Hsg : sg + 4 <= N.of_nat (length f).

Definition tail_read : bytes := skipn (length f - 4 - N.to_nat sg) f.

Lemma first_read : read_of f (N.of_nat (length f) - (sg + 4)) (sg + 4) = Some tail_read.
Proof.
  rewrite read_of_some by lia. unfold slice, tail_read.
  replace (N.to_nat (_ - (sg + 4))) with (length f - 4 - N.to_nat sg)%nat by lia.
  rewrite firstn_all2; [reflexivity|]. rewrite skipn_length. lia.
Qed.

Lemma tail_read_long : (length tail_read <? N.to_nat sg)%nat = false.
Proof. apply Nat.ltb_ge. unfold tail_read. rewrite skipn_length. lia. Qed.

Lemma tail_read_tail : skipn (N.to_nat sg) tail_read = skipn (length f - 4) f.
Proof. unfold tail_read. rewrite skipn_skipn. f_equal. lia. Qed.

(* a guess that covers the header the length field sr points at: it is the end of the guessed part *)
Lemma tail_read_hdr sr : sr <= sg ->
  skipn (N.to_nat (sg - sr)) (firstn (N.to_nat sg) tail_read) = slice f (N.of_nat (length f) - sr - 4) sr.
Proof.
  intro Hle. unfold tail_read, slice. rewrite skipn_firstn_comm, skipn_skipn. f_equal; [|f_equal]; lia.
Qed.

End Reads.

Lemma hdr_pack_size_bound bs ps : hdr_pack_size bs = Some ps -> total_len bs <= ps < U32.
Proof. rewrite hdr_pack_size_sum. intro H. apply u32_add_some in H. lia. Qed.

(* The reader takes the length field from the last four bytes and the header it points to; the size
   hint only saves a read and never changes the result, on a damaged file or not. *)
Theorem from_file_any dec f hint :
  let n := N.of_nat (length f) in
  n < U32 -> match hint with Some h => h | None => 0 end + LENGTH_LEN <= n ->
  from_file (read_of f) dec hint n =
  let sr := rd32 (skipn (length f - 4) f) in
  match u32_add sr LENGTH_LEN with
  | None => Panic
  | Some hl4 =>
    if n <? hl4 then Err else
    match dec (slice f (n - sr - LENGTH_LEN) sr) with
    | None => Err
    | Some plain =>
      match hdr_from_binary plain with
      | Panic => Panic
      | Err => Err
      | Ok blobs =>
        match hdr_size blobs with
        | None => Panic
        | Some s =>
          if negb (s =? sr) then Err else
          match hdr_pack_size blobs with
          | None => Panic
          | Some ps => if negb (ps =? n) then Err else Ok blobs
          end
        end
      end
    end
  end.
Proof.
  intros n Hlt Hsg. unfold from_file. change LENGTH_LEN with 4 in *.
  set (sg := match hint with Some h => h | None => 0 end) in *.
  rewrite u32_add_ok, u32_sub_ok by lia. fold n.
  unfold n at 1. rewrite first_read, tail_read_long, tail_read_tail by assumption.
  replace (length (skipn (length f - 4) f) <? 4)%nat with false
    by (symmetry; apply Nat.ltb_ge; rewrite skipn_length; lia).
  cbv zeta. set (sr := rd32 _).
  destruct (u32_add sr 4) as [hl4|] eqn:E; [|reflexivity]. apply u32_add_some in E as [-> _].
  destruct (N.ltb_spec n (sr + 4)) as [|Hfit]; [reflexivity|].
  (* either way the header bytes are the same slice of f *)
  replace (if sr <=? sg then _ else _) with (Some (slice f (n - sr - 4) sr)); [reflexivity|].
  destruct (N.leb_spec sr sg).
  - unfold n. rewrite tail_read_hdr by assumption. reflexivity.
  - rewrite read_of_some by lia. reflexivity.
Qed.

(* from_file never looks at the blobs: all it needs is that the header part decrypts and parses to
   entries whose size() and pack_size() are what the file shows. *)
Lemma from_file_layout dec (A Hdr plain : bytes) bs hint :
  let f := A ++ Hdr ++ le32 (N.of_nat (length Hdr)) in
  dec Hdr = Some plain -> hdr_from_binary plain = Ok bs ->
  hdr_size bs = Some (N.of_nat (length Hdr)) -> hdr_pack_size bs = Some (N.of_nat (length f)) ->
  (match hint with Some h => h + LENGTH_LEN <= N.of_nat (length f) | None => True end) ->
  from_file (read_of f) dec hint (N.of_nat (length f)) = Ok bs.
Proof.
  intros f Hdec Hparse Hsize Hpsize Hhint.
  pose proof (proj2 (hdr_pack_size_bound _ _ Hpsize)) as Hlt.
  assert (Hlen : length f = (length A + length Hdr + 4)%nat).
  { unfold f. rewrite !app_length, le32_length. lia. }
  rewrite from_file_any; [|assumption|destruct hint; [assumption|change LENGTH_LEN with 4; lia]].
  change LENGTH_LEN with 4. cbv zeta. rewrite Hlen.
  replace (skipn _ f) with (le32 (N.of_nat (length Hdr)))
    by (unfold f; rewrite app_assoc; symmetry; apply skipn_app_exact; rewrite app_length; lia).
  replace (rd32 _) with (N.of_nat (length Hdr)) by (symmetry; apply (rd32_le32 _ []); lia).
  rewrite u32_add_ok, (proj2 (N.ltb_ge _ _)) by lia.
  replace (slice f _ _) with Hdr.
  - rewrite Hdec, Hparse, Hsize, N.eqb_refl, <- Hlen, Hpsize, N.eqb_refl. reflexivity.
  - unfold slice, f. rewrite skipn_app_exact, firstn_app_exact by lia. reflexivity.
Qed.

Section WithCrypto.
Variables (enc : bytes -> bytes) (dec : bytes -> option bytes).
Hypothesis dec_enc : forall x, dec (enc x) = Some x.
Hypothesis enc_len : forall x, length (enc x) = (length x + 32)%nat.

Lemma from_file_wellformed data bs hint :
  Forall wf_blob bs -> contiguous 0 bs -> total_len bs = N.of_nat (length data) ->
  N.of_nat (length (pack_file enc data bs)) < U32 ->
  (match hint with Some h => h + LENGTH_LEN <= N.of_nat (length (pack_file enc data bs)) | None => True end) ->
  from_file (read_of (pack_file enc data bs)) dec hint (N.of_nat (length (pack_file enc data bs))) = Ok bs.
Proof.
  intros Hwf Hc Htot Hlt Hh. pose proof (hdr_to_binary_length bs (wf_blob_idlen bs Hwf)) as Hid.
  assert (Hhdr : N.of_nat (length (enc (hdr_to_binary bs))) = sum_entry bs + 32) by (rewrite enc_len; lia).
  unfold pack_file in Hlt. cbv zeta in Hlt. rewrite !app_length, le32_length in Hlt.
  apply (from_file_layout dec data _ (hdr_to_binary bs)); [apply dec_enc| | | |exact Hh].
  - rewrite hdr_from_to_binary, (proj1 (reoffset_contiguous bs 0) Hc); [reflexivity|assumption|lia].
  - rewrite hdr_size_sum. apply u32_add_some. unfold COMP_OVERHEAD. lia.
  - rewrite hdr_pack_size_sum, !app_length, le32_length. apply u32_add_some. unfold COMP_OVERHEAD, LENGTH_LEN. lia.
Qed.

Lemma pack_wellformed_from_file tpe f bs hint :
  Forall wf_blob bs -> pack_wellformed enc tpe (f, bs) ->
  (match hint with Some h => h + LENGTH_LEN <= N.of_nat (length f) | None => True end) ->
  from_file (read_of f) dec hint (N.of_nat (length f)) = Ok bs.
Proof.
  intros Hwf (ds & -> & _ & Hc & _ & _ & _ & Hps & Hs) Hh.
  apply (from_file_layout dec _ _ (hdr_to_binary bs)); try assumption; [apply dec_enc|].
  rewrite hdr_from_to_binary, (proj1 (reoffset_contiguous bs 0) Hc); [reflexivity|assumption|].
  pose proof (hdr_pack_size_bound _ _ Hps). lia.
Qed.

Definition good_pack (p : id * (bytes * list iblob)) : Prop :=
  (exists tpe, pack_wellformed enc tpe (snd p)) /\ Forall wf_blob (snd (snd p)) /\
  N.of_nat (length (fst (snd p))) < U32.

Lemma good_sizes pid f bs :
  good_pack (pid, (f, bs)) ->
  hdr_pack_size bs = Some (N.of_nat (length f)) /\
  exists h, hdr_size bs = Some h /\ h + LENGTH_LEN <= N.of_nat (length f).
Proof.
  intros [[tpe (ds & _ & _ & _ & _ & _ & _ & Hps & Hs)] _].
  split; [assumption|]. eexists. split; [eassumption|]. exact (hdr_size_fits _ _ _ Hs Hps).
Qed.

Lemma good_pack_from_file pid f bs hint :
  good_pack (pid, (f, bs)) ->
  (match hint with Some h => h + LENGTH_LEN <= N.of_nat (length f) | None => True end) ->
  from_file (read_of f) dec hint (N.of_nat (length f)) = Ok bs.
Proof. intros [[tpe Hw] [Hwf _]]. exact (pack_wellformed_from_file tpe f bs hint Hwf Hw). Qed.

Lemma good_pack_blobs_unique i1 i2 f bs1 bs2 :
  good_pack (i1, (f, bs1)) -> good_pack (i2, (f, bs2)) -> bs1 = bs2.
Proof.
  intros G1 G2. pose proof (good_pack_from_file i1 f bs1 None G1 I) as E1.
  rewrite (good_pack_from_file i2 f bs2 None G2 I) in E1. congruence.
Qed.

Lemma read_headers_good (hint : id * (bytes * list iblob) -> option N) packs :
  Forall good_pack packs ->
  (forall p, hint p = None \/ hint p = hdr_size (snd (snd p))) ->
  read_headers dec (map (fun p => (fst p, hint p, fst (snd p))) packs)
  = Ok (map (fun p => (fst p, snd (snd p))) packs).
Proof.
  intros Hg Hh. induction Hg as [|[pid [f bs]] packs Hp _ IH]; [reflexivity|].
  cbn [map read_headers fst snd]. rewrite IH.
  destruct (good_sizes _ _ _ Hp) as (_ & h & Hs & Hle).
  rewrite (good_pack_from_file pid f bs _ Hp); [reflexivity|].
  destruct (Hh (pid, (f, bs))) as [-> | ->]; [exact I|]. cbn [snd]. rewrite Hs. exact Hle.
Qed.

Lemma read_headers_app a b x y :
  read_headers dec a = Ok x -> read_headers dec b = Ok y -> read_headers dec (a ++ b) = Ok (x ++ y).
Proof.
  revert x. induction a as [|[[pid hint] f] a IH]; intros x Ha Hb; cbn [read_headers app] in *.
  - injection Ha as <-. exact Hb.
  - destruct (from_file _ _ _ _); [discriminate|auto|].
    destruct (read_headers dec a) as [| |l]; try discriminate. injection Ha as <-.
    rewrite (IH l eq_refl Hb). reflexivity.
Qed.

Lemma rebuild_all_deleted_lemma read_all (packs : list (id * (bytes * list iblob))) :
  Forall good_pack packs ->
  rebuild_index dec read_all (map (fun p => (fst p, fst (snd p))) packs) []
  = Ok (map (fun p => (fst p, snd (snd p))) packs).
Proof using dec_enc enc_len. (* enc_len belongs to the statement; the proof does not use it *)
  intro H. unfold rebuild_index. cbn [check_all bind app]. rewrite map_map.
  rewrite (read_headers_good (fun _ => None) packs H); [reflexivity|auto].
Qed.

(* an index entry that agrees with its pack is kept as it is (no re-read) when sizes match *)
Lemma check_one_keeps read_all pid f bs tpe rest kept toread :
  pack_wellformed enc tpe (f, bs) -> read_all = false ->
  check_one read_all ((pid, f) :: rest, kept, toread) (pid, bs) = Ok (rest, kept ++ [(pid, bs)], toread).
Proof.
  intros (ds & _ & _ & _ & _ & _ & _ & Hps & _) ->. unfold check_one. rewrite Hps.
  cbn [remove_pack]. rewrite bytes_eqb_refl, N.eqb_refl. reflexivity.
Qed.

End WithCrypto.

Example from_file_example :
  let enc := fun x => repeat 0 16 ++ x ++ repeat 0 16 in
  let dec := fun y : bytes => Some (firstn (length y - 32) (skipn 16 y)) in
  let ops := [mkop [7;8;9] (repeat 1 32) None false; mkop [5] (repeat 2 32) (Some 9) false] in
  exists f bs, packer_run enc Data ops = Ok [(f, bs)] /\
    from_file (read_of f) dec (Some 10) (N.of_nat (length f)) = Ok bs /\
    from_file (read_of f) dec (Some 200) (N.of_nat (length f)) = Panic.
Proof. cbv zeta. eexists. eexists. split; [vm_compute; reflexivity|]. split; vm_compute; reflexivity. Qed.
