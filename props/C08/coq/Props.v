(* C08 — the property theorems about repofile/packfile.rs (codec, sizes, from_file), blob/packer.rs
   (packer, file writer, repacker) and commands/repair/index.rs. *)
From Verif.Base Require Import Tactics.
From Verif.C08 Require Import Extracted Model Spec ProofsCodec ProofsPacker ProofsFromFile ProofsRebuild Repack ProofsRepack Writer ProofsWriter.
Local Open Scope N_scope.

(* Parsing the binary header of any list of index blobs gives the same blobs back, with the
   offsets recomputed contiguously from 0 (so: exactly the same list iff offsets were contiguous). *)
Theorem header_roundtrip : forall bs,
  Forall wf_blob bs -> total_len bs < U32 ->
  hdr_from_binary (hdr_to_binary bs) = Ok (reoffset 0 bs) /\
  (contiguous 0 bs <-> reoffset 0 bs = bs).
Proof. exact (fun bs H1 H2 => conj (hdr_from_to_binary bs H1 H2) (reoffset_contiguous bs 0)). Qed.
Print Assumptions header_roundtrip.

(* ... and when the lengths do not fit u32 the offset accumulation overflows (debug panic). *)
Theorem header_roundtrip_overflow : forall bs,
  Forall wf_blob bs -> U32 <= total_len bs ->
  hdr_from_binary (hdr_to_binary bs) = Panic.
Proof.
  intros bs Hwf Hge. destruct (hdr_from_binary_app bs [] Hwf) as [k E]. rewrite app_nil_r in E.
  rewrite E, (proj2 (N.ltb_ge _ _) Hge). reflexivity.
Qed.
Print Assumptions header_roundtrip_overflow.

(* A trailing partial entry or an unknown type byte is an error (binrw reports EOF only when
   no byte at all is left), never a silently shortened blob list. *)
Theorem trailing_garbage_rejected : forall bs tail,
  Forall wf_blob bs -> total_len bs < U32 -> read_entry tail = RBad ->
  hdr_from_binary (hdr_to_binary bs ++ tail) = Err.
Proof.
  intros bs tail Hwf Hlt Hbad. destruct (hdr_from_binary_app bs tail Hwf) as [k ->].
  rewrite (proj2 (N.ltb_lt _ _) Hlt). cbn [from_binary_go]. rewrite Hbad. reflexivity.
Qed.
Print Assumptions trailing_garbage_rejected.

(* size() = |plaintext header| + crypto overhead; pack_size() = blobs + size() + length field;
   entries are 37 / 41 bytes. *)
Theorem header_sizes : forall bs s,
  Forall wf_blob bs -> hdr_size bs = Some s ->
  s = N.of_nat (length (hdr_to_binary bs)) + COMP_OVERHEAD /\
  (forall ps, hdr_pack_size bs = Some ps -> ps = total_len bs + s + LENGTH_LEN) /\
  Forall (fun b => length (entry_to_binary b) = match bulen b with None => 37%nat | Some _ => 41%nat end) bs.
Proof.
  intros bs s Hwf Hs. pose proof (wf_blob_idlen bs Hwf) as Hid.
  rewrite hdr_size_sum in Hs. apply u32_add_some in Hs as [-> _]. rewrite (hdr_to_binary_length bs Hid).
  split; [lia|]. split.
  - intros ps Hps. rewrite hdr_pack_size_sum in Hps. apply u32_add_some in Hps as [-> _].
    unfold COMP_OVERHEAD, LENGTH_LEN. lia.
  - eapply Forall_impl; [|exact Hid]. intros b Hb. pose proof (entry_to_binary_length b Hb) as E.
    unfold entry_len, ENTRY_LEN, ENTRY_LEN_COMPRESSED in E. destruct (bulen b); lia.
Qed.
Print Assumptions header_sizes.

(* For every op sequence and every save oracle (should_save depends on wall-clock time), a run of
   the packer that neither panics nor errs emits exactly the packs of the declarative grouping:
   each file is  blobs ++ enc(header) ++ LE32 |enc(header)|,  its IndexPack lists exactly the
   accepted blobs in order with contiguous offsets from 0, true lengths, the packer's single
   type, no id twice, it is not empty, pack_size() of the index entry is the file size and
   size() is the length of the encrypted header.  `enc` is any function adding 32 bytes. *)
Theorem packer_pack_wellformed : forall (enc : bytes -> bytes) tpe ops packs,
  (forall x, length (enc x) = (length x + 32)%nat) ->
  Forall wf_op ops -> packer_run enc tpe ops = Ok packs ->
  packs = map (pack_of_group enc tpe) (spec_groups [] ops) /\
  Forall (pack_wellformed enc tpe) packs /\
  Forall (fun pk => N.of_nat (length (fst pk)) < U32) packs.
Proof.
  intros enc tpe ops packs Henc Hwf Hrun.
  destruct (packer_run_packs enc Henc tpe ops packs Hwf Hrun) as [-> HF]. split; [reflexivity|].
  split; (eapply Forall_impl; [|exact HF]); cbv beta; tauto.
Qed.
Print Assumptions packer_pack_wellformed.

(* Parsing an emitted pack with PackHeader::from_file returns exactly the IndexPack's blobs, for
   every size hint (none, too small => second read, too large) that does not make
   `pack_size - (hint + 4)` underflow.  enc/dec: any pair with dec (enc x) = Some x, +32 bytes. *)
Theorem from_file_inverts_packer : forall (enc : bytes -> bytes) (dec : bytes -> option bytes) tpe ops packs f bs hint,
  (forall x, dec (enc x) = Some x) -> (forall x, length (enc x) = (length x + 32)%nat) ->
  Forall wf_op ops -> packer_run enc tpe ops = Ok packs -> In (f, bs) packs ->
  (match hint with Some h => h + LENGTH_LEN <= N.of_nat (length f) | None => True end) ->
  from_file (read_of f) dec hint (N.of_nat (length f)) = Ok bs.
Proof.
  intros enc dec tpe ops packs f bs hint Hdec Henc Hwf Hrun Hin Hh.
  destruct (packer_run_packs enc Henc tpe ops packs Hwf Hrun) as [_ HF]. rewrite Forall_forall in HF.
  destruct (HF _ Hin) as (Hw & Hb & _). exact (pack_wellformed_from_file enc dec Hdec tpe f bs hint Hb Hw Hh).
Qed.
Print Assumptions from_file_inverts_packer.

(* ... and any hint beyond that bound (stated for hint + 4 < 2^32; a larger one panics one line
   earlier) is a panic of the overflow-checked build, whatever the file. *)
Theorem from_file_hint_underflow : forall (dec : bytes -> option bytes) rp hint ps,
  (match hint with Some h => h | None => 0 end) + LENGTH_LEN < U32 ->
  ps < (match hint with Some h => h | None => 0 end) + LENGTH_LEN ->
  from_file rp dec hint ps = Panic.
Proof.
  intros dec rp hint ps H1 H2. unfold from_file. rewrite u32_add_ok by assumption.
  rewrite (proj2 (u32_sub_none _ _) H2). reflexivity.
Qed.
Print Assumptions from_file_hint_underflow.

(* repair-index, for ANY subset of index files removed (and any stale or duplicated entries left):
   `packs` are the pack files of the backend, each a well-formed pack of well-formed entries (what the
   packer emits: packer_packs_good) named by its id; `index` is whatever index entries remain, each with a computable size
   and - if the pack it names exists - listing that pack's blobs.  Then PackChecker::check_pack over
   all entries followed by PackHeader::from_file on every pack not kept (hint = header size of the
   index entry, or none for unindexed packs; read_all or not) neither panics nor errs and yields,
   up to order, exactly one entry per existing pack with exactly the packer's blobs; hence the same
   set of (pack, type, id, offset, length, uncompressed length) tuples as the lost index had for
   existing packs.  Delete marks and pack times are not recoverable from packs (not claimed). *)
Theorem rebuild_index_equals_index : forall (enc : bytes -> bytes) (dec : bytes -> option bytes) read_all
    (packs : list pk) (index : list ipack),
  (forall x, dec (enc x) = Some x) -> (forall x, length (enc x) = (length x + 32)%nat) ->
  Forall (good_pack enc) packs ->
  Forall (entry_agrees packs) index ->
  exists r, rebuild_index dec read_all (listing_of packs) index = Ok r /\
            Permutation r (truth_of packs) /\
            Permutation (entries_of r) (entries_of (truth_of packs)).
Proof.
  intros enc dec ra packs index Hdec _ Hgood Hag.
  destruct (rebuild_index_perm enc dec Hdec packs Hgood ra index Hag) as (r & Hr & Hp).
  exists r. split; [assumption|]. split; [assumption|]. unfold entries_of. rewrite Hp. reflexivity.
Qed.
Print Assumptions rebuild_index_equals_index.

(* The repacker (prune repack, copy): for EVERY list of (source pack, location, blob id) - in the
   order sort_unstable() gives or any other -, every pack store and every blob decoder
   (identity for copy_fast; decrypt + decompress for copy), if coalescing the reads
   (CopyPackBlobs::coalesce / BlobLocations::coalesce under itertools' coalesce) and slicing each
   read back into blobs ends without panic or error, the blobs handed to the target packer are, in
   order, exactly (id, decode (bytes of the pack at [offset, offset+length)), uncompressed length)
   of each entry, and each such range lies inside its pack. *)
Theorem repack_preserves_blobs : forall (store : id -> option bytes) (decode : bytes -> option N -> option bytes)
    (es : list centry) (out : list handed),
  repack true store decode es = Ok out ->
  Forall2 (fun e h => expected_of store decode e = Some h) es out.
Proof.
  intros store decode es out H. pose proof (repack_spec store decode es) as S. rewrite H in S. exact S.
Qed.
Print Assumptions repack_preserves_blobs.

(* ... and it does end that way whenever every blob lies inside its (existing) pack, decodes, and
   packs are shorter than 2^32 - MAX_HOLESIZE bytes (what the packer's MAX_SIZE is for; a hypothesis
   here): no panic of the unchecked u32 sums in can_coalesce/append/slicing, no failed read. *)
Theorem repack_total : forall (store : id -> option bytes) (decode : bytes -> option N -> option bytes) (es : list centry),
  Forall (entry_inside store decode) es -> exists out, repack true store decode es = Ok out.
Proof.
  intros store decode es H. pose proof (repack_spec store decode es) as S.
  destruct (repack true store decode es) as [| |out]; [contradiction..|]. exists out. reflexivity.
Qed.
Print Assumptions repack_total.

(* The `self.pack_id == other.pack_id` conjunct of CopyPackBlobs::coalesce is necessary: without it
   (repack false) a sorted two-blob list from two packs hands a blob the bytes of the wrong pack. *)
Theorem repack_across_packs_refuted :
  exists (store : id -> option bytes) (es : list centry) out,
    sorted_ce es = true /\
    repack false store (fun d _ => Some d) es = Ok out /\
    ~ Forall2 (fun e h => expected_of store (fun d _ => Some d) e = Some h) es out.
Proof.
  set (p1 := repeat 1 32). set (p2 := repeat 2 32).
  exists (fun p => if bytes_eqb p p1 then Some [10; 11] else if bytes_eqb p p2 then Some [20; 21] else None).
  exists [mkce p1 (mkloc 0 1 None) (repeat 7 32); mkce p2 (mkloc 1 1 None) (repeat 8 32)].
  eexists. split; [vm_compute; reflexivity|]. split; [vm_compute; reflexivity|].
  intro H. inversion H as [|? ? ? ? _ H']. inversion H' as [|? ? ? ? Hx _]. vm_compute in Hx. discriminate.
Qed.
Print Assumptions repack_across_packs_refuted.

(* The file-writer actor: every pack is stored under hash(file bytes) (SHA-256 in the code; any
   function here), and the IndexPack handed to the indexer carries that same id, the packer's blob
   list unchanged, a time, and no explicit size - in the order the packs were emitted. *)
Theorem pack_id_is_hash_of_file : forall (hash : bytes -> id) (clock : nat -> Z) (packs : list (bytes * list iblob)),
  let r := writer_run hash clock packs in
  fst r = map (fun p => (hash (fst p), fst p)) packs /\
  map wkey (snd r) = map (fun p => (hash (fst p), snd p)) packs /\
  Forall (fun w => w_time w <> None /\ w_size w = None) (snd r).
Proof.
  intros hash clock packs. destruct (writer_run_spec hash clock packs) as (H1 & H2 & H3).
  unfold listing_of, truth_of, named in H1, H2. rewrite map_map in H1, H2. cbv zeta. auto.
Qed.
Print Assumptions pack_id_is_hash_of_file.

(* Composition (packer + writer + repair-index): for every op sequence and save oracle, whatever
   the run leaves in the backend `be` and the index `ix`, if the hash does not collide on the
   written files, then from ANY subset `index` of the written index entries repair-index rebuilds,
   up to order, exactly the written index (ids and blob lists). *)
Theorem written_repo_index_rebuildable : forall (enc : bytes -> bytes) (dec : bytes -> option bytes)
    (hash : bytes -> id) clock tpe ops be ix index read_all,
  (forall x, dec (enc x) = Some x) -> (forall x, length (enc x) = (length x + 32)%nat) ->
  Forall wf_op ops ->
  packer_with_writer enc hash clock tpe ops = Ok (be, ix) ->
  (forall p q, In p be -> In q be -> fst p = fst q -> snd p = snd q) ->
  incl index (map wkey ix) ->
  exists r, rebuild_index dec read_all be index = Ok r /\ Permutation r (map wkey ix).
Proof.
  intros enc dec hash clock tpe ops be ix index ra Hdec Henc Hwf Hrun Hinj Hsub.
  unfold packer_with_writer in Hrun. destruct (packer_run enc tpe ops) as [| |packs] eqn:R; try discriminate.
  destruct (writer_run_spec hash clock packs) as (Hbe & Hix & _). cbv zeta in Hbe, Hix.
  injection Hrun as W. rewrite W in Hbe, Hix. cbn [fst snd] in Hbe, Hix. rewrite Hix in *. subst be.
  pose proof (packer_packs_good enc hash tpe ops packs Henc Hwf R) as Hg.
  apply (rebuild_index_perm enc dec Hdec _ Hg). apply (incl_Forall Hsub).
  apply (written_index_agrees enc dec _ Hdec Hg). intros p q Hp Hq Hpq.
  exact (Hinj (fst p, fst (snd p)) (fst q, fst (snd q)) (in_map _ _ _ Hp) (in_map _ _ _ Hq) Hpq).
Qed.
Print Assumptions written_repo_index_rebuildable.

(* The packer driven by its OWN should_save (count >= MAX_COUNT, size >= min(limit, MAX_SIZE), age -
   the age test stays an oracle) is one of the runs packer_pack_wellformed quantifies over: every
   pack it emits - in particular packs closed by the blob-count limit or by the size limit - is
   well-formed, and from_file_inverts_packer applies to it. *)
Theorem auto_packer_pack_wellformed : forall (enc : bytes -> bytes) tpe limit ops packs,
  (forall x, length (enc x) = (length x + 32)%nat) ->
  Forall wf_op ops -> packer_run_auto enc tpe limit ops = Ok packs ->
  Forall (pack_wellformed enc tpe) packs /\
  Forall (fun pk => N.of_nat (length (fst pk)) < U32) packs.
Proof.
  intros enc tpe limit ops packs Henc Hwf Hrun. unfold packer_run_auto in Hrun.
  destruct (run_auto_is_run_go enc tpe limit ops st0) as (ops' & Hk & Hr). rewrite Hr in Hrun.
  exact (proj2 (packer_pack_wellformed enc tpe ops' packs Henc (wf_op_key _ _ Hk Hwf) Hrun)).
Qed.
Print Assumptions auto_packer_pack_wellformed.

(* Order of upload and registration, as found in the source (Extracted.WRITER_INDEXES_AFTER_WRITE):
   whichever pack upload fails, every pack registered with the indexer - hence every pack a
   persisted index file can list - was stored before. *)
Theorem indexed_pack_is_written : forall (hash : bytes -> id) (clock : nat -> Z) packs fail_at,
  let r := writer_run_src hash clock packs fail_at in
  incl (map w_id (snd r)) (map fst (fst r)).
Proof.
  intros hash clock packs fail_at. unfold writer_run_src, writer_run_f.
  change WRITER_INDEXES_AFTER_WRITE with true. apply writer_go_f_indexed_written. apply incl_refl.
Qed.
Print Assumptions indexed_pack_is_written.

(* ... which is false for the other order (registration before the upload). *)
Theorem index_before_write_refuted :
  exists hash clock packs fail_at,
    let r := writer_run_f false hash clock packs fail_at in
    ~ incl (map w_id (snd r)) (map fst (fst r)).
Proof.
  exists (fun f => f), (fun _ => 0%Z), [([1], [])], (Some 0%nat). cbn. intro H.
  destruct (H [1] (or_introl eq_refl)).
Qed.
Print Assumptions index_before_write_refuted.

(* The functions whose behaviour Model.v / Repack.v / Writer.v state have, in the current source,
   exactly the control-flow shape they had when modelled (returns, ifs, `?`, matches per function;
   three error returns in from_file; upload before registration).  Regenerated on every run. *)
Theorem source_shape_is_modelled :
  SOURCE_SHAPE = MODELLED_SHAPE /\ FROM_FILE_ERROR_RETURNS = 3 /\ WRITER_INDEXES_AFTER_WRITE = true.
Proof. exact (conj eq_refl (conj eq_refl eq_refl)). Qed.
Print Assumptions source_shape_is_modelled.

(* PackHeader::from_file on a 3-byte file without size hint (what repair-index does for a
   truncated, unindexed pack): `pack_size - read_size` underflows; and a length field >= 2^32-4
   overflows `size_real + LENGTH_LEN`.  Both are panics of the overflow-checked build, for any key. *)
Theorem from_file_tiny_pack_refuted :
  exists (f : bytes), (length f < 4)%nat /\
    forall dec, from_file (read_of f) dec None (N.of_nat (length f)) = Panic.
Proof. exists [0; 0; 0]. split; [cbn; lia|]. intro dec. apply from_file_hint_underflow; reflexivity. Qed.
Print Assumptions from_file_tiny_pack_refuted.

Theorem from_file_huge_length_field_refuted :
  exists (f : bytes), (4 <= length f)%nat /\ wf_bytes f /\
    forall dec, from_file (read_of f) dec None (N.of_nat (length f)) = Panic.
Proof.
  exists [253; 255; 255; 255]. split; [cbn; lia|]. split; [repeat constructor; lia|].
  intro dec. vm_compute. reflexivity.
Qed.
Print Assumptions from_file_huge_length_field_refuted.
