(* C08 — repair-index rebuilds the index from the packs: for ANY set of remaining index
   entries that agree with their packs (= any subset of index files removed), the entries
   kept by PackChecker::check_pack plus the headers re-read with PackHeader::from_file are,
   up to order, exactly one entry per existing pack with the blobs the packer recorded. *)
From Verif.Base Require Import Tactics.
From Verif.C08 Require Import Extracted Model Spec ProofsCodec ProofsFromFile.
Local Open Scope N_scope.

Definition pk := (id * (bytes * list iblob))%type.
Definition listing_of (P : list pk) : list (id * bytes) := map (fun p => (fst p, fst (snd p))) P.
Definition truth_of (P : list pk) : list ipack := map (fun p => (fst p, snd (snd p))) P.
(* packs queued for re-reading by check_pack: the hint is the header size of the index entry *)
Definition toread_of (P : list pk) : list (id * option N * bytes) :=
  map (fun p => (fst p, hdr_size (snd (snd p)), fst (snd p))) P.

Definition entries_of (ix : list ipack) : list (id * iblob) :=
  flat_map (fun e => map (fun b => (fst e, b)) (snd e)) ix.

Lemma listing_of_app a b : listing_of (a ++ b) = listing_of a ++ listing_of b.
Proof. apply map_app. Qed.

Lemma truth_of_app a b : truth_of (a ++ b) = truth_of a ++ truth_of b.
Proof. apply map_app. Qed.

Lemma remove_pack_spec pid (P : list pk) :
  match remove_pack pid (listing_of P) with
  | Some (f, l') => exists A bs B, P = A ++ (pid, (f, bs)) :: B /\ l' = listing_of (A ++ B)
  | None => ~ In pid (map fst P)
  end.
Proof.
  induction P as [|[qid [qf qbs]] P IH]; cbn [listing_of map remove_pack fst snd]; [intros []|].
  destruct (bytes_eqb qid pid) eqn:E.
  - apply bytes_eqb_eq in E. subst qid. exists [], qbs, P. split; reflexivity.
  - fold (listing_of P). destruct (remove_pack pid (listing_of P)) as [[g r']|].
    + destruct IH as (A & bs & B & -> & ->). exists ((qid, (qf, qbs)) :: A), bs, B. split; reflexivity.
    + intros [->|Hin]; [|exact (IH Hin)]. rewrite bytes_eqb_refl in E. discriminate.
Qed.

Lemma remove_pack_none pid (P : list pk) :
  remove_pack pid (listing_of P) = None -> ~ In pid (map fst P).
Proof. intro H. pose proof (remove_pack_spec pid P) as S. rewrite H in S. exact S. Qed.

Lemma perm_move {X} (A B K T : list X) p :
  Permutation ((A ++ p :: B) ++ K ++ T) ((A ++ B) ++ (K ++ [p]) ++ T) /\
  Permutation ((A ++ p :: B) ++ K ++ T) ((A ++ B) ++ K ++ T ++ [p]).
Proof.
  rewrite <- !Permutation_cons_append. cbn [app]. rewrite <- !Permutation_middle. split; reflexivity.
Qed.

Section WithCrypto.
Variables (enc : bytes -> bytes) (dec : bytes -> option bytes).
Hypothesis dec_enc : forall x, dec (enc x) = Some x.

Variable packs : list pk.
Hypothesis packs_good : Forall (good_pack enc) packs.

(* an index entry is admissible: its size is computable (it was written by a packer), and
   if the pack it names exists, it lists that pack's blobs *)
Definition entry_agrees (e : ipack) : Prop :=
  hdr_pack_size (snd e) <> None /\
  forall f bs', In (fst e, (f, bs')) packs -> snd e = bs'.

(* check_all's state: the packs split, up to order, into not yet seen / kept / to re-read *)
Definition check_inv (st : list (id * bytes) * list ipack * list (id * option N * bytes)) : Prop :=
  exists PR PK PT,
    Permutation packs (PR ++ PK ++ PT) /\
    st = (listing_of PR, truth_of PK, toread_of PT).

Lemma check_one_inv read_all st e :
  check_inv st -> entry_agrees e -> exists st', check_one read_all st e = Ok st' /\ check_inv st'.
Proof.
  intros (PR & PK & PT & Hperm & ->) [Hsz Hag]. destruct e as [pid bs]. cbn [fst snd] in *.
  unfold check_one. destruct (hdr_pack_size bs) as [isz|] eqn:Eps; [|congruence].
  pose proof (remove_pack_spec pid PR) as R. destruct (remove_pack pid (listing_of PR)) as [[f l']|].
  - destruct R as (A & bs' & B & -> & ->).
    assert (Hin : In (pid, (f, bs')) packs).
    { apply (Permutation_in _ (Permutation_sym Hperm)). rewrite <- app_assoc. apply in_elt. }
    pose proof (Hag _ _ Hin) as ->.
    destruct (perm_move A B PK PT (pid, (f, bs'))) as [HK HT].
    destruct (negb (isz =? N.of_nat (length f)) || read_all).
    + destruct (good_sizes enc _ _ _ (proj1 (Forall_forall _ _) packs_good _ Hin)) as (_ & h & Hh & _).
      rewrite Hh. eexists. split; [reflexivity|].
      exists (A ++ B), PK, (PT ++ [(pid, (f, bs'))]). split; [rewrite Hperm; exact HT|].
      unfold toread_of. rewrite map_app. cbn [map fst snd]. rewrite Hh. reflexivity.
    + eexists. split; [reflexivity|].
      exists (A ++ B), (PK ++ [(pid, (f, bs'))]), PT. split; [rewrite Hperm; exact HK|].
      rewrite truth_of_app. reflexivity.
  - eexists. split; [reflexivity|]. exists PR, PK, PT. split; [assumption|reflexivity].
Qed.

Lemma check_all_inv read_all index : forall st,
  check_inv st -> Forall entry_agrees index ->
  exists st', check_all read_all st index = Ok st' /\ check_inv st'.
Proof.
  induction index as [|e index IH]; intros st Hinv Hag; cbn [check_all].
  - eexists. split; [reflexivity|assumption].
  - apply Forall_cons_iff in Hag as [He Hag].
    destruct (check_one_inv read_all st e Hinv He) as (st1 & -> & Hinv1). cbn [bind]. apply IH; assumption.
Qed.

Lemma rebuild_index_perm read_all index :
  Forall entry_agrees index ->
  exists r, rebuild_index dec read_all (listing_of packs) index = Ok r /\
            Permutation r (truth_of packs).
Proof.
  intro Hag. unfold rebuild_index.
  assert (Hinv0 : check_inv (listing_of packs, [], [])).
  { exists packs, [], []. split; [rewrite !app_nil_r; reflexivity|reflexivity]. }
  destruct (check_all_inv read_all index _ Hinv0 Hag) as (st & -> & (PR & PK & PT & Hperm & ->)). cbn [bind].
  pose proof packs_good as G. rewrite Hperm in G. apply Forall_app in G as [GR G]. apply Forall_app in G as [_ GT].
  unfold listing_of. rewrite map_map.
  rewrite (read_headers_app dec _ _ (truth_of PT) (truth_of PR)).
  - cbn [bind]. eexists. split; [reflexivity|].
    unfold truth_of. rewrite <- !map_app. apply Permutation_map. rewrite Hperm.
    symmetry. apply Permutation_app_rot.
  - apply (read_headers_good enc dec dec_enc (fun p => hdr_size (snd (snd p)))); auto.
  - apply (read_headers_good enc dec dec_enc (fun _ => None)); auto.
Qed.

End WithCrypto.

(* hypotheses are satisfiable: two packs, one stale index entry, one agreeing entry *)
Example rebuild_example :
  let enc := fun x => repeat 0 16 ++ x ++ repeat 0 16 in
  let dec := fun y : bytes => Some (firstn (length y - 32) (skipn 16 y)) in
  let i1 := repeat 1 32 in let i2 := repeat 2 32 in
  exists p1 p2, packer_run enc Data [mkop [7;8;9] i1 None true; mkop [5] i2 (Some 9) false] = Ok [p1; p2] /\
    let packs := [(repeat 10 32, p1); (repeat 11 32, p2)] in
    let index := [(repeat 99 32, [mkblob i1 Data 0 1 None]); (repeat 11 32, snd p2)] in
    Forall (entry_agrees packs) index /\
    exists r, rebuild_index dec false (listing_of packs) index = Ok r /\ length r = 2%nat.
Proof.
  cbv zeta. eexists. eexists. split; [vm_compute; reflexivity|].
  split.
  - constructor; [|constructor; [|constructor]]; split; cbn [fst snd]; try (vm_compute; discriminate).
    + intros f bs' [H|[H|[]]]; apply (f_equal fst) in H; discriminate H.
    + intros f bs' [H|[H|[]]]; [apply (f_equal fst) in H; discriminate H|].
      exact (f_equal (fun x => snd (snd x)) H).
  - eexists. split; [vm_compute; reflexivity|reflexivity].
Qed.
