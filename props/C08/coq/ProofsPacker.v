(* C08 — the BasicPacker/RawPacker state machine refines the declarative grouping
   (Spec.spec_groups / pack_of_group) for every op sequence and every save oracle: the packer state
   is always `st_of` the current group.  Every group is duplicate-free and non-empty, hence every
   emitted pack is well-formed.  A run driven by should_save itself is one of the oracle runs. *)
From Verif.Base Require Import Tactics.
From Verif.C08 Require Import Extracted Model Spec ProofsCodec.
Local Open Scope N_scope.

Lemma write_data_ok st d st' n :
  write_data st d = Ok (st', n) ->
  n = N.of_nat (length d) /\ p_size st + n < U32 /\
  st' = mkst (p_file st ++ d) (p_size st + n) (p_count st) (p_index st).
Proof.
  unfold write_data. destruct (U32 <=? _); [discriminate|].
  destruct (u32_add _ _) as [sz|] eqn:E; [|discriminate]. apply u32_add_some in E as [-> E].
  intros [= <- <-]. auto.
Qed.

Definition st_of (tpe : blob_type) (cur : list pop) : pstate :=
  mkst (data_of cur) (N.of_nat (length (data_of cur))) (N.of_nat (length cur)) (blobs_of tpe 0 cur).

Lemma data_of_app a b : data_of (a ++ b) = data_of a ++ data_of b.
Proof. unfold data_of. apply flat_map_app. Qed.

Lemma blobs_of_app tpe a : forall off b,
  blobs_of tpe off (a ++ b) =
  blobs_of tpe off a ++ blobs_of tpe (off + N.of_nat (length (data_of a))) b.
Proof.
  induction a as [|o a IH]; intros off b; cbn [app blobs_of data_of flat_map length].
  - rewrite N.add_0_r. reflexivity.
  - rewrite IH. f_equal. f_equal. f_equal. fold (data_of a). rewrite app_length. lia.
Qed.

Lemma has_blobs_of tpe i cur : forall off,
  existsb (fun b => bytes_eqb (bid b) i) (blobs_of tpe off cur) =
  existsb (fun p => bytes_eqb (op_id p) i) cur.
Proof.
  induction cur as [|o cur IH]; intro off; cbn [blobs_of existsb bid]; [reflexivity|].
  rewrite IH. reflexivity.
Qed.

(* the current group after one op, as spec_groups computes it *)
Definition next_cur (cur : list pop) (o : pop) : list pop :=
  if existsb (fun p => bytes_eqb (op_id p) (op_id o)) cur then cur else cur ++ [o].

Lemma add_raw_spec tpe cur o st' :
  add_raw tpe (st_of tpe cur) o = Ok st' -> st' = st_of tpe (next_cur cur o).
Proof.
  unfold add_raw, next_cur, p_has. cbn [p_index st_of]. rewrite has_blobs_of.
  destruct (existsb _ cur); [intros [= <-]; reflexivity|].
  destruct (write_data _ _) as [| |[st1 len]] eqn:W; try discriminate.
  apply write_data_ok in W as (-> & _ & ->). cbn [bind p_count p_file p_size p_index st_of].
  destruct (u32_add _ _) as [c|] eqn:E; [|discriminate]. apply u32_add_some in E as [-> _].
  intros [= <-]. unfold st_of.
  rewrite data_of_app, blobs_of_app, !app_length. cbn [data_of flat_map blobs_of length].
  rewrite app_nil_r, N.add_0_l. f_equal; lia.
Qed.

Lemma save_spec enc tpe cur pk st' :
  save enc (st_of tpe cur) = Ok (pk, st') ->
  pk = pack_of_group enc tpe cur /\ st' = st_of tpe [] /\ N.of_nat (length (fst pk)) < U32.
Proof.
  unfold save. cbn [p_index st_of]. destruct (U32 <=? _); [discriminate|].
  destruct (write_data _ _) as [| |[st1 n1]] eqn:W1; try discriminate.
  apply write_data_ok in W1 as (-> & _ & ->). cbn [bind].
  destruct (write_data _ _) as [| |[st2 n2]] eqn:W2; try discriminate.
  apply write_data_ok in W2 as (-> & Hlt & ->). cbn [bind p_index p_file p_size st_of] in *.
  destruct (hdr_pack_size _); [|discriminate]. intros [= <- <-]. split; [|split; [reflexivity|]].
  - unfold pack_of_group, pack_file. rewrite <- app_assoc. reflexivity.
  - cbn [fst]. rewrite !app_length. rewrite le32_length in *. lia.
Qed.

Lemma run_go_spec enc tpe ops : forall cur packs,
  run_go enc tpe (st_of tpe cur) ops = Ok packs ->
  packs = map (pack_of_group enc tpe) (spec_groups cur ops) /\
  Forall (fun pk => N.of_nat (length (fst pk)) < U32) packs.
Proof.
  induction ops as [|o r IH]; intros cur packs; cbn [run_go spec_groups].
  - destruct cur as [|o cur]; [intros [= <-]; split; [reflexivity|constructor]|].
    change (p_count (st_of tpe (o :: cur)) =? 0) with false. cbv iota.
    destruct (save enc (st_of tpe (o :: cur))) as [| |[pk st']] eqn:S; cbn [bind]; try discriminate.
    intros [= <-]. apply save_spec in S as (-> & _ & Hlt). split; [reflexivity|repeat constructor; assumption].
  - destruct (add_raw tpe (st_of tpe cur) o) as [| |st1] eqn:A; cbn [bind]; try discriminate.
    apply add_raw_spec in A. subst st1. fold (next_cur cur o).
    destruct (op_save o); [|apply IH].
    destruct (save enc (st_of tpe (next_cur cur o))) as [| |[pk st2]] eqn:S; cbn [bind]; try discriminate.
    apply save_spec in S as (-> & -> & Hlt).
    destruct (run_go enc tpe (st_of tpe []) r) as [| |l] eqn:R; cbn [bind]; try discriminate.
    intros [= <-]. apply IH in R as [-> HF]. split; [reflexivity|constructor; assumption].
Qed.

Lemma next_cur_props (P : pop -> Prop) cur o :
  NoDup (map op_id cur) -> Forall P cur -> P o ->
  NoDup (map op_id (next_cur cur o)) /\ Forall P (next_cur cur o) /\ next_cur cur o <> [].
Proof.
  intros Hnd HP Ho. unfold next_cur. destruct (existsb _ cur) eqn:E.
  - split; [assumption|]. split; [assumption|]. destruct cur; discriminate.
  - split; [|split; [apply Forall_app; auto|destruct cur; discriminate]].
    rewrite map_app. apply (Permutation_NoDup (Permutation_cons_append _ _)). constructor; [|assumption].
    intro Hx. apply in_map_iff in Hx as (p & Hp & Hin). apply not_true_iff_false in E. apply E, existsb_exists.
    exists p. split; [assumption|]. apply bytes_eqb_eq. assumption.
Qed.

Lemma spec_groups_props (P : pop -> Prop) ops : forall cur g,
  NoDup (map op_id cur) -> Forall P cur -> Forall P ops -> In g (spec_groups cur ops) ->
  NoDup (map op_id g) /\ Forall P g /\ g <> [].
Proof.
  induction ops as [|o r IH]; intros cur g Hnd Hcur Hops Hin; cbn [spec_groups] in Hin.
  - destruct cur; [destruct Hin|]. destruct Hin as [<-|[]]. split; [assumption|]. split; [assumption|discriminate].
  - fold (next_cur cur o) in Hin. apply Forall_cons_iff in Hops as [Ho Hr].
    destruct (next_cur_props P cur o Hnd Hcur Ho) as (N1 & N2 & N3).
    destruct (op_save o).
    + destruct Hin as [<-|Hin]; [auto|]. apply (IH [] g); auto; constructor.
    + apply (IH (next_cur cur o) g); auto.
Qed.

Lemma blobs_of_describes tpe g : forall off,
  contiguous off (blobs_of tpe off g) /\
  Forall (fun b => btpe b = tpe) (blobs_of tpe off g) /\
  map bid (blobs_of tpe off g) = map op_id g /\
  Forall2 (fun d b => blen b = N.of_nat (length d)) (map op_data g) (blobs_of tpe off g).
Proof.
  induction g as [|o g IH]; intro off; cbn [blobs_of contiguous map bid blen]; [repeat constructor|].
  destruct (IH (off + N.of_nat (length (op_data o)))) as (H1 & H2 & -> & H4).
  repeat constructor; assumption.
Qed.

Lemma blobs_of_wf tpe g : forall off,
  Forall wf_op g -> N.of_nat (length (data_of g)) < U32 -> Forall wf_blob (blobs_of tpe off g).
Proof.
  induction g as [|o g IH]; intros off H Hlt; cbn [blobs_of]; constructor;
    apply Forall_cons_iff in H as [[Hid Hu] Hg];
    cbn [data_of flat_map] in Hlt; rewrite app_length in Hlt; fold (data_of g) in Hlt.
  - split; [exact Hid|]. split; [cbn [blen]; lia|exact Hu].
  - apply IH; [assumption|lia].
Qed.

Section WithEnc.
Variable enc : bytes -> bytes.
Hypothesis enc_len : forall x, length (enc x) = (length x + 32)%nat.

Lemma pack_file_length data bs :
  Forall (fun b => length (bid b) = id_len) bs ->
  N.of_nat (length (pack_file enc data bs)) =
  N.of_nat (length data) + (sum_entry bs + COMP_OVERHEAD) + LENGTH_LEN.
Proof.
  intro H. unfold pack_file. rewrite !app_length, le32_length, enc_len.
  rewrite <- (hdr_to_binary_length bs H). unfold COMP_OVERHEAD, LENGTH_LEN. lia.
Qed.

Lemma group_wellformed tpe g :
  Forall wf_op g -> NoDup (map op_id g) -> g <> [] ->
  N.of_nat (length (fst (pack_of_group enc tpe g))) < U32 ->
  pack_wellformed enc tpe (pack_of_group enc tpe g) /\ Forall wf_blob (snd (pack_of_group enc tpe g)).
Proof.
  intros Hwf Hnd Hne Hlt. unfold pack_of_group in *. cbv zeta in *. cbn [fst snd] in *.
  assert (Hwb : Forall wf_blob (blobs_of tpe 0 g)).
  { apply blobs_of_wf; [assumption|]. unfold pack_file in Hlt. rewrite app_length in Hlt. lia. }
  split; [|exact Hwb]. pose proof (wf_blob_idlen _ Hwb) as Hid.
  pose proof (pack_file_length (data_of g) _ Hid) as Hlen.
  destruct (blobs_of_describes tpe g 0) as (Hc & Ht & Hi & Hl).
  pose proof (total_len_concat _ _ Hl) as Htot.
  rewrite <- flat_map_concat_map in Htot. fold (data_of g) in Htot.
  unfold COMP_OVERHEAD, LENGTH_LEN in Hlen.
  exists (map op_data g). repeat split.
  - unfold data_of. rewrite flat_map_concat_map. reflexivity.
  - exact Hl.
  - exact Hc.
  - exact Ht.
  - rewrite Hi. assumption.
  - destruct g; [congruence|discriminate].
  - rewrite hdr_pack_size_sum. apply u32_add_some. unfold COMP_OVERHEAD, LENGTH_LEN. lia.
  - rewrite hdr_size_sum, enc_len, Nat2N.inj_add, (hdr_to_binary_length _ Hid).
    apply u32_add_some. unfold COMP_OVERHEAD. lia.
Qed.

Lemma packer_run_packs tpe ops packs :
  Forall wf_op ops -> packer_run enc tpe ops = Ok packs ->
  packs = map (pack_of_group enc tpe) (spec_groups [] ops) /\
  Forall (fun pk => pack_wellformed enc tpe pk /\ Forall wf_blob (snd pk) /\
                    N.of_nat (length (fst pk)) < U32) packs.
Proof.
  intros Hwf Hrun. unfold packer_run in Hrun. change st0 with (st_of tpe []) in Hrun.
  apply run_go_spec in Hrun as [-> HF]. split; [reflexivity|].
  rewrite Forall_forall in HF. apply Forall_forall. intros pk Hpk. pose proof (HF _ Hpk) as Hlt.
  apply in_map_iff in Hpk as [g [<- Hg]].
  destruct (spec_groups_props wf_op ops [] g (NoDup_nil _) (Forall_nil _) Hwf Hg) as (H1 & H2 & H3).
  destruct (group_wellformed tpe g H2 H1 H3 Hlt). auto.
Qed.

End WithEnc.

Definition set_save (b : bool) (o : pop) : pop := mkop (op_data o) (op_id o) (op_ulen o) b.
Definition op_key (o : pop) := (op_data o, op_id o, op_ulen o).

Lemma run_auto_is_run_go enc tpe limit ops : forall st,
  exists ops', map op_key ops' = map op_key ops /\
               run_auto enc tpe limit st ops = run_go enc tpe st ops'.
Proof.
  induction ops as [|o r IH]; intro st; [exists []; split; reflexivity|].
  cbn [run_auto]. destruct (add_raw tpe st o) as [| |st1] eqn:A.
  1,2: exists (o :: r); cbn [run_go]; rewrite A; split; reflexivity.
  cbn [bind]. set (b := should_save_b limit (op_save o) st1).
  (* the oracle run takes o with the decision b made; its rest comes from the state the auto run
     continues in (when save fails the run ends there and any rest does) *)
  destruct (IH (if b then match save enc st1 with Ok (_, st2) => st2 | _ => st1 end else st1)) as (r' & Hk & Hr).
  exists (set_save b o :: r'). split; [cbn [map]; rewrite Hk; reflexivity|].
  cbn [run_go]. change (add_raw tpe st (set_save b o)) with (add_raw tpe st o). rewrite A.
  cbn [bind op_save set_save]. destruct b; [|exact Hr].
  destruct (save enc st1) as [| |[pk st2]]; cbn [bind]; [reflexivity|reflexivity|rewrite Hr; reflexivity].
Qed.

Lemma wf_op_key a b : map op_key a = map op_key b -> Forall wf_op b -> Forall wf_op a.
Proof.
  intros H Hb. apply (Forall_map op_key (fun k => wf_id (snd (fst k)) /\ wf_ulen (snd k))).
  rewrite H. apply Forall_map. exact Hb.
Qed.

(* hypotheses are satisfiable: a save after the first op, then an id that comes twice *)
Example packer_example :
  let enc := fun x => repeat 0 16 ++ x ++ repeat 0 16 in
  let i1 := repeat 1 32 in let i2 := repeat 2 32 in
  let ops := [mkop [7;8;9] i1 None true; mkop [5] i2 (Some 9) false; mkop [6] i2 None false] in
  Forall wf_op ops /\
  (forall x, length (enc x) = (length x + 32)%nat) /\
  exists packs, packer_run enc Data ops = Ok packs /\ length packs = 2%nat.
Proof.
  cbv zeta. split; [|split].
  - repeat first [apply wf_id_repeat; reflexivity | constructor].
  - intro x. rewrite !app_length, !repeat_length. lia.
  - eexists. split; [vm_compute; reflexivity|reflexivity].
Qed.
