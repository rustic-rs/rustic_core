(* C08 — the repacker hands every blob to the target packer with exactly the bytes of its
   source location, for every list of blobs to copy (sorted or not): coalesced reads only ever
   merge adjacent, monotone ranges of the SAME pack.  One statement per level of the model says
   both what a successful step yields and that a failing step means some blob is not inside its
   pack (`entry_inside`); `repack_spec` is the top one. *)
From Verif.Base Require Import Tactics Lists.
From Verif.C08 Require Import Extracted Model Spec ProofsCodec Repack.
Local Open Scope N_scope.

Definition key_of (e : centry) : loc * id := (ce_loc e, ce_id e).

(* the invariant of coalescing: the chunk c stands for the entries es.  That its read ends where one
   of them ends is what keeps the read inside the pack (chunk_ok_inside). *)
Definition chunk_ok (c : cpb) (es : list centry) : Prop :=
  bl_blobs (snd c) = map key_of es /\
  Forall (fun e => ce_pack e = fst c) es /\
  Forall (fun e => bl_off (snd c) <= l_off (ce_loc e) /\
                   l_off (ce_loc e) + l_len (ce_loc e) <= bl_off (snd c) + bl_len (snd c)) es /\
  exists e, In e es /\ l_off (ce_loc e) + l_len (ce_loc e) = bl_off (snd c) + bl_len (snd c).

Lemma from_index_entry_ok e : chunk_ok (from_index_entry e) [e].
Proof.
  unfold chunk_ok, from_index_entry, from_blob_location. cbn [fst snd bl_blobs bl_off bl_len map].
  split; [reflexivity|]. split; [|split]; [repeat constructor; lia..|].
  exists e. split; [left|]; reflexivity.
Qed.

Lemma can_coalesce_spec a b :
  match can_coalesce a b with
  | None => U32 <= bl_off a + bl_len a + MAX_HOLESIZE \/ U32 <= bl_off b + bl_len b
  | Some true => bl_off a + bl_len a <= bl_off b /\ bl_off b + bl_len b < U32
  | Some false => True
  end.
Proof.
  unfold can_coalesce.
  destruct (u32_add (bl_off a) (bl_len a)) as [e|] eqn:E1;
    [apply u32_add_some in E1 as [-> E1]|apply u32_add_none in E1; left; lia].
  destruct (u32_add _ MAX_HOLESIZE) as [eh|] eqn:E2; [|apply u32_add_none in E2; auto].
  destruct (negb (bl_off b <=? eh)); [exact I|].
  destruct (N.leb_spec (bl_off a + bl_len a) (bl_off b)) as [Hmono|]; cbn [negb]; [|exact I].
  destruct (u32_add (bl_off b) (bl_len b)) as [oe|] eqn:E4;
    [apply u32_add_some in E4 as [-> E4]|apply u32_add_none in E4; auto].
  rewrite u32_sub_ok by lia. destruct (_ <=? LIMIT_PACK_READ); [auto|exact I].
Qed.

Lemma can_coalesce_true a b :
  can_coalesce a b = Some true ->
  bl_off a + bl_len a <= bl_off b /\ bl_off b + bl_len b < U32.
Proof. intro H. pose proof (can_coalesce_spec a b) as S. rewrite H in S. exact S. Qed.

(* append redoes two sums that can_coalesce has just found in range *)
Lemma bl_coalesce_spec a b :
  match bl_coalesce a b with
  | MPanic => U32 <= bl_off a + bl_len a + MAX_HOLESIZE \/ U32 <= bl_off b + bl_len b
  | MNo x y => x = a /\ y = b
  | MOk m => m = mkbl (bl_off a) (bl_off b + bl_len b - bl_off a) (bl_blobs a ++ bl_blobs b) /\
             bl_off a + bl_len a <= bl_off b
  end.
Proof.
  unfold bl_coalesce. pose proof (can_coalesce_spec a b) as S.
  destruct (can_coalesce a b) as [[|]|]; [|auto|exact S].
  destruct S as [Hmono Hlt]. unfold bl_append. rewrite u32_add_ok, u32_sub_ok by lia. auto.
Qed.

Lemma cpb_coalesce_no a b x y : cpb_coalesce true a b = MNo x y -> x = a /\ y = b.
Proof.
  unfold cpb_coalesce. cbn [andb]. destruct (negb (bytes_eqb (fst a) (fst b))).
  - intros [= <- <-]. split; reflexivity.
  - pose proof (bl_coalesce_spec (snd a) (snd b)) as S.
    destruct (bl_coalesce (snd a) (snd b)) as [|m|x' y']; try discriminate.
    intros [= <- <-]. destruct S as [-> ->]. destruct a, b. split; reflexivity.
Qed.

Lemma slice_slice (f : bytes) off len x l :
  off <= x -> x + l <= off + len -> slice (slice f off len) (x - off) l = slice f x l.
Proof.
  intros H1 H2. unfold slice. rewrite skipn_firstn_comm, firstn_firstn, skipn_skipn.
  replace (N.to_nat (x - off) + N.to_nat off)%nat with (N.to_nat x) by lia.
  replace (Nat.min _ _) with (N.to_nat l) by lia. reflexivity.
Qed.

Lemma slice_blob_eq data off l :
  off <= l_off l ->
  slice_blob data off l =
  if (l_off l + l_len l <? U32) && (l_off l + l_len l - off <=? N.of_nat (length data))
  then Ok (slice data (l_off l - off) (l_len l)) else Panic.
Proof.
  intro H. unfold slice_blob, u32_add. rewrite u32_sub_ok by assumption. cbv zeta.
  destruct (l_off l + l_len l <? U32); [|reflexivity]. rewrite u32_sub_ok by lia. cbn [andb].
  rewrite (proj2 (N.ltb_ge (l_off l + l_len l - off) (l_off l - off))), orb_false_r, N.ltb_antisym by lia.
  destruct (_ <=? N.of_nat (length data)); [|reflexivity]. unfold slice. cbn [negb].
  replace (N.to_nat (l_off l + l_len l - off - (l_off l - off))) with (N.to_nat (l_len l)) by lia. reflexivity.
Qed.

Lemma slice_blob_ok f off len l d :
  off <= l_off l -> l_off l + l_len l <= off + len ->
  slice_blob (slice f off len) off l = Ok d ->
  d = slice f (l_off l) (l_len l).
Proof.
  intros H1 H2. rewrite slice_blob_eq by assumption. destruct (_ && _); [|discriminate].
  intros [= <-]. apply slice_slice; assumption.
Qed.

Lemma slice_blob_slice f off len l :
  off <= l_off l -> l_off l + l_len l <= off + len -> off + len <= N.of_nat (length f) ->
  slice_blob (slice f off len) off l =
  if l_off l + l_len l <? U32 then Ok (slice f (l_off l) (l_len l)) else Panic.
Proof.
  intros H1 H2 H3. rewrite slice_blob_eq, slice_slice by assumption.
  replace (N.of_nat (length (slice f off len))) with len
    by (unfold slice; rewrite firstn_length, skipn_length; lia).
  rewrite (proj2 (N.leb_le _ len)), andb_true_r by lia. reflexivity.
Qed.

Section WithStore.
Variable store : id -> option bytes.
Variable decode : bytes -> option N -> option bytes.

(* the blob lies inside its existing pack and decodes; the pack is shorter than 2^32 - MAX_HOLESIZE
   bytes, so that the u32 sums of can_coalesce stay in range *)
Definition entry_inside (e : centry) : Prop :=
  exists f, store (ce_pack e) = Some f /\
    l_off (ce_loc e) + l_len (ce_loc e) <= N.of_nat (length f) /\
    N.of_nat (length f) + MAX_HOLESIZE < U32 /\
    decode (slice f (l_off (ce_loc e)) (l_len (ce_loc e))) (l_ulen (ce_loc e)) <> None.

Lemma chunk_ok_inside c es :
  chunk_ok c es -> Forall entry_inside es ->
  exists f, store (fst c) = Some f /\ bl_off (snd c) + bl_len (snd c) <= N.of_nat (length f) /\
            N.of_nat (length f) + MAX_HOLESIZE < U32.
Proof.
  intros (_ & Hp & _ & e & He & Hee) Hall. rewrite Forall_forall in Hp, Hall.
  destruct (Hall e He) as (f & S & I' & L & _). exists f. rewrite <- (Hp e He), <- Hee. auto.
Qed.

(* chunks merge only within one pack and only when the second range starts at or after the end of the
   first, so the merged chunk stands for ea ++ eb *)
Lemma cpb_coalesce_chunk a b ea eb :
  chunk_ok a ea -> chunk_ok b eb ->
  match cpb_coalesce true a b with
  | MPanic => ~ Forall entry_inside (ea ++ eb)
  | MNo x y => x = a /\ y = b
  | MOk m => chunk_ok m (ea ++ eb)
  end.
Proof.
  intros Ha Hb. unfold cpb_coalesce. cbn [andb].
  destruct (bytes_eqb (fst a) (fst b)) eqn:Ep; cbn [negb]; [|auto].
  apply bytes_eqb_eq in Ep. pose proof (bl_coalesce_spec (snd a) (snd b)) as S.
  destruct (bl_coalesce (snd a) (snd b)) as [|m|x y].
  - (* both reads end inside files shorter than 2^32 - MAX_HOLESIZE *)
    intro Hall. apply Forall_app in Hall as [H1 H2].
    destruct (chunk_ok_inside _ _ Ha H1) as (f1 & _ & I1 & L1).
    destruct (chunk_ok_inside _ _ Hb H2) as (f2 & _ & I2 & L2). lia.
  - destruct S as [-> Hmono].
    destruct Ha as (Ha1 & Ha2 & Ha3 & _), Hb as (Hb1 & Hb2 & Hb3 & e & He & Hee).
    unfold chunk_ok. cbn [fst snd bl_off bl_len bl_blobs]. rewrite Ha1, Hb1, map_app.
    split; [reflexivity|]. split; [|split].
    + apply Forall_app. split; [assumption|]. rewrite Ep. assumption.
    + apply Forall_app. split; (eapply Forall_impl; [|eassumption]); cbv beta; intros; lia.
    + exists e. split; [apply in_or_app; right; assumption|lia].
  - destruct S as [-> ->]. destruct a, b. auto.
Qed.

Lemma coalesce_go_spec es : forall prev ep,
  chunk_ok prev ep ->
  match coalesce_go (cpb_coalesce true) prev (map from_index_entry es) with
  | Some cs => exists ess, Forall2 chunk_ok cs ess /\ concat ess = ep ++ es
  | None => ~ Forall entry_inside (ep ++ es)
  end.
Proof.
  induction es as [|e es IH]; intros prev ep Hp; cbn [map coalesce_go].
  - exists [ep]. split; [constructor; [assumption|constructor]|]. cbn [concat]. rewrite !app_nil_r. reflexivity.
  - pose proof (from_index_entry_ok e) as He. pose proof (cpb_coalesce_chunk _ _ _ _ Hp He) as S.
    change (ep ++ e :: es) with (ep ++ [e] ++ es). rewrite app_assoc.
    destruct (cpb_coalesce true prev (from_index_entry e)) as [|m|a b].
    + intro Hall. apply Forall_app in Hall as [Hall _]. exact (S Hall).
    + exact (IH m _ S).
    + destruct S as [-> ->]. specialize (IH _ [e] He). rewrite <- app_assoc.
      destruct (coalesce_go _ _ _) as [t|].
      * destruct IH as (ess & H1 & H2). exists (ep :: ess). split; [constructor; assumption|].
        cbn [concat]. rewrite H2. reflexivity.
      * intro Hall. apply Forall_app in Hall as [_ Hall]. exact (IH Hall).
Qed.

Lemma expected_of_some e h :
  expected_of store decode e = Some h ->
  exists f d, store (ce_pack e) = Some f /\
    l_off (ce_loc e) + l_len (ce_loc e) <= N.of_nat (length f) /\
    decode (slice f (l_off (ce_loc e)) (l_len (ce_loc e))) (l_ulen (ce_loc e)) = Some d /\
    h = (ce_id e, d, l_ulen (ce_loc e)).
Proof.
  unfold expected_of. destruct (store (ce_pack e)) as [f|]; [|discriminate].
  destruct (N.leb_spec (l_off (ce_loc e) + l_len (ce_loc e)) (N.of_nat (length f))) as [Hle|_]; [|discriminate].
  destruct (decode _ _) as [d|] eqn:D; [|discriminate]. intros [= <-]. exists f, d. auto.
Qed.

Lemma copy_blobs_of_spec f off len pid : forall es,
  store pid = Some f -> off + len <= N.of_nat (length f) ->
  Forall (fun e => ce_pack e = pid) es ->
  Forall (fun e => off <= l_off (ce_loc e) /\ l_off (ce_loc e) + l_len (ce_loc e) <= off + len) es ->
  match copy_blobs_of decode (slice f off len) off (map key_of es) with
  | Ok out => Forall2 (fun e h => expected_of store decode e = Some h) es out
  | _ => ~ Forall entry_inside es
  end.
Proof.
  induction es as [|e es IH]; intros Hs Hin Hp Hr; cbn [map]; [constructor|].
  unfold key_of at 1. cbn [copy_blobs_of].
  inversion Hp as [|? ? Hp1 Hp2]; subst. inversion Hr as [|? ? [Hlo Hhi] Hr2]; subst.
  specialize (IH Hs Hin Hp2 Hr2). rewrite slice_blob_slice by assumption.
  assert (Hin_e : entry_inside e -> N.of_nat (length f) + MAX_HOLESIZE < U32 /\
            decode (slice f (l_off (ce_loc e)) (l_len (ce_loc e))) (l_ulen (ce_loc e)) <> None).
  { intros (f' & S' & _ & L' & D'). rewrite Hs in S'. injection S' as <-. auto. }
  destruct (N.ltb_spec (l_off (ce_loc e) + l_len (ce_loc e)) U32) as [Hlt|Hge].
  - destruct (decode _ _) as [pd|] eqn:D.
    + destruct (copy_blobs_of decode _ off (map key_of es)) as [| |t].
      1,2: intro Hall; exact (IH (Forall_inv_tail Hall)).
      constructor; [|assumption]. unfold expected_of. rewrite Hs, (proj2 (N.leb_le _ _)), D by lia. reflexivity.
    + intro Hall. destruct (Hin_e (Forall_inv Hall)) as [_ Hd]. congruence.
  - intro Hall. destruct (Hin_e (Forall_inv Hall)) as [Hl _]. lia.
Qed.

Lemma copy_chunk_spec c es :
  chunk_ok c es ->
  match copy_chunk store decode c with
  | Ok out => Forall2 (fun e h => expected_of store decode e = Some h) es out
  | _ => ~ Forall entry_inside es
  end.
Proof.
  intro Hc. pose proof Hc as (H1 & H2 & H3 & _). unfold copy_chunk.
  destruct (store (fst c)) as [f|] eqn:Hs.
  - destruct (N.le_gt_cases (bl_off (snd c) + bl_len (snd c)) (N.of_nat (length f))) as [Hin|Hout].
    + rewrite (read_of_some _ _ _ Hin), H1. apply (copy_blobs_of_spec f _ _ (fst c)); assumption.
    + rewrite (read_of_none _ _ _ Hout). intro Hall. destruct (chunk_ok_inside c es Hc Hall) as (f' & S' & I' & _). rewrite Hs in S'. inv S'. lia.
  - intro Hall. destruct (chunk_ok_inside c es Hc Hall) as (f' & S' & _). congruence.
Qed.

Lemma copy_chunks_spec cs : forall ess,
  Forall2 chunk_ok cs ess ->
  match copy_chunks store decode cs with
  | Ok out => Forall2 (fun e h => expected_of store decode e = Some h) (concat ess) out
  | _ => ~ Forall entry_inside (concat ess)
  end.
Proof.
  induction cs as [|c cs IH]; intros ess HF; inversion HF as [|? es ? ess' Hc HF']; subst;
    cbn [copy_chunks concat]; [constructor|].
  pose proof (copy_chunk_spec c es Hc) as Sc. specialize (IH ess' HF').
  destruct (copy_chunk store decode c) as [| |a].
  1,2: intro Hall; apply Forall_app in Hall as [Hall _]; exact (Sc Hall).
  destruct (copy_chunks store decode cs) as [| |b].
  1,2: intro Hall; apply Forall_app in Hall as [_ Hall]; exact (IH Hall).
  apply Forall2_app; assumption.
Qed.

Lemma repack_spec es :
  match repack true store decode es with
  | Ok out => Forall2 (fun e h => expected_of store decode e = Some h) es out
  | _ => ~ Forall entry_inside es
  end.
Proof.
  unfold repack. destruct es as [|e es]; cbn [map coalesce_all]; [constructor|].
  pose proof (coalesce_go_spec es _ [e] (from_index_entry_ok e)) as S. cbn [app] in S.
  destruct (coalesce_go _ _ _) as [cs|]; [|exact S].
  destruct S as (ess & HF & <-). apply copy_chunks_spec. assumption.
Qed.

End WithStore.

Example repack_example :
  let p1 := repeat 1 32 in
  let store := fun p => if bytes_eqb p p1 then Some [10; 11; 12; 13; 14] else None in
  let es := [mkce p1 (mkloc 0 2 None) (repeat 7 32); mkce p1 (mkloc 2 1 (Some 5)) (repeat 8 32);
             mkce p1 (mkloc 4 1 None) (repeat 9 32)] in
  repack true store (fun d _ => Some d) es
  = Ok [(repeat 7 32, [10; 11], None); (repeat 8 32, [12], Some 5); (repeat 9 32, [14], None)] /\
  coalesce_all (cpb_coalesce true) (map from_index_entry es)
  = Some [(p1, mkbl 0 5 (map key_of es))].
Proof. cbv zeta. split; vm_compute; reflexivity. Qed.
