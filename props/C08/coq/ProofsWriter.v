(* C08 — pack name = hash of the file bytes; the index entry carries that name, the packer's blobs
   and a time; and the composition: what a packer + writer run leaves in backend and index can be
   rebuilt by repair-index from any subset of its index entries. *)
From Verif.Base Require Import Tactics.
From Verif.C08 Require Import Extracted Model Spec ProofsPacker ProofsFromFile ProofsRebuild Writer.
Local Open Scope N_scope.

Definition wkey (w : wpack) : ipack := (w_id w, w_blobs w).
Definition named (hash : bytes -> id) (packs : list (bytes * list iblob)) : list pk :=
  map (fun p => (hash (fst p), p)) packs.

Lemma writer_go_spec hash clock packs : forall k st,
  let r := writer_go hash clock k st packs in
  fst r = fst st ++ listing_of (named hash packs) /\
  map wkey (snd r) = map wkey (snd st) ++ truth_of (named hash packs) /\
  (Forall (fun w => w_time w <> None /\ w_size w = None) (snd st) ->
   Forall (fun w => w_time w <> None /\ w_size w = None) (snd r)).
Proof.
  induction packs as [|p packs IH]; intros k st; cbn [writer_go named map listing_of truth_of].
  - cbv zeta. rewrite !app_nil_r. auto.
  - cbv zeta. destruct (IH (S k) (writer_step hash (clock k) st p)) as (H1 & H2 & H3).
    cbv zeta in H1, H2, H3. rewrite H1, H2. unfold writer_step. cbn [fst snd].
    rewrite map_app, <- !app_assoc. cbn [map app wkey w_id w_blobs fst snd].
    split; [reflexivity|]. split; [reflexivity|].
    intro HF. apply H3. unfold writer_step. cbn [snd]. apply Forall_app. split; [assumption|].
    constructor; [|constructor]. cbn [w_time w_size]. split; [discriminate|reflexivity].
Qed.

(* backend and index after a writer run, in the vocabulary of the rebuild theorem *)
Lemma writer_run_spec hash clock packs :
  let r := writer_run hash clock packs in
  fst r = listing_of (named hash packs) /\
  map wkey (snd r) = truth_of (named hash packs) /\
  Forall (fun w => w_time w <> None /\ w_size w = None) (snd r).
Proof.
  destruct (writer_go_spec hash clock packs 0%nat ([], [])) as (H1 & H2 & H3).
  split; [exact H1|]. split; [exact H2|]. apply H3. constructor.
Qed.

Lemma writer_go_f_indexed_written hash clock packs fail_at : forall k st,
  incl (map w_id (snd st)) (map fst (fst st)) ->
  let r := writer_go_f true hash clock k st packs fail_at in
  incl (map w_id (snd r)) (map fst (fst r)).
Proof.
  induction packs as [|p packs IH]; intros k st Hst; cbn [writer_go_f]; [exact Hst|].
  destruct (match fail_at with Some n => Nat.eqb n k | None => false end); [exact Hst|].
  apply IH. cbn [fst snd]. rewrite !map_app. cbn [map fst w_id].
  apply incl_app; [apply incl_appl; exact Hst|apply incl_appr, incl_refl].
Qed.

(* without failure the source order does not matter: same result as writer_run *)
Lemma writer_run_f_no_failure iaw hash clock packs : forall k st,
  writer_go_f iaw hash clock k st packs None = writer_go hash clock k st packs.
Proof.
  induction packs as [|p packs IH]; intros k st; cbn [writer_go_f writer_go]; [reflexivity|].
  rewrite IH. reflexivity.
Qed.

Lemma packer_packs_good (enc : bytes -> bytes) (hash : bytes -> id) tpe ops packs :
  (forall x, length (enc x) = (length x + 32)%nat) ->
  Forall wf_op ops -> packer_run enc tpe ops = Ok packs -> Forall (good_pack enc) (named hash packs).
Proof.
  intros Henc Hwf Hrun. apply Forall_map.
  eapply Forall_impl; [|exact (proj2 (packer_run_packs enc Henc tpe ops packs Hwf Hrun))].
  intros p (Hw & Hb & Hl). split; [exists tpe; exact Hw|]. split; assumption.
Qed.

(* for packs named by a hash, the last hypothesis says that it does not collide on the files that occur *)
Lemma written_index_agrees (enc : bytes -> bytes) (dec : bytes -> option bytes) (P : list pk) :
  (forall x, dec (enc x) = Some x) ->
  Forall (good_pack enc) P ->
  (forall p q, In p P -> In q P -> fst p = fst q -> fst (snd p) = fst (snd q)) ->
  Forall (entry_agrees P) (truth_of P).
Proof.
  intros Hdec Hg Hinj. apply Forall_map. rewrite Forall_forall in *.
  intros [pid [f bs]] Hin. pose proof (Hg _ Hin) as G. split; cbn [fst snd].
  - rewrite (proj1 (good_sizes enc _ _ _ G)). discriminate.
  - intros f' bs' Hin'. pose proof (Hinj _ _ Hin Hin' eq_refl) as Hf. cbn [fst snd] in Hf. subst f'.
    exact (good_pack_blobs_unique enc dec Hdec _ _ _ _ _ G (Hg _ Hin')).
Qed.

Example writer_example :
  let enc := fun x => repeat 0 16 ++ x ++ repeat 0 16 in
  let hash := fun f : bytes => firstn 32 (f ++ repeat 0 32) in
  exists be ix, packer_with_writer enc hash (fun k => Z.of_nat k) Data
                  [mkop [7;8;9] (repeat 1 32) None true; mkop [5] (repeat 2 32) (Some 9) false] = Ok (be, ix) /\
    length be = 2%nat /\ map fst be = map w_id ix.
Proof. cbv zeta. eexists. eexists. split; [vm_compute; reflexivity|]. split; reflexivity. Qed.
