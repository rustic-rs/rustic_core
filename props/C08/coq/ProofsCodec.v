(* C08 — the header codec: checked u32 arithmetic, one entry, the parsing loop as an equation over
   `hdr_to_binary bs ++ tail`, and the two size folds as checked sums. *)
From Verif.Base Require Import Tactics Lists.
From Verif.C08 Require Import Extracted Model Spec.
Local Open Scope N_scope.

Lemma u32_add_some a b c : u32_add a b = Some c <-> (c = a + b /\ a + b < U32).
Proof.
  unfold u32_add. cbv zeta. destruct (N.ltb_spec (a + b) U32); split.
  - intros [= <-]. auto.
  - intros [-> _]. reflexivity.
  - discriminate.
  - lia.
Qed.

Lemma u32_add_none a b : u32_add a b = None <-> U32 <= a + b.
Proof.
  unfold u32_add. cbv zeta. destruct (N.ltb_spec (a + b) U32); split; (discriminate || lia || reflexivity).
Qed.

Lemma u32_sub_some a b c : u32_sub a b = Some c <-> (c = a - b /\ b <= a).
Proof.
  unfold u32_sub. destruct (N.leb_spec b a); split.
  - intros [= <-]. auto.
  - intros [-> _]. reflexivity.
  - discriminate.
  - lia.
Qed.

Lemma u32_sub_none a b : u32_sub a b = None <-> a < b.
Proof. unfold u32_sub. destruct (N.leb_spec b a); split; (discriminate || lia || reflexivity). Qed.

Lemma u32_add_ok a b : a + b < U32 -> u32_add a b = Some (a + b).
Proof. intro H. apply u32_add_some. auto. Qed.

Lemma u32_sub_ok a b : b <= a -> u32_sub a b = Some (a - b).
Proof. intro H. apply u32_sub_some. auto. Qed.

Lemma u32_add_add a x y :
  match u32_add a x with None => None | Some a' => u32_add a' y end = u32_add a (x + y).
Proof.
  destruct (u32_add a x) as [a'|] eqn:E.
  - apply u32_add_some in E as [-> E]. unfold u32_add. rewrite N.add_assoc. reflexivity.
  - apply u32_add_none in E. symmetry. apply u32_add_none. lia.
Qed.

Lemma le32_length n : length (le32 n) = 4%nat.
Proof. reflexivity. Qed.

(* the four base-256 digits of n, recomposed innermost first by N.div_mod' *)
Lemma rd32_le32 n r : n < U32 -> rd32 (le32 n ++ r) = n.
Proof.
  intro H. unfold le32, rd32. cbn [app].
  change 65536 with (256 * 256). change 16777216 with (256 * 256 * 256).
  rewrite <- !N.div_div by discriminate.
  rewrite (N.mod_small (n / 256 / 256 / 256)) by (repeat apply N.div_lt_upper_bound; try discriminate; exact H).
  transitivity (256 * (256 * (256 * (n / 256 / 256 / 256) + (n / 256 / 256) mod 256) + (n / 256) mod 256)
                + n mod 256); [ring|].
  rewrite <- !N.div_mod'. reflexivity.
Qed.

Lemma le32_wf n : wf_bytes (le32 n).
Proof. repeat constructor; apply N.mod_lt; discriminate. Qed.

Lemma firstn_enough {A} n (l : list A) : (n <= length l)%nat -> (length (firstn n l) <? n)%nat = false.
Proof. intro H. apply Nat.ltb_ge. rewrite firstn_length. lia. Qed.

Lemma read_of_some f off len : off + len <= N.of_nat (length f) -> read_of f off len = Some (slice f off len).
Proof. intro H. unfold read_of. rewrite (proj2 (N.leb_le _ _) H). reflexivity. Qed.

Lemma read_of_none f off len : N.of_nat (length f) < off + len -> read_of f off len = None.
Proof. intro H. unfold read_of. rewrite (proj2 (N.leb_gt _ _) H). reflexivity. Qed.

Lemma bytes_eqb_refl a : bytes_eqb a a = true.
Proof. induction a; cbn [bytes_eqb]; [reflexivity|]. rewrite N.eqb_refl, IHa. reflexivity. Qed.

Lemma bytes_eqb_eq a b : bytes_eqb a b = true <-> a = b.
Proof.
  split; [|intros ->; apply bytes_eqb_refl].
  revert b. induction a as [|x a IH]; intros [|y b]; cbn [bytes_eqb]; try discriminate; [reflexivity|].
  intro H. apply andb_true_iff in H as [H1 H2]. apply N.eqb_eq in H1. apply IH in H2. congruence.
Qed.

Lemma read_entry_magic b r :
  read_entry (magic_of b :: r) =
  let comp := if bulen b then true else false in
  let need := if comp then (8 + id_len)%nat else (4 + id_len)%nat in
  if (length (firstn need r) <? need)%nat then RBad else
  let r1 := skipn 4 r in
  let ul := if comp then (let raw := rd32 r1 in if raw =? 0 then None else Some raw) else None in
  let r2 := if comp then skipn 4 r1 else r1 in
  RGot (btpe b) (rd32 r) ul (firstn id_len r2) (skipn id_len r2).
Proof. destruct b as [i [|] off len [u|]]; reflexivity. Qed.

Lemma read_entry_to_binary b rest :
  wf_blob b ->
  read_entry (entry_to_binary b ++ rest) = RGot (btpe b) (blen b) (bulen b) (bid b) rest.
Proof.
  intros [[Hl _] [Hlen Hu]]. unfold entry_to_binary. cbn [app]. rewrite read_entry_magic, <- !app_assoc.
  destruct (bulen b) as [u|]; cbv beta iota zeta; cbn [app];
    rewrite firstn_enough by (rewrite !app_length, !le32_length, Hl; unfold id_len; lia);
    rewrite rd32_le32, (skipn_app_exact (le32 (blen b))) by (assumption || reflexivity).
  - cbn [wf_ulen] in Hu. rewrite rd32_le32, (skipn_app_exact (le32 u)) by (lia || reflexivity).
    rewrite (proj2 (N.eqb_neq u 0)) by lia.
    rewrite firstn_app_exact, skipn_app_exact by assumption. reflexivity.
  - rewrite firstn_app_exact, skipn_app_exact by assumption. reflexivity.
Qed.

Lemma entry_to_binary_length b :
  length (bid b) = id_len -> N.of_nat (length (entry_to_binary b)) = entry_len b.
Proof.
  intro H. unfold entry_to_binary, entry_len. cbn [length]. rewrite !app_length, le32_length.
  destruct (bulen b); rewrite ?le32_length, H; reflexivity.
Qed.

Lemma entry_len_pos b : 0 < entry_len b.
Proof. unfold entry_len. destruct (bulen b); reflexivity. Qed.

Lemma hdr_to_binary_cons b bs : hdr_to_binary (b :: bs) = entry_to_binary b ++ hdr_to_binary bs.
Proof. reflexivity. Qed.

Lemma hdr_to_binary_app a b : hdr_to_binary (a ++ b) = hdr_to_binary a ++ hdr_to_binary b.
Proof. unfold hdr_to_binary. apply flat_map_app. Qed.

Lemma hdr_to_binary_length_ge bs : (length bs <= length (hdr_to_binary bs))%nat.
Proof.
  induction bs as [|b bs IH]; [apply le_n|].
  rewrite hdr_to_binary_cons, app_length. unfold entry_to_binary. cbn [length]. lia.
Qed.

Lemma hdr_to_binary_length bs :
  Forall (fun b => length (bid b) = id_len) bs ->
  N.of_nat (length (hdr_to_binary bs)) = sum_entry bs.
Proof.
  induction 1 as [|b bs Hb _ IH]; [reflexivity|].
  rewrite hdr_to_binary_cons, app_length, Nat2N.inj_add, IH, entry_to_binary_length by assumption.
  reflexivity.
Qed.

Lemma wf_blob_idlen bs : Forall wf_blob bs -> Forall (fun b => length (bid b) = id_len) bs.
Proof. apply Forall_impl. intros b [[H _] _]. exact H. Qed.

(* Round trip, overflow and trailing garbage are the cases tail = [], U32 <= total_len bs and
   read_entry tail = RBad. *)
Lemma from_binary_go_app bs : forall k off tail,
  Forall wf_blob bs -> off < U32 ->
  from_binary_go (length bs + k) (hdr_to_binary bs ++ tail) off =
  if off + total_len bs <? U32
  then match from_binary_go k tail (off + total_len bs) with
       | Ok l => Ok (reoffset off bs ++ l)
       | r => r
       end
  else Panic.
Proof.
  induction bs as [|b bs IH]; intros k off tail Hwf Hoff; cbn [length plus total_len reoffset app].
  - change (hdr_to_binary [] ++ tail) with tail. rewrite N.add_0_r, (proj2 (N.ltb_lt _ _) Hoff).
    destruct (from_binary_go k tail off); reflexivity.
  - inv Hwf. rewrite hdr_to_binary_cons, <- app_assoc. cbn [from_binary_go].
    rewrite read_entry_to_binary, N.add_assoc by assumption.
    unfold u32_add. destruct (N.ltb_spec (off + blen b) U32) as [Hlt|Hge].
    + rewrite IH by assumption. destruct (_ <? U32); [|reflexivity].
      destruct (from_binary_go k tail _); reflexivity.
    + rewrite (proj2 (N.ltb_ge _ _)) by lia. reflexivity.
Qed.

(* hdr_from_binary gives the loop more fuel than there are entries *)
Lemma hdr_from_binary_app bs tail :
  Forall wf_blob bs ->
  exists k, hdr_from_binary (hdr_to_binary bs ++ tail) =
            if total_len bs <? U32
            then match from_binary_go (S k) tail (total_len bs) with
                 | Ok l => Ok (reoffset 0 bs ++ l)
                 | r => r
                 end
            else Panic.
Proof.
  intro Hwf. exists (length (hdr_to_binary bs) - length bs + length tail)%nat.
  unfold hdr_from_binary. rewrite app_length.
  replace (S (length (hdr_to_binary bs) + length tail))
    with (length bs + S (length (hdr_to_binary bs) - length bs + length tail))%nat
    by (pose proof (hdr_to_binary_length_ge bs); lia).
  apply (from_binary_go_app bs _ 0 tail Hwf). reflexivity.
Qed.

Lemma hdr_from_to_binary bs :
  Forall wf_blob bs -> total_len bs < U32 ->
  hdr_from_binary (hdr_to_binary bs) = Ok (reoffset 0 bs).
Proof.
  intros Hwf Hlt. destruct (hdr_from_binary_app bs [] Hwf) as [k E]. rewrite app_nil_r in E.
  rewrite E, (proj2 (N.ltb_lt _ _) Hlt). cbn [from_binary_go read_entry]. apply f_equal, app_nil_r.
Qed.

Lemma reoffset_contiguous bs : forall off, contiguous off bs <-> reoffset off bs = bs.
Proof.
  induction bs as [|b bs IH]; intro off; cbn [contiguous reoffset]; [tauto|].
  rewrite IH. destruct b as [i t o l u]. cbn [bid btpe boff blen bulen]. split.
  - intros [-> ->]. reflexivity.
  - intros [= -> ->]. auto.
Qed.

Lemma contiguous_reoffset bs : forall off, contiguous off (reoffset off bs).
Proof.
  induction bs as [|b bs IH]; intro off; cbn [contiguous reoffset]; [exact I|].
  split; [reflexivity|]. cbn [blen]. apply IH.
Qed.

(* starting the fold from `u32_add a x` keeps the statement closed under the step *)
Lemma fold_checked_sum {A} (f : option N -> A -> option N) (w : A -> N) (s : list A -> N) :
  (forall a x b, f (u32_add a x) b = u32_add a (x + w b)) ->
  s [] = 0 -> (forall b bs, s (b :: bs) = w b + s bs) ->
  forall bs a x, fold_left f bs (u32_add a x) = u32_add a (x + s bs).
Proof.
  intros Hf H0 Hs. induction bs as [|b bs IH]; intros a x; cbn [fold_left].
  - rewrite H0, N.add_0_r. reflexivity.
  - rewrite Hf, IH, Hs, N.add_assoc. reflexivity.
Qed.

Lemma hdr_size_sum bs : hdr_size bs = u32_add COMP_OVERHEAD (sum_entry bs).
Proof.
  unfold hdr_size. change (Some COMP_OVERHEAD) with (u32_add COMP_OVERHEAD 0).
  rewrite (fold_checked_sum _ entry_len sum_entry); [reflexivity| |reflexivity|reflexivity].
  intros a x b. apply u32_add_add.
Qed.

Lemma hdr_pack_size_sum bs :
  hdr_pack_size bs = u32_add (COMP_OVERHEAD + LENGTH_LEN) (total_len bs + sum_entry bs).
Proof.
  unfold hdr_pack_size. change (u32_add COMP_OVERHEAD LENGTH_LEN) with (u32_add (COMP_OVERHEAD + LENGTH_LEN) 0).
  rewrite (fold_checked_sum _ (fun b => blen b + entry_len b) (fun bs => total_len bs + sum_entry bs));
    [reflexivity| |reflexivity|intros; cbn [total_len sum_entry]; lia].
  intros a x b. rewrite N.add_assoc, <- !u32_add_add. destruct (u32_add a x); reflexivity.
Qed.

Lemma hdr_size_fits bs h ps :
  hdr_size bs = Some h -> hdr_pack_size bs = Some ps -> h + LENGTH_LEN <= ps.
Proof.
  rewrite hdr_size_sum, hdr_pack_size_sum. intros Hs Hps. apply u32_add_some in Hs, Hps. lia.
Qed.

Lemma total_len_concat (ds : list bytes) bs :
  Forall2 (fun d b => blen b = N.of_nat (length d)) ds bs -> total_len bs = N.of_nat (length (concat ds)).
Proof.
  induction 1 as [|d b ds bs Hdb _ IH]; [reflexivity|].
  cbn [total_len concat]. rewrite app_length, Nat2N.inj_add, IH, Hdb. reflexivity.
Qed.

Lemma wf_id_repeat c : c < 256 -> wf_id (repeat c id_len).
Proof.
  intro H. split; [apply repeat_length|]. apply Forall_forall. intros x Hx. apply repeat_spec in Hx. subst. exact H.
Qed.

(* hypotheses of the codec theorems are satisfiable: one entry of each of the four kinds *)
Example codec_example :
  let i := repeat 7 32 in
  let bs := [mkblob i Data 0 5 None; mkblob i Tree 5 0 None; mkblob i Data 5 9 (Some 100); mkblob i Tree 14 1 (Some 1)] in
  Forall wf_blob bs /\ total_len bs < U32 /\ contiguous 0 bs /\
  hdr_from_binary (hdr_to_binary bs) = Ok bs /\ hdr_size bs = Some 188 /\ hdr_pack_size bs = Some 207 /\
  hdr_from_binary (hdr_to_binary bs ++ [0]) = Err.
Proof.
  cbv zeta. split.
  - repeat first [apply wf_id_repeat; reflexivity | constructor].
  - split; [reflexivity|]. split; [cbn; repeat split; reflexivity|].
    split; [vm_compute; reflexivity|]. split; [reflexivity|]. split; [reflexivity|vm_compute; reflexivity].
Qed.
