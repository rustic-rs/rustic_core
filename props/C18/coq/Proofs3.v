(* C18 — what is STORED: the cold config file and, for hot/cold repositories, the copy in the hot
   part.  The invariant store_ok ties both files to repo.config(); a save establishes it, and every
   way of re-opening a repository that satisfies it passes open_raw's is_hot check.  The is_hot
   handling (save_config_stmts, save_config_hot_stmts, init_marks_hot_*, open_only_cold_marks_hot)
   is what the extractor found in save_config / save_config_hot / init / open_may_use_hot. *)
From Verif.Base Require Import Tactics.
From Verif.C18 Require Import ModelBase Extracted Model Proofs.
Local Open Scope Z_scope.

Definition stored_field (x : option config) (g : N) : option Z :=
  match x with Some c => c g | None => None end.

(* the stored files agree with repo.config(): the cold file is the config without hot marker, the
   hot copy is the config with the marker; a plain repository has no hot copy and no marker.
   Agreement is field by field: records are functions, and what is saved equals repo.config()
   only pointwise *)
Definition store_ok (hot : bool) (mem : config) (st : store) : Prop :=
  (exists sc, st_cold st = Some sc /\ forall g, sc g = upd mem C_is_hot None g) /\
  (if hot then (exists sh, st_hot st = Some sh /\ forall g, sh g = mem g) /\ mem C_is_hot = Some 1
   else st_hot st = None /\ mem C_is_hot = None).

Lemma upd_ext c1 c2 g v h : (forall x, x <> g -> c1 x = c2 x) -> upd c1 g v h = upd c2 g v h.
Proof. unfold upd. intro H. destruct (N.eqb_spec h g); [reflexivity|auto]. Qed.

Lemma store_ok_cold hot mem st g :
  store_ok hot mem st -> stored_field (st_cold st) g = upd mem C_is_hot None g.
Proof. intros [(sc & -> & P) _]. apply P. Qed.
Lemma store_ok_hot hot mem st g :
  store_ok hot mem st -> stored_field (st_hot st) g = if hot then mem g else None.
Proof. intros [_ H]. destruct hot; [destruct H as [(sh & -> & P) _]; apply P|destruct H as [-> _]; reflexivity]. Qed.

Lemma store_ok_ext hot m1 m2 st : (forall g, m1 g = m2 g) -> store_ok hot m1 st -> store_ok hot m2 st.
Proof.
  intros E [(sc & Ec & Pc) Hh]. split.
  - exists sc. split; [exact Ec|]. intro g. rewrite Pc. apply upd_ext. auto.
  - destruct hot; rewrite <- E; [|exact Hh].
    destruct Hh as [(sh & Eh & Ph) Hm]. split; [|exact Hm].
    exists sh. split; [exact Eh|]. intro g. rewrite Ph. apply E.
Qed.

(* save_config as the source has it now: cold file without marker, hot copy with marker *)
Lemma save_config_spec hot c st :
  save_config hot c st =
  mkstore (Some (upd c C_is_hot None))
          (if hot then Some (upd (upd c C_is_hot None) C_is_hot (Some 1)) else st_hot st).
Proof. destruct hot; reflexivity. Qed.

Lemma save_config_store_ok (hot : bool) (c mem : config) st :
  (forall g, g <> C_is_hot -> c g = mem g) ->
  (if hot then mem C_is_hot = Some 1 else mem C_is_hot = None /\ st_hot st = None) ->
  store_ok hot mem (save_config hot c st).
Proof.
  intros E M. rewrite save_config_spec. split.
  - eexists. split; [reflexivity|]. intro g. apply upd_ext. exact E.
  - destruct hot; [split; [|exact M]|exact (conj (proj2 M) (proj1 M))].
    eexists. split; [reflexivity|]. intro g.
    rewrite upd_upd, <- (upd_id mem _ _ g M). apply upd_ext. exact E.
Qed.

Lemma is_hot_not_targeted : ~ In C_is_hot (map snd (writes apply_steps)).
Proof. vm_compute. intuition discriminate. Qed.
Lemma init_marks_hot_somewhere : init_marks_hot_before_apply || init_marks_hot_after_write = true.
Proof. reflexivity. Qed.

Lemma apply_mut_keeps_is_hot o c : fst (apply_mut o c) C_is_hot = c C_is_hot.
Proof. apply run_steps_untouched. exact is_hot_not_targeted. Qed.

(* init may mark the config hot before `apply`, after the files are written, or both: only that
   one of the two happens matters (init_marks_hot_somewhere) *)
Lemma init_repo_inv hot o id poly st mem :
  init_repo hot o id poly = (st, mem, Done) ->
  exists c, st = save_config hot c empty_store /\ (forall g, g <> C_is_hot -> c g = mem g) /\
            mem C_is_hot = if hot then Some 1 else None.
Proof.
  unfold init_repo. intro H.
  pose proof (apply_mut_keeps_is_hot o (mark_hot (hot && init_marks_hot_before_apply) (new_config id poly))) as K.
  destruct (apply_mut o _) as [c []]; inv H. cbn [fst] in K. exists c.
  pose proof init_marks_hot_somewhere as M.
  revert K M. generalize init_marks_hot_before_apply, init_marks_hot_after_write. intros b1 b2 K M.
  split; [reflexivity|split].
  - intros g Hg. destruct (hot && b2); cbn [mark_hot]; rewrite ?upd_other by exact Hg; reflexivity.
  - destruct hot, b1, b2; try discriminate M; cbn [andb mark_hot] in *; rewrite ?K, ?upd_same; reflexivity.
Qed.

Lemma apply_config_inv hot o mem st st' mem' r :
  apply_config hot o mem st = (st', mem', r) ->
  (r <> RChanged /\ st' = st /\ mem' = mem) \/
  (r = RChanged /\ apply o mem = Some mem' /\ st' = save_config hot mem' st /\ config_eqb mem' mem = false).
Proof.
  unfold apply_config, apply. intro H.
  destruct (_ && _); [|destruct (apply_mut o mem) as [new []]; [destruct (config_eqb new mem) eqn:E|..]];
    inv H; auto; left; repeat split; discriminate.
Qed.

Lemma apply_config_mem_frame : forall hot o mem st st' mem' r g,
  apply_config hot o mem st = (st', mem', r) ->
  (forall f, In (f, g) (writes apply_steps) -> o f = None) -> mem' g = mem g.
Proof.
  intros hot o mem st st' mem' r g H F.
  destruct (apply_config_inv _ _ _ _ _ _ _ H) as [(_ & _ & ->)|(_ & Ha & _)]; [reflexivity|].
  apply apply_Some in Ha. unfold apply_mut in Ha.
  rewrite <- (run_steps_frame o apply_steps mem g apply_steps_all_conditional F), Ha. reflexivity.
Qed.

Lemma apply_configs_invariant (P : config -> store -> Prop) hot :
  (forall o mem st st' mem' r, P mem st -> apply_config hot o mem st = (st', mem', r) -> P mem' st') ->
  forall l mem st st' mem', P mem st -> apply_configs hot l mem st = (st', mem') -> P mem' st'.
Proof.
  intros Step l. induction l as [|o r IH]; intros mem st st' mem' S H; cbn [apply_configs] in H.
  - inv H. exact S.
  - destruct (apply_config hot o mem st) as [[st1 mem1] r1] eqn:E. eauto.
Qed.

Lemma reopen_ok hot mem st h :
  store_ok hot mem st -> (how_has_hot h = true -> hot = true) ->
  exists c, open_config h st = Some c /\ open_raw_ok c (how_has_hot h) = true /\
            forall g, g <> C_is_hot -> c g = mem g.
Proof.
  intros [(sc & Ec & Pc) Hh] Hhow.
  assert (Hsc : sc C_is_hot = None) by (rewrite Pc; apply upd_same).
  destruct h; cbn [open_config how_has_hot] in *.
  - rewrite (Hhow eq_refl) in Hh. destruct Hh as [(sh & Eh & Ph) Hm].
    exists sh. split; [exact Eh|]. split; [unfold open_raw_ok; rewrite Ph, Hm; reflexivity|]. intros g _. apply Ph.
  - exists sc. split; [exact Ec|]. split; [unfold open_raw_ok; rewrite Hsc; reflexivity|].
    intros g Hg. rewrite Pc. apply upd_other. exact Hg.
  - rewrite Ec. eexists. split; [reflexivity|]. unfold open_only_cold_marks_hot. cbn [mark_hot]. split.
    + unfold open_raw_ok. rewrite upd_same. reflexivity.
    + intros g Hg. rewrite upd_other by exact Hg. rewrite Pc. apply upd_other. exact Hg.
Qed.
