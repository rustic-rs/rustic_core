(* C18 — the hypotheses of the property theorems are satisfiable (concrete instances). *)
From Verif.Base Require Import Tactics.
From Verif.C18 Require Import ModelBase Extracted Model Proofs History.
Local Open Scope Z_scope.

Definition ex_opts : opts :=
  mk [(O_set_chunker, CHUNKER_FIXED); (O_set_chunk_size, 8000); (O_set_compression, 3);
      (O_set_datapack_growfactor, 4294967295); (O_set_max_packsize_tolerate_percent, 0)].
Definition stored_field_ex (x : option config) (g : N) : option Z := match x with Some c => c g | None => None end.
Definition ex_stored : config := mk [(C_version, 2); (C_id, 7); (C_chunker_polynomial, 9); (C_extra_verify, 0)].

(* an accepted change; extra_verify and id are not named and stay *)
Example ex_accepted : exists c', apply ex_opts ex_stored = Some c' /\ c' C_extra_verify = Some 0
                                 /\ c' C_compression = Some 3 /\ c' C_id = Some 7.
Proof.
  exists (fst (apply_mut ex_opts ex_stored)).
  split; [apply apply_Some, injective_projections|repeat apply conj]; vm_compute; reflexivity.
Qed.
Example ex_wf : config_wf ex_stored = true /\ opts_wf ex_opts = true /\ config_wf (new_config 7 9) = true.
Proof. repeat apply conj; vm_compute; reflexivity. Qed.
(* frame hypothesis: no option that targets extra_verify is given *)
Example ex_frame_hyp : forall f, In (f, C_extra_verify) (writes apply_steps) -> ex_opts f = None.
Proof. apply none_given_dec. vm_compute. reflexivity. Qed.
(* a refused downgrade; a refused version 3 writes nothing; an effective change writes the one file *)
Example ex_downgrade : apply (mk [(O_set_version, 1)]) ex_stored = None.
Proof. vm_compute. reflexivity. Qed.
Definition ex_store : store := mkstore (Some ex_stored) None.
Example ex_refused_no_write : exists site,
  apply_config false (mk [(O_set_version, 3); (O_set_compression, 5)]) ex_stored ex_store = (ex_store, ex_stored, RRefused site).
Proof. vm_compute. eexists. reflexivity. Qed.
Example ex_changed_one_write : exists w s', apply_config false ex_opts ex_stored ex_store = (mkstore (Some w) None, s', RChanged).
Proof. vm_compute. do 2 eexists. reflexivity. Qed.
(* a hot/cold repository: init, an effective change, a refused one; what both files then store *)
Example ex_hot_history :
  exists st0 mem0 st mem,
    init_repo true ex_opts 7 9 = (st0, mem0, Done) /\
    apply_configs true [mk [(O_set_compression, 7)]; mk [(O_set_version, 1)]] mem0 st0 = (st, mem) /\
    stored_field_ex (st_cold st) C_is_hot = None /\ stored_field_ex (st_hot st) C_is_hot = Some 1 /\
    stored_field_ex (st_cold st) C_compression = Some 7 /\ stored_field_ex (st_hot st) C_compression = Some 7.
Proof.
  (* the witnesses are projections of the two runs, so that every conjunct is a closed term to evaluate *)
  set (i := init_repo true ex_opts 7 9). exists (fst (fst i)), (snd (fst i)).
  set (a := apply_configs _ _ _ _). exists (fst a), (snd a).
  repeat apply conj; vm_compute; reflexivity.
Qed.
(* limits: the formerly panicking percentages now have values *)
Example ex_limits : max_unused_limit false (Percentage 100) 1000 1000 = Some 18446744073709551615 /\
                    max_unused_limit false (Percentage 50) 1000 1000 = Some 1000 /\
                    max_repack_limit (Percentage 18446744073709551615) 1000 1000 = Some 184467440737095516.
Proof. repeat apply conj; vm_compute; reflexivity. Qed.
Example ex_pack_size : pack_size (sizer_of_config (mk [(C_datapack_growfactor, 4294967295)]) true 1000000) = Some MAX_SIZE.
Proof. vm_compute. reflexivity. Qed.
