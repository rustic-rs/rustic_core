(* C18 — well-formedness is preserved by `apply`; accepted configurations construct a
   working chunker; PackSizer and the prune limits never panic. *)
From Verif.Base Require Import Tactics Lists.
From Verif.C18 Require Import ModelBase Extracted Model Proofs.
Local Open Scope Z_scope.
(* the variable lookups of the expression environments have to compute under cbn *)
Local Arguments N.eqb : simpl nomatch.

Lemma in_ty_iff t z : in_ty t z = true <-> ty_min t <= z <= ty_max t.
Proof. unfold in_ty. lia. Qed.
Lemma chk_some t z : in_ty t z = true -> chk t z = Some z.
Proof. unfold chk. intros ->. reflexivity. Qed.
Lemma clamp_range t z : ty_min t <= clamp t z <= ty_max t.
Proof.
  unfold clamp. split; [apply Z.le_max_l|]. apply Z.max_lub; [destruct t; easy|apply Z.le_min_l].
Qed.
Lemma mul_u32_u64 a b : in_ty U32 a = true -> in_ty U32 b = true -> in_ty U64 (a * b) = true.
Proof.
  rewrite !in_ty_iff. cbn [ty_min ty_max]. intros Ha Hb.
  pose proof (Z.mul_nonneg_nonneg a b). pose proof (Z.mul_le_mono_nonneg a 4294967295 b 4294967295). lia.
Qed.
Lemma div_in_u64 a b : 0 <= a <= 18446744073709551615 -> 0 < b -> in_ty U64 (a / b) = true.
Proof.
  intros Ha Hb. unfold in_ty. cbn [ty_min ty_max].
  assert (0 <= a / b) by (apply Z.div_pos; lia).
  assert (a / b <= a) by (apply Z.div_le_upper_bound; nia).
  lia.
Qed.

Definition cwf (c : config) : Prop :=
  (forall g, In g cfields -> field_ok cfield_ty c g = true) /\
  (forall g, In g cfields_required -> c g <> None).
Definition owf (o : opts) : Prop := forall f, In f ofields -> field_ok ofield_ty o f = true.

Lemma config_wf_iff c : config_wf c = true <-> cwf c.
Proof.
  unfold config_wf, cwf. rewrite andb_true_iff, !forallb_forall.
  split; intros [A B]; (split; [exact A|]); intros g Hg; specialize (B g Hg); destruct (c g); congruence.
Qed.
Lemma opts_wf_iff o : opts_wf o = true <-> owf o.
Proof. apply forallb_forall. Qed.

Definition vty_eq_dec (a b : vty) : {a = b} + {a <> b}.
Proof. repeat decide equality. Defined.

(* the value an `apply` statement stores has the type of the field it is stored in *)
Definition set_ty_ok (f g : N) : bool :=
  existsb (N.eqb f) ofields && if vty_eq_dec (ofield_ty f) (cfield_ty g) then true else false.
Definition step_ty_ok (s : step) : bool :=
  match s with
  | SVersion f g _ _ _ _ | SSet f g | SGuardSet f g _ => set_ty_ok f g
  | SSetConv f g t _ => if vty_eq_dec (cfield_ty g) (TInt t) then true else false
  | SCheck _ _ => true
  | SAssign _ _ => false
  end.

Lemma cwf_upd c g v : cwf c -> val_ok (cfield_ty g) v = true -> cwf (upd c g (Some v)).
Proof.
  intros [A B] Hv. split; intros g' Hg'; unfold field_ok, upd; destruct (N.eqb_spec g' g).
  - subst. exact Hv.
  - apply (A g' Hg').
  - discriminate.
  - apply (B g' Hg').
Qed.
Lemma cwf_set o c f g v :
  cwf c -> owf o -> set_ty_ok f g = true -> o f = Some v -> cwf (upd c g (Some v)).
Proof.
  intros Hc Ho H Ev. apply andb_true_iff in H. destruct H as [Hin Hty].
  destruct (vty_eq_dec _ _) as [E|]; [|discriminate]. apply cwf_upd; [exact Hc|]. rewrite <- E.
  apply existsb_Neqb_In, Ho in Hin. unfold field_ok in Hin. rewrite Ev in Hin. exact Hin.
Qed.

Lemma step_wf o s c : cwf c -> owf o -> step_ty_ok s = true -> cwf (fst (step_apply o s c)).
Proof.
  intros Hc Ho Ht.
  destruct s; cbn [step_apply step_ty_ok] in *; try discriminate;
    try (destruct (o f) as [v|] eqn:Eo; [|exact Hc]).
  - repeat destr_if; cbn [fst]; eauto using cwf_set.
  - eauto using cwf_set.
  - destruct (vty_eq_dec _ _) as [E|]; [|discriminate].
    destr_if; cbn [fst]; [apply cwf_upd; [|rewrite E]|]; assumption.
  - destruct (run_checks _ _); cbn [fst]; eauto using cwf_set.
  - destruct (evalc _ _) as [[|]|]; exact Hc.
Qed.

Lemma run_steps_wf o l c : cwf c -> owf o -> forallb step_ty_ok l = true -> cwf (fst (run_steps o l c)).
Proof.
  intros Hc Ho Ht. apply run_steps_invariant; [|exact Hc].
  intros s c' Hs Hc'. apply step_wf; [exact Hc'|exact Ho|]. exact (forallb_In Ht Hs).
Qed.

Lemma apply_steps_typed : forallb step_ty_ok apply_steps = true.
Proof. vm_compute. reflexivity. Qed.

Lemma new_config_wf : forall id poly, config_wf (new_config id poly) = true.
Proof. intros. vm_compute. reflexivity. Qed.

(* a stored integer field, read with its default, is a value of its type *)
Definition int_field (g : N) (t : ty) (d : Z) : bool :=
  existsb (N.eqb g) cfields && if vty_eq_dec (cfield_ty g) (TInt t) then in_ty t d else false.
Lemma getd_in_ty c g t d : cwf c -> int_field g t d = true -> in_ty t (getd c g d) = true.
Proof.
  intros [A _] H. apply andb_true_iff in H. destruct H as [Hg H].
  apply existsb_Neqb_In, A in Hg. unfold field_ok, getd in *.
  destruct (vty_eq_dec _ _) as [Ht|]; [|discriminate]. rewrite Ht in Hg. destruct (c g); assumption.
Qed.

Lemma run_checks_done_head env c e r : run_checks env ((c, e) :: r) = Done -> evalc env c = Some false.
Proof. cbn [run_checks]. destruct (evalc env c) as [[|]|]; congruence. Qed.

(* the first check of check_rabin_params is the power-of-two test *)
Lemma check_rabin_params_positive cs mn mx : check_rabin_params cs mn mx = Done -> 0 < cs.
Proof.
  unfold check_rabin_params, rabin_checks. intro H. apply run_checks_done_head in H.
  change (Some (negb (is_pow2 cs)) = Some false) in H. unfold is_pow2 in H.
  destruct (0 <? cs) eqn:P; [lia|discriminate H].
Qed.

(* what the source says now: `apply` validates the Rabin and the fixed-size parameters, and no
   later statement writes a field these validations read *)
Lemma rabin_check_in_apply :
  exists rest, In (CCmp KEq (EVar V_chunker) (EConst CHUNKER_RABIN), rabin_checks, rest) (checks_in apply_steps)
               /\ env_untouched rest = true.
Proof.
  eexists. split.
  - vm_compute checks_in. repeat first [left; reflexivity | right].
  - vm_compute. reflexivity.
Qed.
Lemma fixed_check_in_apply :
  exists e rest,
    In (CConst true,
        [(CAnd (CCmp KEq (EVar V_chunker) (EConst CHUNKER_FIXED)) (CCmp KEq (EVar V_cs) (EConst 0)), e)],
        rest) (checks_in apply_steps)
    /\ env_untouched rest = true.
Proof.
  do 2 eexists. split.
  - vm_compute checks_in. repeat first [left; reflexivity | right].
  - vm_compute. reflexivity.
Qed.

Lemma accepted_passes_rabin_check o c c' :
  apply o c = Some c' -> cfg_chunker c' = CHUNKER_RABIN ->
  check_rabin_params (cfg_chunk_size c') (cfg_chunk_min_size c') (cfg_chunk_max_size c') = Done.
Proof.
  intros Ha Ec. apply apply_Some in Ha. apply Z.eqb_eq in Ec.
  destruct rabin_check_in_apply as (rest & Hin & Hu).
  (* check_rabin_params runs the checks of the validation block, and reads the same three values *)
  change (run_checks (cfg_env c' 0) rabin_checks = Done).
  exact (run_steps_checks_hold _ _ _ _ Ha _ _ _ Hin Hu (f_equal Some Ec)).
Qed.

Lemma accepted_fixed_size_nonzero o c c' :
  apply o c = Some c' -> cfg_chunker c' = CHUNKER_FIXED -> cfg_chunk_size c' <> 0.
Proof.
  intros Ha Ec. apply apply_Some in Ha. apply Z.eqb_eq in Ec.
  destruct fixed_check_in_apply as (e & rest & Hin & Hu).
  pose proof (run_steps_checks_hold _ _ _ _ Ha _ _ _ Hin Hu eq_refl) as H.
  apply run_checks_done_head in H.
  change (match Some (cfg_chunker c' =? CHUNKER_FIXED) with
          | Some true => Some (cfg_chunk_size c' =? 0) | r => r end = Some false) in H.
  rewrite Ec in H. injection H as H. lia.
Qed.

Lemma accepted_chunker_ok o c c' :
  cwf c' -> apply o c = Some c' -> chunker_new c' = Done /\ chunker_progress c' = true.
Proof.
  intros Hwf Ha.
  assert (Hcs : in_ty U64 (cfg_chunk_size c') = true)
    by (apply getd_in_ty; [exact Hwf|vm_compute; reflexivity]).
  apply in_ty_iff in Hcs. cbn [ty_min ty_max] in Hcs.
  split.
  - unfold chunker_new. destruct (Z.eqb_spec (cfg_chunker c') CHUNKER_RABIN) as [Ec|]; [|reflexivity].
    pose proof (accepted_passes_rabin_check o c c' Ha Ec) as H. rewrite H.
    apply check_rabin_params_positive in H.
    rewrite chk_some; [reflexivity|]. apply in_ty_iff. cbn [ty_min ty_max]. lia.
  - unfold chunker_progress. destruct (Z.eqb_spec (cfg_chunker c') CHUNKER_FIXED) as [Ec|]; [|reflexivity].
    pose proof (accepted_fixed_size_nonzero o c c' Ha Ec). lia.
Qed.

Definition sizer_wf (s : sizer) : Prop :=
  in_ty U32 (ps_default s) = true /\ in_ty U32 (ps_limit s) = true /\
  in_ty U32 (ps_minp s) = true /\ in_ty U32 (ps_maxp s) = true.

(* saturating arithmetic only: pack_size has a value whatever the fields are *)
Lemma pack_size_eq s :
  pack_size s =
  Some (Z.min (Z.min (if ps_grow s =? 0 then ps_default s
                      else clamp U32 (clamp U32 (wrap U32 (Z.sqrt (ps_current s)) * ps_grow s) + ps_default s))
                     (ps_limit s)) MAX_SIZE).
Proof.
  unfold pack_size. change (evalc (sizer_env s 0 0) pack_size_cond) with (Some (ps_grow s =? 0)).
  destruct (ps_grow s =? 0); reflexivity.
Qed.

Lemma pack_size_total s : sizer_wf s -> exists t, pack_size s = Some t /\ 0 <= t <= MAX_SIZE.
Proof.
  intros (Hd & Hl & _). apply in_ty_iff in Hd, Hl. cbn [ty_min ty_max] in *.
  rewrite pack_size_eq. eexists. split; [reflexivity|].
  set (x := if ps_grow s =? 0 then ps_default s else _).
  assert (0 <= x) by (subst x; destruct (ps_grow s =? 0); [lia|apply (clamp_range U32)]).
  unfold MAX_SIZE. lia.
Qed.

Lemma sizer_total s size : sizer_wf s -> in_ty U32 size = true ->
  pack_size s <> None /\ is_too_small s size <> None /\ is_too_large s size <> None.
Proof.
  intros W Hs. destruct (pack_size_total s W) as (t & Ep & Ht).
  destruct W as (_ & _ & Hmin & Hmax).
  assert (Hu : in_ty U32 t = true) by (apply in_ty_iff; unfold MAX_SIZE in Ht; cbn [ty_min ty_max]; lia).
  unfold is_too_small, is_too_large, is_too_small_cond, is_too_large_cond. rewrite Ep.
  (* size * 100 and target * percentage are products of two u32 values *)
  repeat apply conj; [discriminate|..]; cbn;
    rewrite !chk_some by (apply mul_u32_u64; assumption || reflexivity); discriminate.
Qed.

Lemma sizer_of_config_wf c data cur : cwf c -> sizer_wf (sizer_of_config c data cur).
Proof.
  intro H. unfold sizer_wf, sizer_of_config. cbn [ps_default ps_limit ps_minp ps_maxp].
  repeat apply conj; [destruct data|destruct data|..];
    try (apply getd_in_ty; [exact H|vm_compute; reflexivity]).
  destruct H as [A _]. specialize (A C_max_packsize_tolerate_percent). unfold field_ok in A.
  destruct (c C_max_packsize_tolerate_percent) as [p|]; [|reflexivity].
  destruct (p =? 0); [reflexivity|]. apply A, existsb_Neqb_In. vm_compute. reflexivity.
Qed.

(* max_unused saturates p * used and divides by 100 - p only for p < 100 *)
Lemma max_unused_total flag l used unused : limit_wf l = true -> max_unused_limit flag l used unused <> None.
Proof.
  intro Hl. apply in_ty_iff in Hl. cbn [ty_min ty_max] in Hl.
  unfold max_unused_limit, max_unused_arms.
  destruct flag, l as [|n|p]; cbn; try discriminate.
  cbn [lim_val] in Hl. destruct (100 <=? p) eqn:P; cbn; [discriminate|].
  rewrite chk_some by (apply in_ty_iff; cbn [ty_min ty_max]; lia). cbn.
  replace (100 - p =? 0) with false by lia.
  rewrite chk_some; [discriminate|]. apply div_in_u64; [apply (clamp_range U64)|lia].
Qed.

(* max_repack adds used and unused unsaturated, then saturates p * total *)
Lemma max_repack_total l used unused :
  0 <= used + unused <= ty_max U64 -> max_repack_limit l used unused <> None.
Proof.
  intro H. unfold max_repack_limit, max_repack_arms.
  destruct l as [|n|p]; cbn; try discriminate.
  rewrite chk_some by (apply in_ty_iff; exact H). cbn.
  rewrite chk_some; [discriminate|]. apply div_in_u64; [apply (clamp_range U64)|lia].
Qed.
