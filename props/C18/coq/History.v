(* C18 — the statement list / expressions as they were extracted from the source BEFORE the
   `fix:` commits in the repository (545ab5c, ea7e84b, a9be95e, adb9212, 79849c1), kept verbatim
   as hand-maintained history, and the witnesses that refute the property on them (#n = row n of
   DESIGN.md section 7).  Each witness was replayed on the real code before the fix (see NOTES.md). *)
From Verif.Base Require Import Tactics Lists.
From Verif.C18 Require Import ModelBase Extracted Model Proofs.
Local Open Scope Z_scope.

Definition rabin_checks_0 : list (cond * N) :=
  [((CCmp KNe (EBin OBitAnd U64 (EVar V_cs) (EBin OSub U64 (EVar V_cs) (EConst (1)))) (EConst (0))), 0%N); ((CCmp KGt (EVar V_min) (EVar V_cs)), 1%N); ((CCmp KLt (EVar V_max) (EVar V_cs)), 2%N)].

Definition apply_steps_0 : list step :=
  [ SVersion O_set_version C_version (1) (2) 4%N 5%N;
    SSet O_set_chunker C_chunker;
    SSetConv O_set_chunk_size C_chunk_size U64 3%N;
    SSetConv O_set_chunk_min_size C_chunk_min_size U64 3%N;
    SSetConv O_set_chunk_max_size C_chunk_max_size U64 3%N;
    SCheck (CCmp KEq (EVar V_chunker) (EConst (0))) rabin_checks_0;
    SGuardSet O_set_compression C_compression [((CAnd (CCmp KEq (EVar V_version) (EConst (1))) (CCmp KNe (EVar V_x) (EConst (0)))), 6%N); ((CNot (CAnd (CCmp KLe (EConst ZSTD_MIN) (EVar V_x)) (CCmp KLe (EVar V_x) (EConst ZSTD_MAX)))), 7%N)];
    SSet O_set_append_only C_append_only;
    SSetConv O_set_treepack_size C_treepack_size U32 3%N;
    SSet O_set_treepack_growfactor C_treepack_growfactor;
    SSetConv O_set_treepack_size_limit C_treepack_size_limit U32 3%N;
    SSetConv O_set_datapack_size C_datapack_size U32 3%N;
    SSet O_set_datapack_growfactor C_datapack_growfactor;
    SSetConv O_set_datapack_size_limit C_datapack_size_limit U32 3%N;
    SGuardSet O_set_min_packsize_tolerate_percent C_min_packsize_tolerate_percent [((CCmp KGt (EVar V_x) (EConst (100))), 8%N)];
    SGuardSet O_set_max_packsize_tolerate_percent C_max_packsize_tolerate_percent [((CAnd (CCmp KLt (EVar V_x) (EConst (100))) (CCmp KGt (EVar V_x) (EConst (0)))), 9%N)];
    SAssign O_set_extra_verify C_extra_verify ].

Definition pack_size_else_0 : expr := (EBin OAdd U32 (EBin OMul U32 (ECast U32 (EIsqrt (EVar V_current))) (EVar V_grow)) (EVar V_default)).

Definition max_unused_arms_0 : list arm :=
  [ mkarm (Some true) None (CConst true) (EConst (0));
    mkarm (Some false) (Some LUnlimited) (CConst true) (EConst (18446744073709551615));
    mkarm (Some false) (Some LSize) (CConst true) (EVar V_p);
    mkarm (Some false) (Some LPercentage) (CConst true) (EBin ODiv U64 (EBin OMul U64 (EVar V_p) (EVar V_used)) (EBin OSub U64 (EConst (100)) (EVar V_p))) ].

Definition max_repack_arms_0 : list arm :=
  [ mkarm None (Some LUnlimited) (CConst true) (EConst (18446744073709551615));
    mkarm None (Some LSize) (CConst true) (EVar V_p);
    mkarm None (Some LPercentage) (CConst true) (EBin ODiv U64 (EBin OMul U64 (EVar V_p) (EBin OAdd U64 (EVar V_used) (EVar V_unused))) (EConst (100))) ].

Definition mk (l : list (N * Z)) : N -> option Z :=
  fun g => match find (fun p => N.eqb (fst p) g) l with Some p => Some (snd p) | None => None end.

(* "no option that targets g is given", for concrete o and w, is decided by evaluation *)
Lemma none_given_dec (o : opts) (w : list (N * N)) g :
  forallb (fun p => negb (N.eqb (snd p) g) || opt_eqb (o (fst p)) None) w = true ->
  forall f, In (f, g) w -> o f = None.
Proof.
  intros H f Hin. apply (forallb_In H) in Hin. cbn [fst snd] in Hin.
  rewrite N.eqb_refl in Hin. destruct (opt_eqb_spec (o f) None); [assumption|discriminate Hin].
Qed.

(* #3: a change naming only the compression level erased a stored extra_verify = Some(false) *)
Lemma apply_frame_refuted_before_fix :
  exists o c c' g,
    run_steps o apply_steps_0 c = (c', Done) /\
    (forall f, In (f, g) (writes apply_steps_0) -> o f = None) /\
    c' g <> c g.
Proof.
  exists (mk [(O_set_compression, 3)]), (mk [(C_version, 2); (C_extra_verify, 0)]).
  eexists. exists C_extra_verify. split; [vm_compute; reflexivity|]. split.
  - apply none_given_dec. vm_compute. reflexivity.
  - vm_compute. discriminate.
Qed.

(* #5: chunk size 0 made check_rabin_params compute 0 - 1 in usize *)
Lemma rabin_zero_panics_before_fix : run_checks (rabin_env 0 0 0) rabin_checks_0 = Panic.
Proof. vm_compute. reflexivity. Qed.
Lemma init_chunk_size_zero_panics_before_fix :
  snd (run_steps (mk [(O_set_chunk_size, 0)]) apply_steps_0 (new_config 7 9)) = Panic.
Proof. vm_compute. reflexivity. Qed.

(* #13: fixed-size chunker with chunk size 0 was accepted; the chunker then yields no chunk *)
Lemma fixed_size_zero_accepted_before_fix :
  let r := run_steps (mk [(O_set_chunker, CHUNKER_FIXED); (O_set_chunk_size, 0)]) apply_steps_0 (new_config 7 9) in
  snd r = Done /\ chunker_progress (fst r) = false.
Proof. split; vm_compute; reflexivity. Qed.

(* #14: grow factor u32::MAX was accepted; isqrt(current) * grow overflowed u32 *)
Lemma pack_size_overflow_before_fix :
  let r := run_steps (mk [(O_set_datapack_growfactor, 4294967295)]) apply_steps_0 (new_config 7 9) in
  snd r = Done /\
  eval (sizer_env (sizer_of_config (fst r) true 1000000) 0 0) pack_size_else_0 = None.
Proof. split; vm_compute; reflexivity. Qed.

(* #4: max_unused 100% divided by zero, 150% underflowed, huge percentages overflowed p * used / p * total *)
Lemma limits_panic_before_fix :
  eval_arms max_unused_arms_0 false (Percentage 100) 1000 1000 = None /\
    eval_arms max_unused_arms_0 false (Percentage 150) 1000 1000 = None /\
    eval_arms max_unused_arms_0 false (Percentage 99) 18446744073709551615 0 = None /\
    eval_arms max_repack_arms_0 false (Percentage 18446744073709551615) 1000 1000 = None.
Proof. repeat apply conj; vm_compute; reflexivity. Qed.

(* repaired by the C06 fix (check_rabin_params rejects chunk_min_size < MIN_CHUNK_MIN_SIZE = BUF_SIZE):
   a Rabin minimum size below the read-buffer leftover underflowed `min_size -= open_buf_len`, below 64
   the prefill slice was out of range; such parameters are now refused *)
Lemma rabin_small_min_now_refused :
  let o := mk [(O_set_chunk_size, 1024); (O_set_chunk_min_size, 10); (O_set_chunk_max_size, 2048)] in
  opts_wf o = true /\ snd (apply_mut o (new_config 7 9)) <> Done /\
  rabin_next_arith 10 (BUF_SIZE - 1) 10 = None.
Proof. intro o. repeat apply conj; vm_compute; congruence. Qed.
