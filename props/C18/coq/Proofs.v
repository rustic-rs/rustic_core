(* C18 — ConfigOptions::apply as a run over an arbitrary statement list: which fields a run keeps,
   which it sets, when it cannot panic, and which validation blocks hold of its result.  The
   list stays a variable; what these lemmas ask of it (no unconditional assignment, distinct
   targets, ...) is decided for apply_steps by evaluation at the end of the file. *)
From Verif.Base Require Import Tactics Lists.
From Verif.C18 Require Import ModelBase Extracted Model.
Local Open Scope Z_scope.

Lemma upd_same c g v : upd c g v g = v.
Proof. unfold upd. rewrite N.eqb_refl. reflexivity. Qed.
Lemma upd_other c g0 v g : g <> g0 -> upd c g0 v g = c g.
Proof. unfold upd. intro H. destruct (N.eqb_spec g g0); congruence. Qed.
Lemma upd_upd c g v w h : upd (upd c g v) g w h = upd c g w h.
Proof. unfold upd. destruct (N.eqb h g); reflexivity. Qed.
Lemma upd_id c g v h : c g = v -> upd c g v h = c h.
Proof. unfold upd. intro H. destruct (N.eqb_spec h g); [subst; auto|reflexivity]. Qed.

Lemma opt_eqb_spec a b : reflect (a = b) (opt_eqb a b).
Proof.
  destruct a as [x|], b as [y|]; cbn [opt_eqb]; try (constructor; congruence).
  destruct (Z.eqb_spec x y); constructor; congruence.
Qed.

Lemma apply_Some o c c' : apply o c = Some c' <-> apply_mut o c = (c', Done).
Proof. unfold apply. destruct (apply_mut o c) as [c1 []]; split; intro H; inv H; reflexivity. Qed.

Lemma in_writes l s p : In s l -> In p (step_writes s) -> In p (writes l).
Proof. intros. apply in_flat_map. eauto. Qed.

Lemma run_steps_cons o s r c :
  run_steps o (s :: r) c =
  match step_apply o s c with (c', Done) => run_steps o r c' | (c', res) => (c', res) end.
Proof. reflexivity. Qed.

Lemma run_steps_invariant (P : config -> Prop) o l :
  (forall s c, In s l -> P c -> P (fst (step_apply o s c))) ->
  forall c, P c -> P (fst (run_steps o l c)).
Proof.
  induction l as [|s r IH]; intros H c Hc; [exact Hc|].
  rewrite run_steps_cons. pose proof (H s c (or_introl eq_refl) Hc) as H1.
  destruct (step_apply o s c) as [c1 []]; cbn [fst] in *; try exact H1.
  apply IH; [|exact H1]. intros s' c' Hs'. apply H. right. exact Hs'.
Qed.

Lemma step_keeps o s c g :
  (forall f, In (f, g) (step_writes s) -> is_uncond s = false /\ o f = None) ->
  fst (step_apply o s c) g = c g.
Proof.
  intro H.
  (* a statement that targets g has its option absent and does nothing; any other writes,
     if at all, a field g0 <> g *)
  destruct s; cbn [step_apply step_writes is_uncond] in *;
    try (destruct (N.eqb_spec g g0) as [->|Hg];
         [destruct (H f (or_introl eq_refl)) as [U ->]; first [discriminate U | reflexivity]|]);
    try destruct (o f); repeat destr_if; cbn [fst]; rewrite ?upd_other by exact Hg; try reflexivity.
  - destruct (run_checks _ _); cbn [fst]; rewrite ?upd_other by exact Hg; reflexivity.
  - destruct (evalc _ _) as [[|]|]; reflexivity.
Qed.

Lemma run_steps_keeps o l c g :
  (forall s f, In s l -> In (f, g) (step_writes s) -> is_uncond s = false /\ o f = None) ->
  fst (run_steps o l c) g = c g.
Proof.
  intro H. apply (run_steps_invariant (fun c' => c' g = c g)); [|reflexivity].
  intros s c' Hs E. rewrite step_keeps; [exact E|]. intro f. apply H. exact Hs.
Qed.

Lemma run_steps_untouched o l c g :
  ~ In g (map snd (writes l)) -> fst (run_steps o l c) g = c g.
Proof.
  intro H. apply run_steps_keeps. intros s f Hs Hf. destruct H.
  apply (in_map snd _ (f, g)). eapply in_writes; eassumption.
Qed.

Lemma run_steps_frame o l c g :
  existsb is_uncond l = false -> (forall f, In (f, g) (writes l) -> o f = None) ->
  fst (run_steps o l c) g = c g.
Proof.
  intros U H. apply run_steps_keeps. intros s f Hs Hf.
  split; [|apply H; eapply in_writes; eassumption].
  destruct (is_uncond s) eqn:E; [|reflexivity].
  rewrite <- U. symmetry. apply existsb_exists. eauto.
Qed.

Lemma step_sets o s c c1 f g v :
  step_apply o s c = (c1, Done) -> In (f, g) (step_writes s) -> o f = Some v -> c1 g = Some v.
Proof.
  intros Hs Hin Ho.
  destruct s; cbn [step_writes In] in Hin; try contradiction; destruct Hin as [[= <- <-]|[]];
    cbn [step_apply] in Hs; rewrite Ho in Hs;
    repeat destr_if; try destruct (run_checks _ _); inv Hs; apply upd_same.
Qed.

(* with pairwise distinct targets, the statement that sets g is the last to touch it *)
Lemma run_steps_sets o l : forall c c' f g v,
  run_steps o l c = (c', Done) -> NoDup (map snd (writes l)) ->
  In (f, g) (writes l) -> o f = Some v -> c' g = Some v.
Proof.
  induction l as [|s r IH]; intros c c' f g v Hr Hnd Hin Ho; [destruct Hin|].
  rewrite run_steps_cons in Hr. unfold writes in Hnd, Hin. cbn [flat_map] in Hnd, Hin.
  rewrite map_app in Hnd. apply NoDup_app_iff in Hnd as (_ & Hnd & Hdisj).
  destruct (step_apply o s c) as [c1 []] eqn:Es; try discriminate Hr.
  apply in_app_or in Hin. destruct Hin as [Hin|Hin]; [|eapply IH; eassumption].
  rewrite <- (step_sets _ _ _ _ _ _ _ Es Hin Ho), <- (run_steps_untouched o r c1 g), Hr; [reflexivity|].
  apply Hdisj. apply (in_map snd _ (f, g)). exact Hin.
Qed.

Lemma run_steps_version o f g lo hi e1 e2 rest c c' v :
  run_steps o (SVersion f g lo hi e1 e2 :: rest) c = (c', Done) -> o f = Some v ->
  lo <= v <= hi /\ getd c g 0 <= v.
Proof.
  cbn [run_steps step_apply]. intros H Ho. rewrite Ho in H.
  destruct (negb _) eqn:R; [discriminate H|]. destruct (v <? _) eqn:L; [discriminate H|]. lia.
Qed.

(* Syntactic criterion: an expression without checked + - * / always has a value. *)
Fixpoint expr_total (e : expr) : bool :=
  match e with
  | EVar _ | EConst _ => true
  | EBin op _ a b =>
      match op with OAdd | OSub | OMul | ODiv => false | _ => expr_total a && expr_total b end
  | ECast _ a | EIsqrt a => expr_total a
  end.
Fixpoint cond_total (c : cond) : bool :=
  match c with
  | CCmp _ a b => expr_total a && expr_total b
  | CAnd a b | COr a b => cond_total a && cond_total b
  | CNot a => cond_total a
  | CPow2 a => expr_total a
  | CConst _ => true
  end.
Definition checks_total (l : list (cond * N)) : bool := forallb (fun p => cond_total (fst p)) l.
Definition step_total (s : step) : bool :=
  match s with
  | SGuardSet _ _ checks => checks_total checks
  | SCheck pre checks => cond_total pre && checks_total checks
  | _ => true
  end.

Lemma expr_total_eval env e : expr_total e = true -> exists v, eval env e = Some v.
Proof.
  induction e as [x|z|op t a IHa b IHb|t a IHa|a IHa]; cbn [expr_total eval]; intro H; eauto.
  - destruct op; try discriminate; apply andb_true_iff in H; destruct H as [Ha Hb];
      destruct (IHa Ha) as [va ->]; destruct (IHb Hb) as [vb ->]; cbn [eval_bin]; eauto.
  - destruct (IHa H) as [v ->]. eauto.
  - destruct (IHa H) as [v ->]. eauto.
Qed.
Lemma cond_total_eval env c : cond_total c = true -> exists b, evalc env c = Some b.
Proof.
  induction c as [op a b|a IHa b IHb|a IHa b IHb|a IHa|a|b]; cbn [cond_total evalc]; intro H;
    try (apply andb_true_iff in H; destruct H as [Ha Hb]).
  - destruct (expr_total_eval env a Ha) as [va ->]. destruct (expr_total_eval env b Hb) as [vb ->]. eauto.
  - destruct (IHa Ha) as [[|] ->]; eauto.
  - destruct (IHa Ha) as [[|] ->]; eauto.
  - destruct (IHa H) as [x ->]. eauto.
  - destruct (expr_total_eval env a H) as [v ->]. eauto.
  - eauto.
Qed.
Lemma checks_total_run env l : checks_total l = true -> run_checks env l <> Panic.
Proof.
  induction l as [|[c e] r IH]; cbn [checks_total forallb run_checks fst]; intro H; [discriminate|].
  apply andb_true_iff in H. destruct H as [Hc Hr].
  destruct (cond_total_eval env c Hc) as [[|] ->]; [discriminate|]. apply IH. exact Hr.
Qed.
Lemma step_total_no_panic o s c : step_total s = true -> snd (step_apply o s c) <> Panic.
Proof.
  intro H. destruct s; cbn [step_apply step_total] in *;
    try (destruct (o f) as [v|]; [|cbn; discriminate]); repeat destr_if; cbn [snd]; try discriminate.
  - pose proof (checks_total_run (cfg_env c v) checks H) as P.
    destruct (run_checks (cfg_env c v) checks); cbn [snd]; congruence.
  - apply andb_true_iff in H. destruct H as [Hp Hc].
    destruct (cond_total_eval (cfg_env c 0) pre Hp) as [[|] ->]; cbn [snd]; [|discriminate].
    apply checks_total_run. exact Hc.
Qed.
Lemma run_steps_no_panic o l : forall c, forallb step_total l = true -> snd (run_steps o l c) <> Panic.
Proof.
  induction l as [|s r IH]; intros c H; [cbn; discriminate|].
  cbn [forallb] in H. apply andb_true_iff in H. destruct H as [Hs Hr].
  rewrite run_steps_cons. pose proof (step_total_no_panic o s c Hs) as P.
  destruct (step_apply o s c) as [c1 []]; cbn [snd] in *; try exact P. apply IH. exact Hr.
Qed.

Lemma eval_ext e1 e2 e : (forall v, e1 v = e2 v) -> eval e1 e = eval e2 e.
Proof.
  intro H. induction e as [x|z|op t a IHa b IHb|t a IHa|a IHa]; cbn [eval];
    rewrite ?H, ?IHa, ?IHb; reflexivity.
Qed.
Lemma evalc_ext e1 e2 c : (forall v, e1 v = e2 v) -> evalc e1 c = evalc e2 c.
Proof.
  intro H. induction c as [op a b|a IHa b IHb|a IHa b IHb|a IHa|a|b]; cbn [evalc];
    rewrite ?(eval_ext e1 e2 _ H), ?IHa, ?IHb; reflexivity.
Qed.
Lemma run_checks_ext e1 e2 l : (forall v, e1 v = e2 v) -> run_checks e1 l = run_checks e2 l.
Proof.
  intro H. induction l as [|[c e] r IH]; [reflexivity|]. cbn [run_checks].
  rewrite (evalc_ext e1 e2 c H), IH. reflexivity.
Qed.

(* the configuration fields the conditions of `apply` read (through cfg_env) *)
Definition env_fields : list N := [C_version; C_chunker; C_chunk_size; C_chunk_min_size; C_chunk_max_size].
Lemma cfg_env_agree c1 c2 x : (forall g, In g env_fields -> c1 g = c2 g) -> cfg_env c1 x = cfg_env c2 x.
Proof.
  intro H. unfold cfg_env, cfg_version, cfg_chunker, cfg_chunk_size, cfg_chunk_min_size, cfg_chunk_max_size, getd.
  rewrite !H by (unfold env_fields; cbn [In]; auto 10). reflexivity.
Qed.

Fixpoint checks_in (l : list step) : list (cond * list (cond * N) * list step) :=
  match l with
  | [] => []
  | SCheck pre checks :: r => (pre, checks, r) :: checks_in r
  | _ :: r => checks_in r
  end.
Definition env_untouched (rest : list step) : bool :=
  forallb (fun g => negb (existsb (N.eqb g) (map snd (writes rest)))) env_fields.

Lemma env_untouched_agree o rest c :
  env_untouched rest = true -> forall g, In g env_fields -> fst (run_steps o rest c) g = c g.
Proof.
  intros H g Hg. apply run_steps_untouched. intro X. apply existsb_Neqb_In in X.
  apply (forallb_In H) in Hg. rewrite X in Hg. discriminate Hg.
Qed.

(* a validation block `if pre { checks }` of an accepted run still succeeds on the result when
   no later statement writes a field its conditions read *)
Lemma run_steps_checks_hold o l : forall c c',
  run_steps o l c = (c', Done) ->
  forall pre checks rest, In (pre, checks, rest) (checks_in l) -> env_untouched rest = true ->
  evalc (cfg_env c' 0) pre = Some true -> run_checks (cfg_env c' 0) checks = Done.
Proof.
  induction l as [|s r IH]; intros c c' Hr pre checks rest Hin Hu; [destruct Hin|].
  rewrite run_steps_cons in Hr.
  destruct (step_apply o s c) as [c1 []] eqn:Es; try discriminate Hr.
  destruct s; cbn [checks_in] in Hin; try (eapply IH; eassumption).
  destruct Hin as [[= <- <- <-]|Hin]; [|eapply IH; eassumption].
  rewrite (cfg_env_agree c' c1 0).
  - cbn [step_apply] in Es. destruct (evalc (cfg_env c 0) pre0) as [[|]|] eqn:Ep; inv Es; congruence.
  - intros g Hg. rewrite <- (env_untouched_agree o r c1 Hu g Hg), Hr. reflexivity.
Qed.

Lemma apply_steps_all_conditional : existsb is_uncond apply_steps = false.
Proof. vm_compute. reflexivity. Qed.

Lemma apply_steps_targets_distinct : NoDup (map snd (writes apply_steps)).
Proof.
  assert (E : nodup N.eq_dec (map snd (writes apply_steps)) = map snd (writes apply_steps))
    by (vm_compute; reflexivity).
  rewrite <- E. apply NoDup_nodup.
Qed.

Lemma apply_steps_total : forallb step_total apply_steps = true.
Proof. vm_compute. reflexivity. Qed.
Lemma rabin_checks_total : checks_total rabin_checks = true.
Proof. vm_compute. reflexivity. Qed.
