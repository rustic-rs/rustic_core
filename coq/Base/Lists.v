(* List facts that the standard library lacks and that several properties use. *)
From Verif.Base Require Import Tactics.

Lemma forallb_In {A} {f : A -> bool} {l x} : forallb f l = true -> In x l -> f x = true.
Proof. intro H. exact (proj1 (forallb_forall f l) H x). Qed.

Lemma existsb_eqb_In {A} (eqb : A -> A -> bool) (eqb_eq : forall a b, eqb a b = true <-> a = b) x l :
  existsb (eqb x) l = true <-> In x l.
Proof.
  rewrite existsb_exists. split.
  - intros (y & Hy & E). apply eqb_eq in E. subst y. exact Hy.
  - intro H. exists x. split; [exact H | apply eqb_eq; reflexivity].
Qed.

Lemma existsb_Neqb_In x l : existsb (N.eqb x) l = true <-> In x l.
Proof. exact (existsb_eqb_In N.eqb N.eqb_eq x l). Qed.

Lemma existsb_Nateqb_In x l : existsb (Nat.eqb x) l = true <-> In x l.
Proof. exact (existsb_eqb_In Nat.eqb Nat.eqb_eq x l). Qed.

Lemma filter_const {A} (f : A -> bool) (b : bool) l :
  (forall x, In x l -> f x = b) -> filter f l = if b then l else [].
Proof.
  induction l as [|a l IH]; intro H; cbn [filter]; [destruct b; reflexivity|].
  rewrite (H a) by (left; reflexivity). rewrite IH by (intros x Hx; apply H; right; exact Hx).
  destruct b; reflexivity.
Qed.

Lemma filter_flat_map {A B} (f : B -> bool) (h : A -> list B) l :
  filter f (flat_map h l) = flat_map (fun x => filter f (h x)) l.
Proof. induction l as [|a l IH]; [reflexivity|]. cbn [flat_map]. rewrite filter_app, IH. reflexivity. Qed.

Lemma map_flat_map {A B C} (f : B -> C) (h : A -> list B) l :
  map f (flat_map h l) = flat_map (fun x => map f (h x)) l.
Proof. induction l as [|a l IH]; [reflexivity|]. cbn [flat_map]. rewrite map_app, IH. reflexivity. Qed.

Lemma flat_map_nil_iff {A B} (f : A -> list B) l : flat_map f l = [] <-> forall a, In a l -> f a = [].
Proof.
  induction l as [|x l IH]; cbn [flat_map]; [split; [intros _ a [] | reflexivity]|]. split.
  - intros H a Ha. apply app_eq_nil in H as [Hx Hl]. destruct Ha as [<-|Ha]; [exact Hx | exact (proj1 IH Hl a Ha)].
  - intro H. rewrite (H x (or_introl eq_refl)). apply IH. intros a Ha. apply H. right. exact Ha.
Qed.

Lemma Permutation_filter {A} (f : A -> bool) l l' : Permutation l l' -> Permutation (filter f l) (filter f l').
Proof.
  induction 1; cbn [filter].
  - constructor.
  - destruct (f x); [apply perm_skip|]; assumption.
  - destruct (f x), (f y); try apply Permutation_refl. apply perm_swap.
  - eapply perm_trans; eassumption.
Qed.

Lemma NoDup_app_iff {A} (a b : list A) :
  NoDup (a ++ b) <-> NoDup a /\ NoDup b /\ forall x, In x a -> ~ In x b.
Proof.
  induction a as [|y a IH]; cbn [app].
  - split; [intro H; repeat split; [constructor | exact H | intros x []] | intros (_ & H & _); exact H].
  - rewrite !NoDup_cons_iff, IH, in_app_iff. split.
    + intros (Hy & Ha & Hb & D). repeat split; [tauto | exact Ha | exact Hb |].
      intros x [<-|Hx]; [tauto | exact (D x Hx)].
    + intros ((Hy & Ha) & Hb & D). repeat split; [|exact Ha | exact Hb | intros x Hx; apply D; right; exact Hx].
      intros [H|H]; [exact (Hy H) | exact (D y (or_introl eq_refl) H)].
Qed.

Lemma NoDup_map_inj {A B} (f : A -> B) (l : list A) a b :
  NoDup (map f l) -> In a l -> In b l -> f a = f b -> a = b.
Proof.
  induction l as [|x l IH]; intros ND Ha Hb E; [contradiction|].
  cbn [map] in ND. apply NoDup_cons_iff in ND as [Hx ND]. destruct Ha as [->|Ha], Hb as [->|Hb].
  - reflexivity.
  - exfalso. apply Hx. rewrite E. apply in_map. exact Hb.
  - exfalso. apply Hx. rewrite <- E. apply in_map. exact Ha.
  - apply IH; assumption.
Qed.

Lemma NoDup_map_filter {A B} (f : A -> B) (p : A -> bool) l : NoDup (map f l) -> NoDup (map f (filter p l)).
Proof.
  induction l as [|a l IH]; intro H; [constructor|].
  cbn [map filter] in *. apply NoDup_cons_iff in H as [Hn ND]. destruct (p a); [|apply IH; exact ND].
  cbn [map]. constructor; [|apply IH; exact ND]. intro Hin. apply Hn.
  apply in_map_iff in Hin as (x & E & Hx). apply filter_In in Hx. rewrite <- E. apply in_map, Hx.
Qed.

Lemma firstn_app_exact {A} (a b : list A) n : length a = n -> firstn n (a ++ b) = a.
Proof. intros <-. rewrite firstn_app, Nat.sub_diag, firstn_all. apply app_nil_r. Qed.

Lemma skipn_app_exact {A} (a b : list A) n : length a = n -> skipn n (a ++ b) = b.
Proof. intros <-. rewrite skipn_app, Nat.sub_diag, skipn_all. reflexivity. Qed.

Lemma skipn_skipn {A} : forall x y (l : list A), skipn x (skipn y l) = skipn (x + y) l.
Proof.
  intros x y. revert x. induction y as [|y IH]; intros x l; [rewrite Nat.add_0_r; reflexivity|].
  destruct l; [rewrite !skipn_nil; reflexivity|]. rewrite Nat.add_succ_r. apply IH.
Qed.

Lemma fold_left_none {A X} (f : option X -> A -> option X) :
  (forall a, f None a = None) -> forall l, fold_left f l None = None.
Proof. intros H l. induction l as [|a l IH]; cbn [fold_left]; [reflexivity | rewrite H; exact IH]. Qed.

Lemma StronglySorted_app {A} (R : A -> A -> Prop) l1 l2 :
  StronglySorted R l1 -> StronglySorted R l2 -> (forall a b, In a l1 -> In b l2 -> R a b) -> StronglySorted R (l1 ++ l2).
Proof.
  induction 1 as [|a l1 _ IH Ha]; cbn [app]; intros H2 H; [exact H2|]. constructor.
  - apply IH; [exact H2|]. intros x y Hx. apply H. right. exact Hx.
  - apply Forall_app. split; [exact Ha|]. apply Forall_forall. intros b Hb. apply H; [left; reflexivity | exact Hb].
Qed.
