(* Adjacent-pair sortedness as a boolean test, and stable insertion sort, for any comparison.
   `chain` and `insert` are Fixpoints of a Section: once the comparison is given, `chain N.ltb` is a plain
   `fix` over the list, convertible with a model's own Fixpoint of the same body written for that one
   comparison (C12 `sorted_names`, `insert_node`; C19 `ins_sorted`).  The lemmas here therefore apply to such a
   Fixpoint by `exact`, and `change sorted_names with (chain N.ltb)` turns the one into the other.  A Fixpoint
   that takes the comparison as an argument of its own `fix` (C09 `sorted_by`, `insert_by`) is not convertible
   and gets an equation by induction instead. *)
From Verif.Base Require Import Tactics.

Section Chain.
  Context {A : Type} (r : A -> A -> bool).

  Fixpoint chain (l : list A) : bool :=
    match l with
    | [] => true
    | a :: t => match t with [] => true | b :: _ => r a b && chain t end
    end.

  Lemma chain_cons a b t : chain (a :: b :: t) = r a b && chain (b :: t).
  Proof. reflexivity. Qed.

  Lemma chain_tail a l : chain (a :: l) = true -> chain l = true.
  Proof. destruct l; [reflexivity|]. cbn [chain]. rewrite andb_true_iff. tauto. Qed.

  Hypothesis r_trans : forall a b c, r a b = true -> r b c = true -> r a c = true.

  Lemma chain_cons_iff a l : chain (a :: l) = true <-> (forall b, In b l -> r a b = true) /\ chain l = true.
  Proof.
    revert a. induction l as [|b l IH]; intro a; [cbn; tauto|].
    change (chain (a :: b :: l)) with (r a b && chain (b :: l)). rewrite andb_true_iff, IH. split.
    - intros (Hab & Hb & Hl). split; [|tauto]. intros x [<-|Hx]; [exact Hab | exact (r_trans _ _ _ Hab (Hb x Hx))].
    - intros (Ha & Hl). split; [apply Ha; left; reflexivity | exact Hl].
  Qed.

  Lemma chain_head l a : chain (a :: l) = true -> forall b, In b l -> r a b = true.
  Proof. intro H. exact (proj1 (proj1 (chain_cons_iff a l) H)). Qed.

  Lemma chain_unique : (forall a b, r a b = true -> r b a = true -> a = b) ->
    forall a b, Permutation a b -> chain a = true -> chain b = true -> a = b.
  Proof.
    intro antisym. induction a as [|x a IH]; intros b P Ha Hb.
    - apply Permutation_nil in P. subst. reflexivity.
    - destruct b as [|y b]; [apply Permutation_sym, Permutation_nil in P; discriminate|].
      assert (x = y).
      { assert (H1 : In x (y :: b)) by (eapply Permutation_in; [exact P | left; reflexivity]).
        assert (H2 : In y (x :: a)) by (eapply Permutation_in; [apply Permutation_sym; exact P | left; reflexivity]).
        destruct H1 as [H1|H1]; [auto|]. destruct H2 as [H2|H2]; [auto|].
        apply antisym; eapply chain_head; eassumption. }
      subst y. f_equal. apply IH; [eapply Permutation_cons_inv; exact P | eapply chain_tail; eassumption ..].
  Qed.

  Hypothesis r_irrefl : forall a, r a a = false.

  Lemma chain_nodup l : chain l = true -> NoDup l.
  Proof.
    induction l as [|a l IH]; intro H; constructor; [|apply IH; eapply chain_tail; exact H].
    intro Hin. pose proof (chain_head l a H a Hin) as X. rewrite r_irrefl in X. discriminate.
  Qed.

  Lemma chain_ext a b : chain a = true -> chain b = true -> (forall x, In x a <-> In x b) -> a = b.
  Proof.
    intros Ha Hb E. apply chain_unique; [|apply NoDup_Permutation; auto using chain_nodup|assumption..].
    intros x y H1 H2. pose proof (r_trans x y x H1 H2) as X. rewrite r_irrefl in X. discriminate.
  Qed.
End Chain.

Lemma chain_map {A B} (r : B -> B -> bool) (f : A -> B) l : chain r (map f l) = chain (fun a b => r (f a) (f b)) l.
Proof. induction l as [|a [|b l] IH]; try reflexivity. cbn [map chain] in *. rewrite IH. reflexivity. Qed.

Section Insert.
  Context {A : Type} (leb : A -> A -> bool).

  (* stable: x goes before the first element it is not above *)
  Fixpoint insert (x : A) (l : list A) : list A :=
    match l with
    | [] => [x]
    | y :: t => if leb x y then x :: l else y :: insert x t
    end.
  Definition isort (l : list A) : list A := fold_right insert [] l.

  Lemma In_insert x l y : In y (insert x l) <-> x = y \/ In y l.
  Proof. induction l as [|z l IH]; cbn [insert]; [reflexivity|]. destruct (leb x z); cbn [In]; [reflexivity | rewrite IH; tauto]. Qed.

  Lemma In_isort l y : In y (isort l) <-> In y l.
  Proof. induction l as [|x l IH]; [reflexivity|]. cbn [isort fold_right]. rewrite In_insert. fold (isort l). rewrite IH. reflexivity. Qed.

  Lemma insert_perm x l : Permutation (x :: l) (insert x l).
  Proof.
    induction l as [|y l IH]; cbn [insert]; [apply Permutation_refl|].
    destruct (leb x y); [apply Permutation_refl|]. eapply perm_trans; [apply perm_swap | apply perm_skip, IH].
  Qed.

  Lemma isort_perm l : Permutation l (isort l).
  Proof. induction l as [|x l IH]; [constructor|]. eapply perm_trans; [apply perm_skip, IH | apply insert_perm]. Qed.

  (* stability: elements that satisfy f, when no one of them ranks strictly above another (f picks one
     class of equals, say), keep their input order *)
  Lemma insert_filter (f : A -> bool) x l :
    (forall y, f x = true -> leb x y = false -> f y = false) -> filter f (insert x l) = filter f (x :: l).
  Proof.
    intro Hf. induction l as [|y l IH]; [reflexivity|].
    cbn [insert]. destruct (leb x y) eqn:E; [reflexivity|].
    cbn [filter] in *. rewrite IH. destruct (f x) eqn:Fx; [|reflexivity].
    rewrite (Hf y eq_refl E). reflexivity.
  Qed.

  Lemma isort_filter (f : A -> bool) l :
    (forall x y, f x = true -> leb x y = false -> f y = false) -> filter f (isort l) = filter f l.
  Proof.
    intro Hf. induction l as [|x l IH]; [reflexivity|].
    cbn [isort fold_right]. fold (isort l). rewrite insert_filter by (apply Hf).
    cbn [filter]. rewrite IH. reflexivity.
  Qed.

  (* for a total comparison the result is sorted by it; no transitivity is needed *)
  Hypothesis leb_total : forall a b, leb a b = false -> leb b a = true.

  Lemma insert_chain x l : chain leb l = true -> chain leb (insert x l) = true.
  Proof.
    induction l as [|y l IH]; intro H; cbn [insert]; [reflexivity|]. destruct (leb x y) eqn:E.
    - rewrite chain_cons, E. exact H.
    - specialize (IH (chain_tail _ _ _ H)). destruct l as [|z l]; cbn [insert] in *.
      + rewrite chain_cons, (leb_total _ _ E). reflexivity.
      + destruct (leb x z).
        * rewrite chain_cons, (leb_total _ _ E). exact IH.
        * rewrite chain_cons in H |- *. apply andb_true_iff in H as [H _]. rewrite H. exact IH.
  Qed.

  Lemma isort_chain l : chain leb (isort l) = true.
  Proof. induction l as [|x l IH]; [reflexivity | exact (insert_chain x _ IH)]. Qed.
End Insert.
